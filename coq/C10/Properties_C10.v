(* C10 - property theorems (the lemmas they rest on are in LexerTotal.v, ExprTotal.v, ExprGuard.v, PreprocTotal.v,
   TypedefsTotal.v, StructGraphTotal.v).

   C10 demands that the front end ends on every input, in time proportional to the input.  What
   can be a theorem is a statement about the MODELS of the three front-end stages (preprocessor
   model of coq/C17, lexer model, expression-ladder model): termination measures, fuel that
   never runs out, progress of every loop.  Memory safety of the C++ and the statement and
   declaration parsers are outside every theorem here (sanitizer runs in harness/props/c10.py). *)
From Coq Require Import List NArith Bool String Lia.
From Cb Require Import C17.Model C10.Model C10.Lexer C10.ExprParse C10.LexerTotal C10.ExprTotal C10.ExprGuard C10.PreprocTotal
  C10.Typedefs C10.TypedefsTotal C10.StructGraph C10.StructGraphTotal.
Import ListNotations.

(* every activation of nextToken consumes at least one byte, or delivers TOK_EOF at the end *)
Theorem lex_step_progress : forall s : Lexer.str,
  match lex_step s with
  | Skip r => List.length r < List.length s
  | Tok t r => (t = tok_eof /\ r = []) \/ List.length r < List.length s
  end.
Proof. exact lex_step_progress_l. Qed.
Print Assumptions lex_step_progress.

(* every byte string yields a token list that ends in TOK_EOF or TOK_ERROR, has only ordinary
   tokens before that, within |input|+1 activations of nextToken *)
Theorem lex_total_linear : forall s : Lexer.str,
  exists ts t, lex_all s = ts ++ [t] /\ final_tok t /\ Forall ordinary ts /\
               List.length (lex_all s) <= List.length s + 1 /\
               lex_steps (S (List.length s)) s <= List.length s + 1.
Proof.
  intros s. unfold lex_all.
  destruct (lex_total_l (S (List.length s)) s ltac:(lia)) as (ts & t & E & Ft & Fo & L1 & L2).
  exists ts, t. rewrite E. repeat split; auto; try lia.
  rewrite app_length. simpl. lia.
Qed.
Print Assumptions lex_total_linear.

Theorem lex_fuel_irrelevant : forall (s : Lexer.str) k, lex (S (List.length s) + k) s = lex_all s.
Proof. intros. unfold lex_all. apply lex_fuel_irrelevant_l; lia. Qed.
Print Assumptions lex_fuel_irrelevant.

(* recursion depth K*(|tokens|+1), K = 15 (= ladder height 10 + 5), is enough for every token list *)
Theorem parse_expr_total_linear : forall (ts : list tok) f,
  K * (List.length ts + 1) <= f -> p_assign f ts <> Fuel.
Proof. exact parse_total_l. Qed.
Print Assumptions parse_expr_total_linear.

(* a successful parse consumes at least one token: every loop of the ladder advances *)
Theorem parse_expr_progress : forall f (ts : list tok) e r,
  p_assign f ts = Ok (e, r) -> List.length r < List.length ts.
Proof.
  (* with little fuel the call may be Fuel; when it is Ok the answer is that of a run with enough fuel *)
  intros f ts e r E.
  pose proof (parse_good ts (f + need (List.length ts)) ltac:(lia)) as G.
  rewrite fuel_mono_l, E in G by (rewrite E; discriminate). cbn [good] in G. lia.
Qed.
Print Assumptions parse_expr_progress.

(* lexer and ladder composed: the verdict on println(<any byte string>); is never "out of fuel" *)
Theorem front_end_verdict_total : forall src : Lexer.str, expr_verdict src <> VFuel.
Proof.
  intros src. unfold expr_verdict.
  destruct (negb (ends_in_eof (lex_all src)) || existsb is_other (expr_tokens src)); [discriminate|].
  pose proof (parse_never_fuel_l (expr_tokens src)) as H.
  destruct (parse (expr_tokens src)) as [[e r]| |]; try discriminate; [|congruence].
  destruct r as [|t r]; try discriminate.
  destruct t; try discriminate.
  destruct r as [|t r]; try discriminate.
  destruct t; try discriminate.
  destruct r; discriminate.
Qed.
Print Assumptions front_end_verdict_total.

(* the generic-call look-ahead of parsePrimary AS CODED since fix 98a0163 (at most 256 loop iterations per
   "identifier <") reads at most 256 * |tokens| tokens on every token list (former finding #38 / C10-lookahead-quadratic) *)
Theorem lookahead_linear : forall ts : list tok, scan_total_b ts <= scan_bound * List.length ts.
Proof.
  induction ts as [|t ts IH]; [cbn; lia|].
  cbn [scan_total_b List.length].
  destruct t; try lia.
  destruct ts as [|t2 r1]; [cbn in *; lia|].
  destruct t2; try lia.
  destruct o; try lia.
  pose proof (scan_b_cost_le r1 scan_bound 1). lia.
Qed.
Print Assumptions lookahead_linear.

(* why the bound is needed: the same loop WITHOUT the iteration bound (the code before 98a0163) is not linear -
   a change that removes the bound re-opens this *)
Theorem lookahead_unbounded_hazard : ~ exists c, forall ts : list tok, scan_total ts <= c * List.length ts.
Proof.
  intros [c H]. destruct (lookahead_quadratic_l c) as [ts Hts]. specialize (H ts). lia.
Qed.
Print Assumptions lookahead_unbounded_hazard.

(* a stack budget only ever turns an answer into "too deep" (Fuel): a run that fits answers the same with any larger budget *)
Theorem nesting_guard_monotone : forall k f (ts : list tok),
  p_assign f ts <> Fuel -> p_assign (f + k) ts = p_assign f ts.
Proof. exact fuel_mono_l. Qed.
Print Assumptions nesting_guard_monotone.

(* for EVERY budget the guarded parse is "too deep" or it is the parse: the guard cannot change a verdict *)
Theorem nesting_guard_sound : forall b (ts : list tok), p_assign b ts = Fuel \/ p_assign b ts = parse ts.
Proof.
  intros b ts.
  assert (H : p_assign b ts <> Fuel -> p_assign b ts = parse ts).
  { intros N. unfold parse. apply fuel_agree; [exact N | apply parse_total_l; lia]. }
  destruct (p_assign b ts); [right; apply H; discriminate | right; apply H; discriminate | left; reflexivity].
Qed.
Print Assumptions nesting_guard_sound.

(* each of the eight self-recursive prefix productions of parseUnary (await try checked ! - ~ & star) costs a frame per token:
   a chain of n of them, in any mix and whatever follows, exhausts every budget <= n + 13.  The stack needed is unbounded
   in the input on EACH branch, so the stack check has to be on the common path of parseUnary (seeded change C10-1) *)
Theorem prefix_chain_needs_stack : forall (pre rest : list tok) f,
  forallb is_prefix pre = true -> f <= List.length pre + 13 -> p_assign f (pre ++ rest) = Fuel.
Proof.
  intros pre rest f Hp Hf. apply (fuel_antitone f (13 + List.length pre)); [lia|].
  rewrite p_assign_at. apply unary_to_assign, prefix_chain_unary, Hp.
Qed.
Print Assumptions prefix_chain_needs_stack.

(* nested parentheses cost the whole ladder (K = 15 frames) per level *)
Theorem paren_chain_needs_stack : forall n (rest : list tok) f,
  f <= K * n -> p_assign f (repeat TLP n ++ rest) = Fuel.
Proof.
  intros n rest f Hf. apply (fuel_antitone f (K * n) _ Hf). clear f Hf.
  rewrite p_assign_at. induction n as [|n IH]; [reflexivity|].
  replace (K * S n) with (13 + S (S (K * n))) by (unfold K; lia).
  cbn [repeat app]. apply unary_to_assign, paren_to_unary, IH.
Qed.
Print Assumptions paren_chain_needs_stack.

(* the find-loop of expandMacros for a NON-EMPTY macro name ends within |line| - pos + 1 iterations *)
Theorem preproc_search_total : forall f name s rs pos, name <> [] ->
  List.length s - pos < f -> search3 f name s rs pos <> SFuel.
Proof.
  induction f as [|f IH]; intros name s rs pos Hn Hf; [lia|].
  cbn [search3]. destruct (find_from name s pos) as [p|] eqn:F; [|discriminate].
  apply find_from_bounds in F as (F1 & F2 & F3); auto.
  destruct (in_string p rs); [apply IH; auto; lia|].
  destruct (start_valid s p && end_valid s p (List.length name)); [discriminate|].
  apply IH; auto; lia.
Qed.
Print Assumptions preproc_search_total.

(* search3 is C17.Model.search with the two kinds of "None" told apart *)
Theorem preproc_search3_is_search : forall f name s rs pos,
  match search3 f name s rs pos with
  | SFound p => search f name s rs pos = Some p
  | SNone | SFuel => search f name s rs pos = None
  end.
Proof.
  induction f as [|f IH]; intros name s rs pos; cbn [search3 search]; [reflexivity|].
  destruct (find_from name s pos) as [p|]; [|reflexivity].
  destruct (in_string p rs); [apply IH|].
  destruct (start_valid s p && end_valid s p (List.length name)); [reflexivity|apply IH].
Qed.
Print Assumptions preproc_search3_is_search.

(* hence the fuel S |line| that C17.Model.pass/sweep pass to search is never the reason for None *)
Theorem preproc_search_fuel_irrelevant : forall name s rs k, name <> [] ->
  search (S (List.length s) + k) name s rs 0 = search (S (List.length s)) name s rs 0.
Proof. intros. apply search_fuel_irrelevant_l; auto; lia. Qed.
Print Assumptions preproc_search_fuel_irrelevant.

(* the per-macro replacement loop ends within |line| + 1 iterations *)
Theorem preproc_sweep_fuel_sufficient : forall limit name body s ch k, name <> [] ->
  sweep (S (List.length s) + k) limit name body s 0 ch = sweep (S (List.length s)) limit name body s 0 ch.
Proof. intros. apply sweep_fuel_sufficient_l; auto; lia. Qed.
Print Assumptions preproc_sweep_fuel_sufficient.

(* the expanded line is at most |line| + 16 KiB + the longest macro body long (growth bound of
   expandMacros, repair 6b05a50 of the former finding C10-selfref-macro-exponential): with at most
   100 passes and at most |text|+1 iterations per macro and pass, expansion work is bounded by a
   polynomial in |line| and the table, never by 2^100 *)
Theorem preproc_expand_size_bounded : forall t line,
  (N.of_nat (List.length (fst (expand t line))) <=
   N.of_nat (List.length line) + max_growth + N.of_nat (max_body t))%N.
Proof.
  intros t line. unfold expand.
  apply (passes_size max_iterations (N.of_nat (List.length line) + max_growth)%N t line).
  unfold fits, max_growth. lia.
Qed.
Print Assumptions preproc_expand_size_bounded.

(* #define never creates an object-like macro with an empty name, and process preserves that *)
Theorem preproc_define_name_nonempty : forall line n b,
  classify line = KPlain (PDefine n b false) -> n <> [].
Proof. exact classify_define_nonempty. Qed.
Print Assumptions preproc_define_name_nonempty.

Theorem preproc_table_names_nonempty : forall t file lines,
  names_nonempty t -> names_nonempty (tab (process t file lines)).
Proof.
  intros t file lines H. unfold process, finish.
  pose proof (nonempty_run lines (mkp [] (init_core t file)) H) as R.
  destruct (stack (run _ _)); [exact R | exact R].
Qed.
Print Assumptions preproc_table_names_nonempty.

(* why pass must skip a macro with an empty name (it does since e201f6d; before, main -D=5 hung):
   with an empty name the find loop never advances, so termination of the loop itself, without
   the non-emptiness hypothesis of preproc_search_total, is refuted *)
Theorem preproc_search_total_refuted :
  ~ forall name s rs pos, exists f, search3 f name s rs pos <> SFuel.
Proof.
  intros H. destruct (H [] line_a [] 0) as [f Hf]. apply Hf. apply search_empty_name_spins.
Qed.
Print Assumptions preproc_search_total_refuted.

(* Loops over the parser's TABLES consume no token; their termination is a property of the table walk itself.
   TypeUtilityParser::resolveTypedefChain AS CODED (visited set) ends within |typedef_map_| + 1 iterations on EVERY table -
   cycles of any length, entered from anywhere, included *)
Theorem typedef_resolve_total : forall (t : tables) (s : string), resolve t s <> RFuel.
Proof. exact resolve_total_l. Qed.
Print Assumptions typedef_resolve_total.

Theorem typedef_resolve_fuel_irrelevant : forall (t : tables) (s : string) k,
  resolve_loop (S (List.length (tm t)) + k) t [] s = resolve t s.
Proof. intros. unfold resolve. apply resolve_loop_mono. apply resolve_total_l. Qed.
Print Assumptions typedef_resolve_fuel_irrelevant.

(* ... and it is not just any terminating function: where the chain of a name ends (reference semantics [walk]:
   follow typedef_map_ until a target that is no key, or a self-mapped anonymous struct), the loop returns the chain's end *)
Theorem typedef_resolve_computes_chain : forall (t : tables) (s : string) n r, walk t s n r -> resolve t s = RDone r.
Proof.
  intros t s n r W. unfold resolve. eapply resolve_loop_walk; [exact W| |intros x []].
  pose proof (walk_short _ _ _ _ W). lia.
Qed.
Print Assumptions typedef_resolve_computes_chain.

(* a chain that ends has fewer loop-backs than typedef_map_ has entries *)
Theorem typedef_chain_short : forall (t : tables) (s : string) n r, walk t s n r -> n < List.length (tm t) + 1.
Proof. exact walk_short. Qed.
Print Assumptions typedef_chain_short.

(* where the chain does NOT end (it runs into a cycle, through the start or not), the answer is "" - the caller's
   "Unknown type: ..." diagnostic, exit status 1 *)
Theorem typedef_cycle_is_unknown_type : forall (t : tables) (s : string),
  (forall n r, ~ walk t s n r) -> resolve t s = RDone EmptyString.
Proof.
  intros t s Hno. destruct (resolve t s) as [|r] eqn:E.
  - exfalso. eapply resolve_total_l. exact E.
  - unfold resolve in E. destruct (resolve_loop_sound _ _ _ _ _ E) as [[n W]| ->]; [|reflexivity].
    exfalso. eapply Hno. exact W.
Qed.
Print Assumptions typedef_cycle_is_unknown_type.

(* typedef BASE ALIAS; stores the END of BASE's chain (flattened): the stored value is no alias of something else at
   that moment.  Only  typedef struct TAG {..} ALIAS;  stores a name unflattened (ALIAS -> TAG) - the one way a cycle
   can be closed, which is what the declaration-level generators of harness/props/c10.py aim at *)
Theorem typedef_alias_registered_flat : forall (t : tables) base alias t',
  td_step t (DTAlias base alias) = (t', None) ->
  exists v, td_lookup (tm t') alias = Some v /\ (td_lookup (tm t) v = None \/ td_lookup (tm t) v = Some v).
Proof.
  intros t base alias t' H. cbn [td_step] in H.
  destruct (td_lookup (tm t) base) as [x|] eqn:Hb.
  - destruct (String.eqb (resolved t base) "") eqn:Er; [discriminate|].
    inversion H; subst; clear H. exists (resolved t base). cbn [tm with_tm]. split; [apply lookup_set_same|].
    apply String.eqb_neq in Er. unfold resolved in *.
    destruct (resolve t base) as [|r] eqn:E; [congruence|].
    unfold resolve in E. eapply resolve_loop_result_flat; eassumption.
  - destruct (mem (sdefs t) base || mem (edefs t) base); [|discriminate].
    inversion H; subst; clear H. exists base. cbn [tm with_tm]. split; [apply lookup_set_same|left; exact Hb].
Qed.
Print Assumptions typedef_alias_registered_flat.

(* why the visited SET is needed (seeded change C10-3 replaced it by "did the chain come back to the name it started
   from"): that loop does not terminate on the tables of a three-line program - typedef struct T {..} A; typedef A C;
   typedef struct A {..} T; - when asked for C: the chain C -> T -> A -> T -> ... never meets C again *)
Theorem typedef_start_only_check_total_refuted :
  ~ forall (prog : list decl) (s : string), exists f, startonly_loop f (fst (td_run empty_tables prog)) s s <> RFuel.
Proof.
  intros H. destruct (H rho_program "C"%string) as [f Hf]. apply Hf. apply startonly_diverges_l.
Qed.
Print Assumptions typedef_start_only_check_total_refuted.

(* TypeUtilityParser::detectCircularReference AS CODED (since fix 08b0ce5 every walked struct stays in `visited`) recurses at
   most |struct_definitions_| + 1 deep on EVERY table and for every start / member type: no arrangement of struct definitions -
   cycles through the struct being defined or elsewhere - makes the check run forever or overflow the stack by itself *)
Theorem struct_cycle_check_total : forall (g : sgraph) (start ty : string),
  detect (S (List.length g)) g start ty [] <> None.
Proof. exact detect_total_l. Qed.
Print Assumptions struct_cycle_check_total.

(* the check made by  struct N { .. };  for each value member is therefore always decided *)
Theorem struct_decl_check_decided : forall (g : sgraph) n ms (m : member),
  let g1 := sg_set g n (mkS false ms) in
  detect (S (List.length g1)) g1 n (fst m) [] = Some true \/ detect (S (List.length g1)) g1 n (fst m) [] = Some false.
Proof.
  intros g n ms m g1. pose proof (detect_total_l g1 n (fst m)) as H.
  destruct (detect (S (List.length g1)) g1 n (fst m) []) as [[|]|]; [left|right|]; try reflexivity. congruence.
Qed.
Print Assumptions struct_decl_check_decided.

(* COST of one check (repair of finding C10-struct-diamond-exponential, fix 08b0ce5).  Every struct is walked at most once per
   check: the structs whose member loop was entered ([detect_walked] = `visited` when the check returns) are pairwise
   different names of the table ... *)
Theorem struct_cycle_check_walks_each_struct_once : forall (g : sgraph) (start ty : string),
  NoDup (detect_walked g start ty) /\ incl (detect_walked g start ty) (map fst g).
Proof. exact detect_walked_once_l. Qed.
Print Assumptions struct_cycle_check_walks_each_struct_once.

(* ... every activation of detectCircularReference is the first one or the visit of one value member of a walked struct ... *)
Theorem struct_cycle_check_calls_by_walked : forall (g : sgraph) (start ty : string),
  detect_calls g start ty <= 1 + nv_sum g (detect_walked g start ty).
Proof. exact detect_calls_walked_l. Qed.
Print Assumptions struct_cycle_check_calls_by_walked.

(* ... hence the LINEAR bound, for every table (duplicate-free or not), start and member type: at most one activation per value
   member of the table plus the first; in the words of the repair: the number of recursive calls is at most
   |struct_definitions_| + number of member edges *)
Theorem struct_cycle_check_linear : forall (g : sgraph) (start ty : string),
  detect_calls g start ty <= 1 + value_edges g.
Proof. exact detect_calls_linear_l. Qed.
Print Assumptions struct_cycle_check_linear.

Theorem struct_cycle_check_recursive_calls : forall (g : sgraph) (start ty : string),
  detect_calls g start ty - 1 <= List.length g + member_edges g.
Proof.  intros. pose proof (detect_calls_linear_l g start ty). pose proof (value_edges_le_member_edges g). lia. Qed.
Print Assumptions struct_cycle_check_recursive_calls.

(* a whole definition  struct N { m1; ..; mk };  runs one check per value member: at most k * (1 + value members of the table) *)
Theorem struct_decl_check_cost : forall (g1 : sgraph) n (ms : list member),
  decl_check_calls g1 n ms <= nvl ms * (1 + value_edges g1).
Proof.
  intros g1 n ms. induction ms as [|[mt k] r IH]; [cbn; lia|].
  unfold nvl in *. cbn [decl_check_calls fold_right filter snd fst]. fold (decl_check_calls g1 n r).
  destruct (is_value k); [|exact IH]. cbn [List.length]. pose proof (detect_calls_linear_l g1 n mt). lia.
Qed.
Print Assumptions struct_decl_check_cost.

(* keeping the marks loses no answer: the check says `true` exactly when the struct being defined is reached from the member's
   type along value members through defined structs ([reach], the reference meaning of a value-member cycle) *)
Theorem struct_cycle_check_correct : forall (g : sgraph) (start ty : string),
  detect (S (List.length g)) g start ty [] = Some true <-> reach g start ty.
Proof.
  intros g start ty. split.
  - apply detectc_true.
  - intros Hr. pose proof (detect_total_l g start ty) as Ht.
    destruct (detect (S (List.length g)) g start ty []) as [[|]|] eqn:Hd; [reflexivity| |congruence].
    exfalso. exact (detect_false_not_reach _ _ _ _ Hd Hr).
Qed.
Print Assumptions struct_cycle_check_correct.

(* the hypotheses are satisfiable / the models compute *)
(* the family of the former finding: struct M0 {int v;}; struct M(i+1) { Mi a; Mi b; };  is accepted; the last definition's two
   checks cost 4n - 2 activations; with the walk as it was before 08b0ce5 ([detectu]: a struct reached along two paths is walked
   twice) they cost 2^(n+1) - 2 *)
Example struct_diamond_cost :
  map (fun n => snd (sg_run [] (diamond n))) [1; 5; 9] = [None; None; None] /\
  map diamond_calls [1; 2; 3; 4; 5; 6; 7; 8; 9; 10] = [2; 6; 10; 14; 18; 22; 26; 30; 34; 38] /\
  map diamond_calls_before_fix [1; 2; 3; 4; 5; 6; 7; 8; 9; 10] = [2; 6; 14; 30; 62; 126; 254; 510; 1022; 2046].
Proof. vm_compute. repeat split; reflexivity. Qed.
Example struct_reach_sample :
  let g := fst (sg_run [] [SDef "A" []; SDef "B" [("A", MValue)]; SDef "A" [("B", MValue)]]%string) in
  reach g "A"%string "B"%string /\ detect_walked g "A"%string "B"%string = ["B"]%string /\ detect_walked g "C"%string "B"%string = ["A"; "B"]%string.
Proof.
  split; [|split; vm_compute; reflexivity].
  eapply reach_step with (d := mkS false [("A", MValue)]%string) (mt := "A"%string); [vm_compute; reflexivity|reflexivity|left; reflexivity|].
  eapply reach_here with (d := mkS false [("B", MValue)]%string); [vm_compute; reflexivity|reflexivity].
Qed.
Example struct_cycle_samples :
  map (fun ds => snd (sg_run [] ds))
    [[SDef "A" [("A", MValue)]]; [SDef "A" [("A", MPtr)]]; [SDef "A" [("A", MArr)]];
     [SDef "A" []; SDef "B" [("A", MValue)]; SDef "A" [("B", MValue)]];
     [SFwd "B"; SDef "A" [("B", MValue)]; SDef "B" [("A", MPtr)]];
     [SFwd "B"; SDef "A" [("B", MValue)]; SDef "B" [("A", MValue)]]]%string =
  [Some (ESelfRec "A"); None; Some (ESelfRec "A"); Some (ECircular "A"); None; Some (ECircular "B")]%string.
Proof. vm_compute. reflexivity. Qed.
Example typedef_rho_tables :
  tm (fst (td_run empty_tables rho_program)) = [("A", "T"); ("C", "T"); ("T", "A")]%string /\
  snd (td_run empty_tables rho_program) = None /\
  map (resolved (fst (td_run empty_tables rho_program))) ["A"; "C"; "T"]%string = [""; ""; ""]%string.
Proof. vm_compute. repeat split; reflexivity. Qed.
Example typedef_chain_sample :
  let t := fst (td_run empty_tables [DTPrim "int[3]" "V"; DTStruct "S" "P"; DTStruct "P" "Q"; DTAlias "Q" "R"; DTAnon "N"]%string) in
  map (resolved t) ["V"; "P"; "Q"; "R"; "N"; "S"; "Z"]%string = ["int[3]"; "S"; "S"; "S"; "N"; "S"; ""]%string /\
  walk t "Q"%string 1 "S"%string.
Proof.
  split; [vm_compute; reflexivity|].
  eapply W_step with (next := "P"%string) (v := "S"%string); [vm_compute; reflexivity|discriminate|vm_compute; reflexivity|].
  apply W_out; [vm_compute; reflexivity|discriminate|vm_compute; reflexivity].
Qed.
Example dash_d_empty_name : fst (dash_d (s2l "=5")) = [] /\ snd (dash_d (s2l "=5")) = s2l "5".
Proof. vm_compute. auto. Qed.
Example dash_d_plain : dash_d (s2l "DEBUG") = (s2l "DEBUG", s2l "1").
Proof. vm_compute. reflexivity. Qed.
Example lex_sample : map tname (lex_all (Lexer.s2l "a<<=1; // c")) =
  ["TOK_IDENTIFIER"; "TOK_LSHIFT_ASSIGN"; "TOK_NUMBER"; "TOK_SEMICOLON"; "TOK_EOF"]%string.
Proof. vm_compute. reflexivity. Qed.
Example verdict_sample :
  map (fun s => expr_verdict (Lexer.s2l s)) ["a + b * 2"; "a +"; "a ? b : c"; "f(a, b)[3].x++"; "((a)) - 1"]%string =
  [VAccept; VReject; VAccept; VAccept; VAccept].
Proof. vm_compute. reflexivity. Qed.
Example verdict_prefix_keywords :
  map (fun s => expr_verdict (Lexer.s2l s)) ["try a"; "await checked try -a"; "try"; "checked ! ~ a + try b"; "a try b"]%string =
  [VAccept; VAccept; VReject; VAccept; VReject].
Proof. vm_compute. reflexivity. Qed.
Example prefix_chain_hypothesis_satisfiable :
  forallb is_prefix [TKw KTry; TKw KChecked; TKw KAwait; TNot; TOp Sub; TTilde; TOp BAnd; TOp Mul] = true.
Proof. reflexivity. Qed.
Example chain_is_accepted : exists e, parse (chain 5 ++ [TRP; TSemi]) = Ok (e, [TRP; TSemi]).
Proof. apply chain_parses. lia. Qed.
