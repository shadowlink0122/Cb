(* C10 - the nesting guard of the parser, read on the expression-ladder model (ExprParse.v).

   The fuel of the model IS the C++ stack: one unit per frame.  RecursiveParser::checkNesting
   (fix a7f38de; called at the top of parseAssignment, parseTernary, parseUnary, parseStatement,
   parseType) turns "no stack left" into the diagnostic "Nesting too deep" - in the model that is
   the answer [Fuel] of a run with fuel = the budget.  This file proves what such a guard may and
   may not do:

   ladder_step_mono, fuel_mono_l : a run that did not answer Fuel answers the same with ANY larger budget
                        (one more unit: all eight functions) - the guard never changes a verdict,
                        it only ever replaces one by "too deep"; hence two budgets that both suffice
                        agree (fuel_agree), and what is too deep for a budget is too deep for every
                        smaller one (fuel_antitone);
   prefix_chain_unary, unary_to_assign : every one of the eight self-recursive prefix productions of
                        parseUnary (await, try, checked, ! - ~ & star) costs one frame per token, and
                        parseUnary is 13 frames below parseAssignment: a chain of n of them answers
                        Fuel for every budget <= n + 13, whatever follows.  The stack a prefix chain
                        needs is therefore unbounded in the input, for EACH of the eight productions:
                        a guard that is only on some of the branches leaves the others to overflow
                        the real stack (seeded change C10-1);
   paren_to_unary     : an opening parenthesis costs the two frames from parseUnary to the next
                        parseAssignment, K = 13 + 2 per level of nesting;
   scan_b_cost_le     : the bounded generic-call look-ahead of fix 98a0163 reads at most 256 tokens
                        per start. *)
From Coq Require Import List Arith Lia.
From Cb Require Import C10.ExprParse C10.ExprTotal.
Import ListNotations.

Notation ln := (@List.length tok).

(* [y] is [x] unless [x] ran out of fuel *)
Definition le_res {A} (x y : res A) : Prop := x <> Fuel -> y = x.

Lemma le_res_refl {A} (x : res A) : le_res x x.
Proof. intros _. reflexivity. Qed.

Lemma le_res_bind {A B} (x y : res A) (k k' : A -> res B) :
  le_res x y -> (forall a, le_res (k a) (k' a)) -> le_res (bind x k) (bind y k').
Proof.
  intros Hx Hk N. destruct x as [a| |]; [|rewrite Hx by discriminate; reflexivity|destruct N; reflexivity].
  rewrite Hx by discriminate. apply Hk, N.
Qed.

Lemma le_res_bind_same {A B} (x y : res A) (k : A -> res B) : le_res x y -> le_res (bind x k) (bind y k).
Proof. intros H. apply le_res_bind; [exact H | intros a; apply le_res_refl]. Qed.

Set Implicit Arguments.
Record ladder_le (p q : ladder) : Prop := {
  le_assign : forall ts, le_res (l_assign p ts) (l_assign q ts);
  le_tern : forall ts, le_res (l_tern p ts) (l_tern q ts);
  le_bin : forall l ts, le_res (l_bin p l ts) (l_bin q l ts);
  le_loop : forall l acc ts, le_res (l_loop p l acc ts) (l_loop q l acc ts);
  le_unary : forall ts, le_res (l_unary p ts) (l_unary q ts);
  le_post : forall e ts, le_res (l_post p e ts) (l_post q e ts);
  le_primary : forall ts, le_res (l_primary p ts) (l_primary q ts);
  le_args : forall ts, le_res (l_args p ts) (l_args q ts) }.
Unset Implicit Arguments.

(* one lemma per function: every body is built from [bind], which is monotone, and from case distinctions on
   what the calls returned; only parseTernary inspects the result of a call directly *)
Section Step.
Variables p q : ladder.
Hypothesis H : ladder_le p q.

Lemma postfix_mono ts : le_res (postfix p ts) (postfix q ts).
Proof. apply le_res_bind; [apply (le_primary H) | intros [e r1]; apply (le_post H)]. Qed.

Lemma assign_mono ts : le_res (l_assign (ladder_step p) ts) (l_assign (ladder_step q) ts).
Proof.
  cbn [ladder_step l_assign]. apply le_res_bind; [apply (le_tern H)|].
  intros [l [|[] r]]; try apply le_res_refl. apply le_res_bind_same, (le_assign H).
Qed.

Lemma tern_mono ts : le_res (l_tern (ladder_step p) ts) (l_tern (ladder_step q) ts).
Proof.
  cbn [ladder_step l_tern]. apply le_res_bind; [apply (le_bin H)|].
  intros [c [|[] r]]; try apply le_res_refl.
  destruct (closer r); [apply le_res_refl|]. intros N.
  destruct (l_tern p r) as [[a r2]| |] eqn:E1; [| |destruct N; reflexivity];
    rewrite (le_tern H r), E1 by (rewrite E1; discriminate); [|reflexivity].
  destruct r2 as [|[] r2]; try reflexivity.
  destruct (l_tern p r2) as [[b r3]| |] eqn:E2; [| |destruct N; reflexivity];
    rewrite (le_tern H r2), E2 by (rewrite E2; discriminate); reflexivity.
Qed.

Lemma bin_mono l ts : le_res (l_bin (ladder_step p) l ts) (l_bin (ladder_step q) l ts).
Proof.
  cbn [ladder_step l_bin]. destruct (L <? l); [apply (le_unary H)|].
  apply le_res_bind; [apply (le_bin H) | intros [a r]; apply (le_loop H)].
Qed.

Lemma loop_mono l acc ts : le_res (l_loop (ladder_step p) l acc ts) (l_loop (ladder_step q) l acc ts).
Proof.
  cbn [ladder_step l_loop]. destruct ts as [|[] r]; try apply le_res_refl.
  destruct (lvl o =? l); [|apply le_res_refl].
  apply le_res_bind; [apply (le_bin H) | intros [b r']; apply (le_loop H)].
Qed.

Lemma unary_mono ts : le_res (l_unary (ladder_step p) ts) (l_unary (ladder_step q) ts).
Proof.
  cbn [ladder_step l_unary]. destruct (unary_tok ts) as [[u r]|].
  - apply le_res_bind_same, (le_unary H).
  - destruct ts as [|[] r]; try apply postfix_mono; apply le_res_bind_same, postfix_mono.
Qed.

Lemma post_mono e ts : le_res (l_post (ladder_step p) e ts) (l_post (ladder_step q) e ts).
Proof.
  cbn [ladder_step l_post]. destruct ts as [|[] r]; try apply le_res_refl.
  - apply le_res_bind; [apply (le_assign H)|]. intros [i [|[] r']]; try apply le_res_refl. apply (le_post H).
  - destruct r as [|[] r]; try apply le_res_refl. destruct (starts_lp r); [apply le_res_refl | apply (le_post H)].
  - destruct r as [|[] r]; try apply le_res_refl. destruct (starts_lp r); [apply le_res_refl | apply (le_post H)].
Qed.

Lemma primary_mono ts : le_res (l_primary (ladder_step p) ts) (l_primary (ladder_step q) ts).
Proof.
  cbn [ladder_step l_primary]. destruct ts as [|[] r]; try apply le_res_refl.
  - destruct r as [|[] r1]; try apply le_res_refl.
    + destruct o; try apply le_res_refl.
      destruct (generic_scan_b scan_bound 1 r1); [|apply le_res_refl].
      destruct (targs_list (S (List.length r1)) 0 r1) as [[n [|[] r2]]|]; try apply le_res_refl.
      apply le_res_bind_same, (le_args H).
    + apply le_res_bind_same, (le_args H).
  - apply le_res_bind_same, (le_assign H).
Qed.

Lemma args_mono ts : le_res (l_args (ladder_step p) ts) (l_args (ladder_step q) ts).
Proof.
  cbn [ladder_step l_args].
  assert (Hrest : le_res (args_rest p ts) (args_rest q ts)).
  { apply le_res_bind; [apply (le_assign H)|]. intros [a [|[] r]]; try apply le_res_refl.
    assert (Hc : le_res (args_cons p a r) (args_cons q a r)) by apply le_res_bind_same, (le_args H).
    destruct r as [|[] r]; try exact Hc. apply le_res_refl. }
  destruct ts as [|[] r]; try exact Hrest. apply le_res_refl.
Qed.
End Step.

Lemma ladder_step_mono p q : ladder_le p q -> ladder_le (ladder_step p) (ladder_step q).
Proof.
  intros H. constructor.
  - apply assign_mono, H.
  - apply tern_mono, H.
  - apply bin_mono, H.
  - apply loop_mono, H.
  - apply unary_mono, H.
  - apply post_mono, H.
  - apply primary_mono, H.
  - apply args_mono, H.
Qed.

Lemma at_fuel_le : forall f, ladder_le (at_fuel f) (at_fuel (S f)).
Proof.
  intros f. rewrite at_fuel_S. revert f.
  apply (ladder_ind (fun _ p => ladder_le p (ladder_step p))); [|intros _ p; apply ladder_step_mono].
  constructor; intros; intros N; destruct N; reflexivity.
Qed.

Lemma fuel_mono_1 : forall f ts, p_assign f ts <> Fuel -> p_assign (S f) ts = p_assign f ts.
Proof. intros f ts. exact (le_assign (at_fuel_le f) ts). Qed.

Theorem fuel_mono_l : forall k f ts, p_assign f ts <> Fuel -> p_assign (f + k) ts = p_assign f ts.
Proof.
  induction k as [|k IH]; intros f ts H.
  - rewrite Nat.add_0_r. reflexivity.
  - rewrite Nat.add_succ_r, fuel_mono_1; rewrite IH; auto.
Qed.

Lemma fuel_agree : forall f g ts, p_assign f ts <> Fuel -> p_assign g ts <> Fuel -> p_assign f ts = p_assign g ts.
Proof.
  intros f g ts Hf Hg. rewrite <- (fuel_mono_l g f ts Hf), Nat.add_comm. apply fuel_mono_l, Hg.
Qed.

Lemma fuel_antitone : forall f g ts, f <= g -> p_assign g ts = Fuel -> p_assign f ts = Fuel.
Proof.
  intros f g ts Hle H. replace g with (f + (g - f)) in H by lia.
  destruct (p_assign f ts) eqn:E; try reflexivity;
    rewrite fuel_mono_l, E in H by (rewrite E; discriminate); discriminate H.
Qed.

Definition is_prefix (t : tok) : bool :=
  match t with
  | TKw _ | TNot | TTilde | TOp Sub | TOp BAnd | TOp Mul => true
  | _ => false
  end.

Lemma is_prefix_unary_tok : forall t r, is_prefix t = true -> exists u, unary_tok (t :: r) = Some (u, r).
Proof.
  intros t r H. destruct t; try discriminate; try (eexists; reflexivity).
  destruct o; try discriminate; eexists; reflexivity.
Qed.

Lemma prefix_chain_unary : forall pre rest,
  forallb is_prefix pre = true -> l_unary (at_fuel (ln pre)) (pre ++ rest) = Fuel.
Proof.
  induction pre as [|t pre IH]; intros rest Hp; [reflexivity|].
  cbn [forallb] in Hp. apply andb_prop in Hp. destruct Hp as [Ht Hp].
  cbn [List.length app]. rewrite at_fuel_S. cbn [ladder_step l_unary].
  destruct (is_prefix_unary_tok t (pre ++ rest) Ht) as [u Eu]. rewrite Eu, (IH rest Hp). reflexivity.
Qed.

(* p_assign -> p_tern -> p_bin 1 .. p_bin 11 -> p_unary: 13 frames; what starves parseUnary starves them *)
Lemma unary_to_bin : forall d l f ts, l + d = S L ->
  l_unary (at_fuel f) ts = Fuel -> l_bin (at_fuel (S (d + f))) l ts = Fuel.
Proof.
  induction d as [|d IH]; intros l f ts Hl Hu; rewrite at_fuel_S; cbn [ladder_step l_bin plus].
  - replace (L <? l) with true by (symmetry; apply Nat.ltb_lt; lia). exact Hu.
  - replace (L <? l) with false by (symmetry; apply Nat.ltb_ge; lia).
    rewrite (IH (S l) f ts); [reflexivity | lia | exact Hu].
Qed.

Lemma unary_to_assign : forall f ts, l_unary (at_fuel f) ts = Fuel -> l_assign (at_fuel (13 + f)) ts = Fuel.
Proof.
  intros f ts Hu. change (13 + f) with (S (S (S (10 + f)))).
  rewrite at_fuel_S. cbn [ladder_step l_assign]. rewrite at_fuel_S. cbn [ladder_step l_tern].
  rewrite (unary_to_bin 10 1 f ts); [reflexivity | reflexivity | exact Hu].
Qed.

(* an opening parenthesis: parseUnary -> parsePrimary -> parseAssignment, K = 13 + 2 frames per level *)
Lemma paren_to_unary : forall f r, l_assign (at_fuel f) r = Fuel -> l_unary (at_fuel (S (S f))) (TLP :: r) = Fuel.
Proof.
  intros f r H. rewrite at_fuel_S. cbn [ladder_step l_unary unary_tok]. unfold postfix.
  rewrite at_fuel_S. cbn [ladder_step l_primary].
  rewrite H. reflexivity.
Qed.

Lemma scan_b_cost_le : forall ts n d, generic_scan_b_cost n d ts <= n.
Proof.
  induction ts as [|t ts IH]; intros n d; cbn [generic_scan_b_cost]; [lia|].
  destruct n as [|n]; [lia|].
  destruct (scan_stop t); [lia|].
  destruct t; try (specialize (IH n d); lia).
  destruct o; try (specialize (IH n d); lia).
  - specialize (IH n (S d)). lia.
  - destruct d as [|[|d]]; try lia. specialize (IH n (S d)). lia.
Qed.
