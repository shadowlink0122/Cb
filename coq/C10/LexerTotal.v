(* C10 - totality and linear step bound of the lexer model (Lexer.v): every maker of a token returns a suffix of
   what it was given and nextToken has consumed a byte before it calls one, so an activation that does not deliver
   TOK_EOF shortens the input ([lex_step_progress_l]) and more than |input| units of fuel are never used up. *)
From Coq Require Import List Arith Bool Ascii Lia.
From Cb Require Import C10.Lexer.
Import ListNotations.

Notation len := (@List.length ascii).
Definition rest_of (st : step) : str := match st with Skip r => r | Tok _ r => r end.

Ltac length_lia := cbn [List.length] in *; lia.

Lemma drop_while_le f s : len (drop_while f s) <= len s.
Proof. induction s as [|c r IH]; simpl; [lia|]. destruct (f c); simpl; lia. Qed.

Lemma tl_le (s : str) : len (tl s) <= len s.
Proof. destruct s; simpl; lia. Qed.

Lemma skip_block_le s : len (skip_block s) <= len s.
Proof.
  induction s as [|c r IH]; simpl; [lia|].
  destruct (ceq c "*").
  - destruct r as [|d r']; simpl; [lia|]. destruct (ceq d "/"); simpl in *; lia.
  - lia.
Qed.

Lemma skip_line_le s : len (skip_line s) <= len s.
Proof. apply drop_while_le. Qed.

Lemma make_ident_le c r : len (snd (make_ident c r)) <= len r.
Proof. unfold make_ident. simpl. apply drop_while_le. Qed.

Lemma num_frac_le r : len (num_frac r) <= len r.
Proof.
  unfold num_frac. destruct r as [|p [|d r2]]; try lia.
  destruct (ceq p "." && is_digit d); [|lia].
  pose proof (drop_while_le is_digit (d :: r2)). length_lia.
Qed.

Lemma exp_digits_le r r5 : exp_digits r = Some r5 -> len r5 <= len r.
Proof.
  unfold exp_digits. destruct r as [|d r4]; [discriminate|].
  destruct (is_digit d); [|discriminate]. intros [= <-]. exact (drop_while_le is_digit (d :: r4)).
Qed.

Lemma num_exp_le r r5 : num_exp r = Some r5 -> len r5 <= len r.
Proof.
  unfold num_exp. destruct r as [|e [|nx r3]]; try (intros [= <-]; lia).
  destruct (is_e e && (is_digit nx || is_sign nx)); [|intros [= <-]; lia].
  intros H. apply exp_digits_le in H. pose proof (tl_le (nx :: r3)).
  destruct (is_sign nx); length_lia.
Qed.

Lemma make_number_le c r : len (snd (make_number c r)) <= len r.
Proof.
  unfold make_number.
  pose proof (drop_while_le is_digit r) as H1.
  pose proof (num_frac_le (drop_while is_digit r)) as H2.
  destruct (num_exp (num_frac (drop_while is_digit r))) as [r5|] eqn:E.
  - apply num_exp_le in E. destruct r5 as [|x r6]; simpl; [length_lia|].
    destruct (is_suffix x); simpl; length_lia.
  - simpl. lia.
Qed.

Lemma make_string_le r : len (snd (make_string r)) <= len r.
Proof.
  unfold make_string. pose proof (drop_while_le not_dq r) as H.
  destruct (drop_while not_dq r) as [|q r']; simpl; length_lia.
Qed.

Lemma close_char_le c r : len (snd (close_char c r)) <= len r.
Proof. unfold close_char. destruct r as [|q r']; simpl; [lia|]. destruct (ceq q "'"); simpl; lia. Qed.

Lemma make_char_le r : len (snd (make_char r)) <= len r.
Proof.
  unfold make_char. destruct r as [|c r1]; simpl; [lia|].
  destruct (ceq c "\").
  - destruct r1 as [|n r2].
    + pose proof (close_char_le c []). length_lia.
    + destruct (char_escape n).
      * pose proof (close_char_le a r2). length_lia.
      * simpl. lia.
  - pose proof (close_char_le c r1). length_lia.
Qed.

Lemma two_le x a b r : len (rest_of (two x a b r)) <= len r.
Proof. unfold two. destruct r as [|d r']; simpl; [lia|]. destruct (ceq d x); simpl; lia. Qed.

Lemma rest_if (b : bool) (x y : step) n :
  len (rest_of x) <= n -> len (rest_of y) <= n -> len (rest_of (if b then x else y)) <= n.
Proof. destruct b; auto. Qed.

Lemma lex_op_le c r : len (rest_of (lex_op c r)) <= len r.
Proof.
  pose proof (tl_le r) as Htl.
  pose proof (skip_line_le r) as Hsl.
  pose proof (skip_block_le (tl r)) as Hsb.
  pose proof (make_string_le r) as Hms.
  pose proof (make_char_le r) as Hmc.
  unfold lex_op. cbv zeta.
  (* the leaves of the switch: [r], [tl r], [two] on one of them, a skipped comment, the rest of a maker *)
  repeat apply rest_if; cbn [rest_of]; try apply Nat.le_refl; try assumption; try apply two_le;
    try (eapply Nat.le_trans; [first [apply two_le | exact Hsb] | exact Htl]).
  - destruct r as [|d1 [|d2 r']]; cbn [rest_of]; try lia.
    apply rest_if; simpl; lia.
  - destruct (make_string r); simpl in *; lia.
  - destruct (make_char r); simpl in *; lia.
Qed.

Lemma lex_step_progress_l s :
  match lex_step s with
  | Skip r => len r < len s
  | Tok t r => (t = tok_eof /\ r = []) \/ len r < len s
  end.
Proof.
  unfold lex_step. pose proof (drop_while_le is_ws s) as H.
  destruct (drop_while is_ws s) as [|c r]; [left; auto|].
  assert (Hr : len r < len s) by length_lia.
  destruct (is_alpha c || ceq c "_").
  { pose proof (make_ident_le c r). destruct (make_ident c r); simpl in *. right; lia. }
  destruct (is_digit c).
  { pose proof (make_number_le c r). destruct (make_number c r); simpl in *. right; lia. }
  pose proof (lex_op_le c r). destruct (lex_op c r); simpl in *; [lia | right; lia].
Qed.

Definition final_tok (t : token) : Prop := tcls t = CEof \/ tcls t = CErr.
Definition ordinary (t : token) : Prop := tcls t = COrd.

Lemma is_final_spec t : (is_final t = true <-> final_tok t) /\ (is_final t = false <-> ordinary t).
Proof.
  unfold is_final, final_tok, ordinary. destruct (tcls t); split; split; intros; auto; try discriminate;
    try (destruct H; discriminate).
Qed.

Lemma lex_total_l : forall f s, len s < f ->
  exists ts t, lex f s = ts ++ [t] /\ final_tok t /\ Forall ordinary ts /\
               List.length ts <= len s /\ 1 <= lex_steps f s <= len s + 1.
Proof.
  induction f as [|f IH]; intros s Hf; [lia|].
  cbn [lex lex_steps]. pose proof (lex_step_progress_l s) as P.
  destruct (lex_step s) as [r|t r].
  - destruct (IH r ltac:(lia)) as (ts & t & E & Ft & Fo & L1 & L2).
    exists ts, t. rewrite E. split; [reflexivity|]. split; [exact Ft|]. split; [exact Fo|]. lia.
  - destruct (is_final t) eqn:Fin.
    + exists [], t. split; [reflexivity|]. split; [apply is_final_spec; exact Fin|].
      split; [constructor|]. simpl. lia.
    + destruct P as [[-> _]|P]; [discriminate Fin|].
      destruct (IH r ltac:(lia)) as (ts & t' & E & Ft & Fo & L1 & L2).
      exists (t :: ts), t'. rewrite E. split; [reflexivity|]. split; [exact Ft|].
      split; [constructor; [apply is_final_spec; exact Fin|exact Fo]|]. simpl. lia.
Qed.

Lemma lex_fuel_irrelevant_l : forall f g s, len s < f -> len s < g ->
  lex f s = lex g s /\ lex_steps f s = lex_steps g s.
Proof.
  induction f as [|f IH]; intros g s Hf Hg; [lia|].
  destruct g as [|g]; [lia|].
  cbn [lex lex_steps]. pose proof (lex_step_progress_l s) as P.
  destruct (lex_step s) as [r|t r].
  - destruct (IH g r ltac:(lia) ltac:(lia)) as [A B]. rewrite A, B. auto.
  - destruct (is_final t) eqn:Fin; [auto|].
    destruct P as [[-> _]|P]; [discriminate Fin|].
    destruct (IH g r ltac:(lia) ltac:(lia)) as [A B]. rewrite A, B. auto.
Qed.
