(* C10 - the expression-ladder model (ExprParse.v) is total with LINEAR recursion depth.

   The eight mutually recursive functions at fuel f are gathered into one record, [at_fuel f], and
   one level of fuel is one application of [ladder_step], a plain function from records to records in
   which the recursive calls are fields of its argument ([at_fuel_S]).  Whatever holds at fuel 0
   and is preserved by [ladder_step] holds at every fuel ([ladder_ind]); the preservation proofs never
   see the mutual fixpoint.

   parse_total_l : with fuel K*(|tokens|+1), K = 15 = L+5 frames per token, parseAssignment never answers
                   Fuel - for EVERY token list (well-formed or not, any nesting depth).  The statement carried
                   through the induction is, for each of the eight functions X, "height_X + K*|ts| <= fuel ->
                   X fuel ts is not Fuel, and on Ok the rest is (strictly) shorter" ([enough], gathered in
                   [enough_fuel]); [ladder_step] preserves it function by function (assign_enough .. args_enough),
                   each from what is assumed of the functions it calls;
   targs_list_le : the type-argument look-ahead of parsePrimary returns a suffix of its input;
   chain_scan_total : on the comparison chain a < a < .. < a the generic-call look-ahead WITHOUT its iteration
                   bound reads n*n tokens, so it is not linear (lookahead_quadratic_l). *)
From Coq Require Import List Arith String Lia.
From Cb Require Import C10.Lexer C10.ExprParse.
Import ListNotations.

Notation ln := (@List.length tok).

Definition pres := res (expr * list tok).
Record ladder := {
  l_assign : list tok -> pres;
  l_tern : list tok -> pres;
  l_bin : nat -> list tok -> pres;
  l_loop : nat -> expr -> list tok -> pres;
  l_unary : list tok -> pres;
  l_post : expr -> list tok -> pres;
  l_primary : list tok -> pres;
  l_args : list tok -> res (list expr * list tok) }.

(* eight functions of the fuel, read at one fuel *)
Definition gather (a t : nat -> list tok -> pres) (b : nat -> nat -> list tok -> pres)
    (l : nat -> nat -> expr -> list tok -> pres) (u : nat -> list tok -> pres) (po : nat -> expr -> list tok -> pres)
    (pr : nat -> list tok -> pres) (ar : nat -> list tok -> res (list expr * list tok)) (f : nat) : ladder :=
  {| l_assign := a f; l_tern := t f; l_bin := b f; l_loop := l f;
     l_unary := u f; l_post := po f; l_primary := pr f; l_args := ar f |}.

Definition at_fuel : nat -> ladder := gather p_assign p_tern p_bin bin_loop p_unary post_loop p_primary p_args.

(* parsePostfix: a primary expression followed by the postfix loop *)
Definition postfix (p : ladder) (ts : list tok) : pres :=
  bind (l_primary p ts) (fun er => let (e, r1) := er in l_post p e r1).
(* the argument list after a comma, and from its first expression on *)
Definition args_cons (p : ladder) (a : expr) (r : list tok) : res (list expr * list tok) :=
  bind (l_args p r) (fun asr => let (l, r') := asr in Ok (a :: l, r')).
Definition args_rest (p : ladder) (ts : list tok) : res (list expr * list tok) :=
  bind (l_assign p ts) (fun ar =>
    match ar with
    | (a, TComma :: r) =>
        match r with
        | TRP :: _ => Err
        | _ => args_cons p a r
        end
    | (a, TRP :: r) => Ok ([a], r)
    | _ => Err
    end).

(* the bodies of the eight functions of ExprParse.v, the recursive calls read from [p] *)
Definition ladder_step (p : ladder) : ladder := {|
  l_assign ts :=
    bind (l_tern p ts) (fun lr =>
      match lr with
      | (l, TAsg o :: r) =>
          bind (l_assign p r) (fun vr => let (v, r') := vr in
            if valid_target o l then Ok (Asg o l v, r') else Err)
      | _ => Ok lr
      end);
  l_tern ts :=
    bind (l_bin p 1 ts) (fun cr =>
      match cr with
      | (c, TQ :: r) =>
          if closer r then Ok (EProp c, r)
          else match l_tern p r with
               | Ok (a, TColon :: r2) =>
                   match l_tern p r2 with
                   | Ok (b, r3) => Ok (Tern c a b, r3)
                   | Err => Ok (EProp c, r)
                   | Fuel => Fuel
                   end
               | Ok _ => Ok (EProp c, r)
               | Err => Ok (EProp c, r)
               | Fuel => Fuel
               end
      | _ => Ok cr
      end);
  l_bin l ts :=
    if L <? l then l_unary p ts
    else bind (l_bin p (S l) ts) (fun ar => let (a, r) := ar in l_loop p l a r);
  l_loop l acc ts :=
    match ts with
    | TOp o :: r =>
        if lvl o =? l then
          bind (l_bin p (S l) r) (fun br => let (b, r') := br in l_loop p l (Bin o acc b) r')
        else Ok (acc, ts)
    | _ => Ok (acc, ts)
    end;
  l_unary ts :=
    match unary_tok ts with
    | Some (u, r) => bind (l_unary p r) (fun ar => let (a, r') := ar in Ok (u a, r'))
    | None =>
        match ts with
        | TInc :: r => bind (postfix p r) (fun ar => let (a, r') := ar in Ok (Pre true a, r'))
        | TDec :: r => bind (postfix p r) (fun ar => let (a, r') := ar in Ok (Pre false a, r'))
        | _ => postfix p ts
        end
    end;
  l_post e ts :=
    match ts with
    | TLB :: r =>
        bind (l_assign p r) (fun ir =>
          match ir with
          | (i, TRB :: r') => l_post p (Idx e i) r'
          | _ => Err
          end)
    | TDot :: TId m :: r => if starts_lp r then Err else l_post p (Mem e m) r
    | TDot :: _ => Err
    | TArrow :: TId m :: r => if starts_lp r then Err else l_post p (Arrow e m) r
    | TArrow :: _ => Err
    | TInc :: r => Ok (Post true e, r)
    | TDec :: r => Ok (Post false e, r)
    | TLP :: _ => match e with Un Deref _ => Err | _ => Ok (e, ts) end
    | _ => Ok (e, ts)
    end;
  l_primary ts :=
    match ts with
    | TNum n :: r => Ok (Num n, r)
    | TId x :: TOp LtO :: r1 =>
        if generic_scan_b scan_bound 1 r1 then
          match targs_list (S (List.length r1)) 0 r1 with
          | Some (n, TLP :: r2) =>
              bind (l_args p r2) (fun ar =>
                let (args, r3) := ar in
                if starts_lp r3 then Err else Ok (Generic n (Call x args), r3))
          | Some (_, r2) => Ok (Var x, r2)
          | None => Err
          end
        else Ok (Var x, TOp LtO :: r1)
    | TId x :: TLP :: r1 =>
        bind (l_args p r1) (fun ar =>
          let (args, r2) := ar in
          if starts_lp r2 then Err else Ok (Call x args, r2))
    | TId x :: r => Ok (Var x, r)
    | TLP :: r =>
        bind (l_assign p r) (fun er =>
          match er with
          | (e, TRP :: r') => Ok (e, r')
          | _ => Err
          end)
    | _ => Err
    end;
  l_args ts :=
    match ts with
    | TRP :: r => Ok ([], r)
    | _ => args_rest p ts
    end |}.

(* The same nest written over [ladder_step].  Comparing the model's nest with this one, fixpoint against
   fixpoint, the recursive calls are bound variables on both sides and each body is traversed once;
   comparing an unfolded body of the model with the NAMES of its functions would instead convert
   the whole nest at every one of the several hundred copies of a recursive call that pattern
   matching makes.  So [at_fuel_S] goes through [q_*], whose bodies stay folded. *)
Fixpoint q_assign (f : nat) (ts : list tok) {struct f} : pres :=
  match f with
  | O => Fuel
  | S f => l_assign (ladder_step (gather q_assign q_tern q_bin q_loop q_unary q_post q_primary q_args f)) ts
  end
with q_tern (f : nat) (ts : list tok) {struct f} : pres :=
  match f with
  | O => Fuel
  | S f => l_tern (ladder_step (gather q_assign q_tern q_bin q_loop q_unary q_post q_primary q_args f)) ts
  end
with q_bin (f : nat) (l : nat) (ts : list tok) {struct f} : pres :=
  match f with
  | O => Fuel
  | S f => l_bin (ladder_step (gather q_assign q_tern q_bin q_loop q_unary q_post q_primary q_args f)) l ts
  end
with q_loop (f : nat) (l : nat) (acc : expr) (ts : list tok) {struct f} : pres :=
  match f with
  | O => Fuel
  | S f => l_loop (ladder_step (gather q_assign q_tern q_bin q_loop q_unary q_post q_primary q_args f)) l acc ts
  end
with q_unary (f : nat) (ts : list tok) {struct f} : pres :=
  match f with
  | O => Fuel
  | S f => l_unary (ladder_step (gather q_assign q_tern q_bin q_loop q_unary q_post q_primary q_args f)) ts
  end
with q_post (f : nat) (e : expr) (ts : list tok) {struct f} : pres :=
  match f with
  | O => Fuel
  | S f => l_post (ladder_step (gather q_assign q_tern q_bin q_loop q_unary q_post q_primary q_args f)) e ts
  end
with q_primary (f : nat) (ts : list tok) {struct f} : pres :=
  match f with
  | O => Fuel
  | S f => l_primary (ladder_step (gather q_assign q_tern q_bin q_loop q_unary q_post q_primary q_args f)) ts
  end
with q_args (f : nat) (ts : list tok) {struct f} : res (list expr * list tok) :=
  match f with
  | O => Fuel
  | S f => l_args (ladder_step (gather q_assign q_tern q_bin q_loop q_unary q_post q_primary q_args f)) ts
  end.

Lemma at_fuel_q : at_fuel = gather q_assign q_tern q_bin q_loop q_unary q_post q_primary q_args.
Proof. reflexivity. Qed.

Lemma at_fuel_S f : at_fuel (S f) = ladder_step (at_fuel f).
Proof. rewrite at_fuel_q. reflexivity. Qed.

Lemma p_assign_at f ts : p_assign f ts = l_assign (at_fuel f) ts.
Proof. reflexivity. Qed.

Lemma ladder_ind (P : nat -> ladder -> Prop) :
  P 0 (at_fuel 0) -> (forall f p, P f p -> P (S f) (ladder_step p)) -> forall f, P f (at_fuel f).
Proof.
  intros H0 HS. induction f as [|f IH]; [exact H0|]. rewrite at_fuel_S. apply HS, IH.
Qed.

Lemma targs_one_le : forall ts d ne b r, targs_one d ne ts = Some (b, r) -> ln r <= ln ts.
Proof.
  induction ts as [|t ts IH]; intros d ne b r H; simpl in H; [discriminate|].
  destruct t; try discriminate;
    try (apply IH in H; simpl; lia).
  - destruct o; try discriminate; try (apply IH in H; simpl; lia).
    destruct d; [inversion H; subst; simpl; lia | apply IH in H; simpl; lia].
  - destruct d; [inversion H; subst; simpl; lia | discriminate].
Qed.

Lemma targs_list_le : forall fuel n ts m r, targs_list fuel n ts = Some (m, r) -> ln r < ln ts.
Proof.
  induction fuel as [|f IH]; intros n ts m r H; simpl in H; [discriminate|].
  destruct (targs_one 0 false ts) as [[ne r0]|] eqn:E; [|discriminate].
  apply targs_one_le in E.
  destruct r0 as [|t r0']; [discriminate|].
  destruct t; try discriminate.
  - destruct o; try discriminate. inversion H; subst. simpl in E. lia.
  - apply IH in H. simpl in E. lia.
Qed.

Lemma unary_tok_len : forall ts u r, unary_tok ts = Some (u, r) -> ln ts = S (ln r).
Proof.
  intros ts u r H. destruct ts as [|t ts]; [discriminate|].
  destruct t; try discriminate; try (inversion H; subst; reflexivity).
  destruct o; try discriminate; inversion H; subst; reflexivity.
Qed.

(* [good x n d]: x is not Fuel and, when it is Ok, at most n - d tokens are left *)
Definition good {A} (x : res (A * list tok)) (n d : nat) : Prop :=
  match x with
  | Fuel => False
  | Err => True
  | Ok (_, r) => ln r + d <= n
  end.

Lemma good_bind {A B} (x : res (A * list tok)) (k : A * list tok -> res (B * list tok)) n d m e :
  good x n d -> (forall a r, ln r + d <= n -> good (k (a, r)) m e) -> good (bind x k) m e.
Proof. destruct x as [[a r]| |]; cbn [good bind]; intros G H; [apply H, G | exact I | destruct G]. Qed.

Lemma good_weaken {A} (x : res (A * list tok)) n d m e : good x n d -> n + e <= m + d -> good x m e.
Proof. destruct x as [[a r]| |]; cbn [good]; intros G H; [lia | exact I | destruct G]. Qed.

(* the two leaves: nothing consumed, the head token consumed *)
Lemma good_here {A} (a : A) ts : good (Ok (a, ts)) (ln ts) 0.
Proof. cbn. lia. Qed.

Lemma good_tail {A} (a : A) t r d : d <= 1 -> good (Ok (a, r)) (ln (t :: r)) d.
Proof. cbn. lia. Qed.

(* [enough h d g f]: budget f suffices for g on every token list that leaves it h frames, the height of g above
   the bottom of the ladder, and K more for every token; g then consumes at least d tokens *)
Definition enough {A} (h d : nat) (g : list tok -> res (A * list tok)) (f : nat) : Prop :=
  forall ts, h + K * ln ts <= f -> good (g ts) (ln ts) d.

(* the heights: parsePrimary and the postfix loop 1, parseUnary 2, the binary level l from 3 (l = 11, which only
   hands on to parseUnary) to 13 (l = 1), parseTernary 14, parseAssignment 15, and 16 for the argument list,
   which calls parseAssignment *)
Set Implicit Arguments.
Record enough_fuel (p : ladder) (f : nat) : Prop := {
  ef_assign : enough 15 1 (l_assign p) f;
  ef_tern : enough 14 1 (l_tern p) f;
  ef_bin : forall l, enough (3 + (11 - l)) 1 (l_bin p l) f;
  ef_loop : forall l acc, enough (3 + (11 - l)) 0 (l_loop p l acc) f;
  ef_unary : enough 2 1 (l_unary p) f;
  ef_post : forall e, enough 1 0 (l_post p e) f;
  ef_primary : enough 1 1 (l_primary p) f;
  ef_args : enough 16 1 (l_args p) f }.
Unset Implicit Arguments.

(* the arithmetic side conditions: the callee's need is below the caller's, given what was consumed *)
Ltac needs := unfold K in *; cbn [List.length] in *; lia.

(* one lemma per function: its body is good one level up when the functions it calls are good *)
Section Step.
Variables (p : ladder) (f : nat).
Hypothesis IH : enough_fuel p f.

Lemma postfix_enough : enough 1 1 (postfix p) f.
Proof.
  intros ts Hn. apply good_bind with (1 := ef_primary IH ts Hn). intros e r1 Hr1.
  apply good_weaken with (1 := ef_post IH e r1 ltac:(needs)). lia.
Qed.

Lemma assign_enough : enough 15 1 (l_assign (ladder_step p)) (S f).
Proof.
  intros ts Hn. cbn [ladder_step l_assign].
  apply good_bind with (1 := ef_tern IH ts ltac:(needs)). intros l r Hr.
  destruct r as [|[] r]; try exact Hr.
  apply good_bind with (1 := ef_assign IH r ltac:(needs)). intros v r' Hr'.
  destruct (valid_target o l); cbn [good]; [needs | exact I].
Qed.

Lemma tern_enough : enough 14 1 (l_tern (ladder_step p)) (S f).
Proof.
  intros ts Hn. cbn [ladder_step l_tern].
  apply good_bind with (1 := ef_bin IH 1 ts ltac:(needs)). intros c r Hr.
  destruct r as [|[] r]; try exact Hr.
  destruct (closer r); cbn [good]; [needs|].
  pose proof (ef_tern IH r ltac:(needs)) as G2.
  destruct (l_tern p r) as [[a [|[] r2]]| |]; cbn [good] in *; try needs.
  pose proof (ef_tern IH r2 ltac:(needs)) as G3.
  destruct (l_tern p r2) as [[b r3]| |]; cbn [good] in *; needs.
Qed.

Lemma bin_enough l : enough (3 + (11 - l)) 1 (l_bin (ladder_step p) l) (S f).
Proof.
  intros ts Hn. cbn [ladder_step l_bin].
  destruct (L <? l) eqn:El; [apply (ef_unary IH); needs|].
  apply Nat.ltb_ge in El. unfold L in El.
  apply good_bind with (1 := ef_bin IH (S l) ts ltac:(needs)). intros a r Hr.
  apply good_weaken with (1 := ef_loop IH l a r ltac:(needs)). lia.
Qed.

Lemma loop_enough l acc : enough (3 + (11 - l)) 0 (l_loop (ladder_step p) l acc) (S f).
Proof.
  intros ts Hn. cbn [ladder_step l_loop].
  destruct ts as [|[] r]; try apply good_here.
  destruct (lvl o =? l); [|apply good_here].
  apply good_bind with (1 := ef_bin IH (S l) r ltac:(needs)). intros b r' Hr'.
  apply good_weaken with (1 := ef_loop IH l (Bin o acc b) r' ltac:(needs)). needs.
Qed.

Lemma unary_enough : enough 2 1 (l_unary (ladder_step p)) (S f).
Proof.
  intros ts Hn. cbn [ladder_step l_unary].
  destruct (unary_tok ts) as [[u r]|] eqn:Eu.
  - apply unary_tok_len in Eu.
    apply good_bind with (1 := ef_unary IH r ltac:(needs)). intros a r' Hr'. cbn [good]. lia.
  - destruct ts as [|[] r]; try (apply postfix_enough; needs);
      (apply good_bind with (1 := postfix_enough r ltac:(needs)); intros a r' Hr'; cbn [good]; needs).
Qed.

Lemma post_enough e : enough 1 0 (l_post (ladder_step p) e) (S f).
Proof.
  intros ts Hn. cbn [ladder_step l_post].
  destruct ts as [|[] r]; try apply good_here; try (apply good_tail; auto).
  - destruct e; try apply good_here. destruct u; try apply good_here. exact I.
  - apply good_bind with (1 := ef_assign IH r ltac:(needs)). intros i r' Hr'.
    destruct r' as [|[] r']; try exact I.
    apply good_weaken with (1 := ef_post IH (Idx e i) r' ltac:(needs)). needs.
  - destruct r as [|[] r]; try exact I. destruct (starts_lp r); [exact I|].
    apply good_weaken with (1 := ef_post IH (Mem e s) r ltac:(needs)). needs.
  - destruct r as [|[] r]; try exact I. destruct (starts_lp r); [exact I|].
    apply good_weaken with (1 := ef_post IH (Arrow e s) r ltac:(needs)). needs.
Qed.

(* a call, plain or generic: the argument list, then no second one *)
Lemma call_enough (k : list expr -> expr) r n : 16 + K * ln r <= f -> ln r + 1 <= n ->
  good (bind (l_args p r) (fun ar => let (args, r') := ar in if starts_lp r' then Err else Ok (k args, r'))) n 1.
Proof.
  intros Hn Hr. apply good_bind with (1 := ef_args IH r Hn). intros args r' Hr'.
  destruct (starts_lp r'); cbn [good]; [exact I | lia].
Qed.

Lemma primary_enough : enough 1 1 (l_primary (ladder_step p)) (S f).
Proof.
  intros ts Hn. cbn [ladder_step l_primary].
  destruct ts as [|[] r]; try exact I; try (apply good_tail; auto).
  - destruct r as [|[] r1]; try (apply good_tail; auto).
    + destruct o; try (apply good_tail; auto).
      destruct (generic_scan_b scan_bound 1 r1); [|apply good_tail; auto].
      destruct (targs_list (S (List.length r1)) 0 r1) as [[n r2]|] eqn:Et; [|exact I].
      apply targs_list_le in Et.
      destruct r2 as [|[] r2]; cbn [good]; try needs. apply call_enough; needs.
    + apply call_enough; needs.
  - apply good_bind with (1 := ef_assign IH r ltac:(needs)). intros e r' Hr'.
    destruct r' as [|[] r']; cbn [good]; try exact I. needs.
Qed.

Lemma args_enough : enough 16 1 (l_args (ladder_step p)) (S f).
Proof.
  intros ts Hn. cbn [ladder_step l_args].
  assert (Hrest : good (args_rest p ts) (ln ts) 1).
  { apply good_bind with (1 := ef_assign IH ts ltac:(needs)). intros a r Hr.
    destruct r as [|[] r]; cbn [good]; try exact I; [needs|].
    assert (Hc : good (args_cons p a r) (ln ts) 1).
    { apply good_bind with (1 := ef_args IH r ltac:(needs)). intros l r' Hr'. cbn [good]. needs. }
    destruct r as [|[] r]; try exact Hc. exact I. }
  destruct ts as [|[] r]; try exact Hrest. cbn [good]. needs.
Qed.
End Step.

Lemma enough_fuel_step p f : enough_fuel p f -> enough_fuel (ladder_step p) (S f).
Proof.
  intros IH. constructor.
  - apply assign_enough, IH.
  - apply tern_enough, IH.
  - intros l. apply bin_enough, IH.
  - intros l acc. apply loop_enough, IH.
  - apply unary_enough, IH.
  - intros e. apply post_enough, IH.
  - apply primary_enough, IH.
  - apply args_enough, IH.
Qed.

Lemma at_fuel_enough : forall f, enough_fuel (at_fuel f) f.
Proof.
  apply (ladder_ind (fun f p => enough_fuel p f)); [|intros f p; apply enough_fuel_step].
  constructor; intros; intros ts Hn; lia.
Qed.

Lemma parse_good : forall ts f, need (ln ts) <= f -> good (p_assign f ts) (ln ts) 1.
Proof. intros ts f Hf. apply (ef_assign (at_fuel_enough f)). unfold need, K in *. lia. Qed.

Theorem parse_total_l : forall ts f, need (ln ts) <= f -> p_assign f ts <> Fuel.
Proof. intros ts f Hf E. pose proof (parse_good ts f Hf) as G. rewrite E in G. exact G. Qed.

Theorem parse_never_fuel_l : forall ts, parse ts <> Fuel.
Proof. intros ts. unfold parse. apply parse_total_l. lia. Qed.

(* the generic-call look-ahead without its iteration bound is not linear (DESIGN section 7 #38) *)
Definition id_a : tok := TId (s2l "a").
(* a < a < ... < a  with n comparisons: a valid comparison chain without any > *)
Fixpoint chain (n : nat) : list tok :=
  match n with 0 => [id_a] | S k => id_a :: TOp LtO :: chain k end.

Lemma chain_len n : ln (chain n) = 2 * n + 1.
Proof. induction n as [|n IH]; simpl in *; lia. Qed.

Lemma chain_cost : forall n d, generic_scan_cost d (chain n) = ln (chain n).
Proof.
  induction n as [|n IH]; intros d; [reflexivity|].
  cbn [chain generic_scan_cost id_a List.length]. rewrite IH. reflexivity.
Qed.

Lemma chain_scan_total n : scan_total (chain n) = n * n.
Proof.
  induction n as [|n IH]; [reflexivity|].
  cbn [chain scan_total id_a]. fold id_a. rewrite chain_cost, chain_len.
  destruct n as [|m]; [reflexivity|].
  rewrite IH. lia.
Qed.

Lemma chain_parses : forall n, n <= 6 ->
  exists e, parse (chain n ++ [TRP; TSemi]) = Ok (e, [TRP; TSemi]).
Proof.
  intros n H. do 7 (destruct n as [|n]; [eexists; vm_compute; reflexivity|]). lia.
Qed.

Theorem lookahead_quadratic_l : forall c, exists ts, c * ln ts < scan_total ts.
Proof.
  intros c. exists (chain (3 * c + 3)). rewrite chain_scan_total, chain_len. nia.
Qed.
