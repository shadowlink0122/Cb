(* C10 - termination measures of the preprocessor model (coq/C17/Model.v).

   find_from_bounds, search_fuel_irrelevant_l : for a non-empty macro name every iteration of the
                             inner find-loop of expandMacros advances by at least one byte, so it makes
                             at most |line| - pos + 1 iterations and the fuel-collapsed C17.search is
                             the same function for every larger fuel;
   sweep_fuel_sufficient_l : the per-macro replacement loop makes at most |line| - pos + 1
                             iterations, so the fuel S |line| used by C17.Model.pass is never the
                             reason it stops;
   passes_size             : the expanded line stays within the limit + the longest body
                             (growth bound of expandMacros, fix 6b05a50);
   search_empty_name_spins : with an EMPTY name the loop never advances (pos += 0): on the line
                             "a" it is still running after any number of iterations - the reason
                             why pass skips empty names (fix e201f6d);
   classify_define_nonempty, nonempty_run : a #define directive never yields an
                             object-like macro with an empty name, and the run over the lines keeps the
                             table free of them - an empty name can only come from -D (dash_d "=5"). *)
From Coq Require Import List Arith NArith Bool Ascii String Lia.
From Cb Require Import C17.Model C17.Classify C17.Expand C10.Model.
Import ListNotations.

Lemma is_prefix_len : forall n t, is_prefix n t = true -> List.length n <= List.length t.
Proof.
  induction n as [|x n IH]; intros t H; simpl; [lia|].
  destruct t as [|y t]; [discriminate|]. simpl in H. apply andb_true_iff in H as [_ H].
  apply IH in H. simpl. lia.
Qed.

Lemma is_prefix_at_bounds name s p : name <> [] -> is_prefix name (skipn p s) = true ->
  p + List.length name <= List.length s /\ 1 <= List.length name.
Proof.
  intros Hn H. apply is_prefix_len in H. rewrite skipn_length in H.
  destruct name as [|c name]; [congruence|]. simpl in *. lia.
Qed.

Lemma find_from_bounds name s pos p : name <> [] -> find_from name s pos = Some p ->
  pos <= p /\ p + List.length name <= List.length s /\ 1 <= List.length name.
Proof.
  intros Hn H. apply find_from_sound in H as [H1 H2]. split; [exact H1 | exact (is_prefix_at_bounds name s p Hn H2)].
Qed.

Lemma search_fuel_irrelevant_l : forall f g name s rs pos, name <> [] ->
  List.length s - pos < f -> List.length s - pos < g ->
  search f name s rs pos = search g name s rs pos.
Proof.
  induction f as [|f IH]; intros g name s rs pos Hn Hf Hg; [lia|].
  destruct g as [|g]; [lia|].
  cbn [search]. destruct (find_from name s pos) as [p|] eqn:F; [|reflexivity].
  apply find_from_bounds in F as (F1 & F2 & F3); auto.
  destruct (in_string p rs); [apply IH; auto; lia|].
  destruct (start_valid s p && end_valid s p (List.length name)); [reflexivity|].
  apply IH; auto; lia.
Qed.

Lemma search_found_bounds f name s rs pos p : name <> [] -> search f name s rs pos = Some p ->
  pos <= p /\ p + List.length name <= List.length s /\ 1 <= List.length name.
Proof.
  intros Hn H. apply search_sound in H as (H1 & H2 & _). split; [exact H1 | exact (is_prefix_at_bounds name s p Hn H2)].
Qed.

Lemma replace_at_length s p n body : p + n <= List.length s ->
  List.length (replace_at s p n body) = List.length s - n + List.length body.
Proof.
  intros H. unfold replace_at. rewrite !app_length, firstn_length, skipn_length. lia.
Qed.

Lemma sweep_fuel_sufficient_l : forall f g limit name body s pos ch, name <> [] ->
  List.length s - pos < f -> List.length s - pos < g ->
  sweep f limit name body s pos ch = sweep g limit name body s pos ch.
Proof.
  induction f as [|f IH]; intros g limit name body s pos ch Hn Hf Hg; [lia|].
  destruct g as [|g]; [lia|].
  cbn [sweep].
  destruct (search (S (List.length s)) name s (string_ranges s) pos) as [p|] eqn:E; [|reflexivity].
  apply search_found_bounds in E as (E1 & E2 & E3); auto.
  destruct (too_large limit (replace_at s p (List.length name) body)); [reflexivity|].
  apply IH; auto; rewrite replace_at_length by lia; lia.
Qed.

Lemma replace_at_le s p n body : List.length (replace_at s p n body) <= List.length s + List.length body.
Proof.
  unfold replace_at. rewrite !app_length, firstn_length, skipn_length. lia.
Qed.

Definition fits (limit : N) (s : str) : Prop := (N.of_nat (List.length s) <= limit)%N.
Definition sres_ok (limit : N) (b : nat) (r : C17.Model.sres) : Prop :=
  match r with
  | SGo s _ => fits limit s
  | SOver s => (N.of_nat (List.length s) <= limit + N.of_nat b)%N
  end.

Lemma too_large_false limit s : too_large limit s = false -> fits limit s.
Proof. unfold too_large, fits. intros H. apply N.ltb_ge in H. exact H. Qed.

Lemma sweep_size : forall f limit name body s pos ch, fits limit s ->
  sres_ok limit (List.length body) (sweep f limit name body s pos ch).
Proof.
  induction f as [|f IH]; intros limit name body s pos ch Hs; cbn [sweep sres_ok]; [exact Hs|].
  destruct (search (S (List.length s)) name s (string_ranges s) pos) as [p|]; [|exact Hs].
  destruct (too_large limit (replace_at s p (List.length name) body)) eqn:T.
  - cbn [sres_ok]. pose proof (replace_at_le s p (List.length name) body). unfold fits in Hs. lia.
  - apply IH. apply too_large_false. exact T.
Qed.

Fixpoint max_body (t : table) : nat :=
  match t with [] => 0 | m :: r => Nat.max (List.length (mbody m)) (max_body r) end.

Lemma sres_ok_mono limit a b r : a <= b -> sres_ok limit a r -> sres_ok limit b r.
Proof. intros H. destruct r; cbn [sres_ok]; [auto|lia]. Qed.

Lemma pass_size : forall t limit s ch, fits limit s -> sres_ok limit (max_body t) (pass limit t s ch).
Proof.
  induction t as [|m r IH]; intros limit s ch Hs; cbn [pass max_body]; [exact Hs|].
  destruct (mfn m).
  { eapply sres_ok_mono; [|apply IH; exact Hs]. lia. }
  destruct (mname m) as [|c nm] eqn:En.
  { eapply sres_ok_mono; [|apply IH; exact Hs]. lia. }
  pose proof (sweep_size (S (List.length s)) limit (c :: nm) (mbody m) s 0 ch Hs) as W.
  destruct (sweep (S (List.length s)) limit (c :: nm) (mbody m) s 0 ch) as [s' ch'|s'].
  - eapply sres_ok_mono; [|apply IH; exact W]. lia.
  - cbn [sres_ok] in *. lia.
Qed.

Lemma passes_size : forall n limit t s, fits limit s ->
  (N.of_nat (List.length (fst (passes n limit t s))) <= limit + N.of_nat (max_body t))%N.
Proof.
  induction n as [|n IH]; intros limit t s Hs; cbn [passes]; [unfold fits in Hs; cbn [fst]; lia|].
  pose proof (pass_size t limit s false Hs) as P.
  destruct (pass limit t s false) as [s' ch|s']; cbn [sres_ok] in P.
  - destruct ch; [apply IH; exact P | unfold fits in P; cbn [fst]; lia].
  - cbn [fst]. exact P.
Qed.

(* the empty name: find("", pos) = pos and pos += 0 *)
Definition line_a : str := s2l "a".
Lemma search_empty_name_spins : forall f, search3 f [] line_a [] 0 = SFuel.
Proof. induction f as [|f IH]; [reflexivity|]. cbn [search3]. exact IH. Qed.

Lemma drop_while_split f (l : str) : exists pre, l = pre ++ drop_while f l.
Proof.
  induction l as [|c r [pre IH]]; [exists []; reflexivity|].
  cbn [drop_while]. destruct (f c); [exists (c :: pre); simpl; f_equal; exact IH | exists []; reflexivity].
Qed.

Lemma drop_while_head f (l : str) : match drop_while f l with [] => True | c :: _ => f c = false end.
Proof.
  induction l as [|c r IH]; [exact I|]. cbn [drop_while]. destruct (f c) eqn:E; [exact IH|exact E].
Qed.

Lemma trim_head s : match trim s with [] => True | c :: _ => is_space c = false end.
Proof.
  unfold trim. set (t := drop_while is_space s).
  destruct (drop_while_split is_space (rev t)) as [pre Hp].
  assert (Ht : t = rev (drop_while is_space (rev t)) ++ rev pre).
  { rewrite <- (rev_involutive t) at 1. rewrite Hp at 1. rewrite rev_app_distr. reflexivity. }
  destruct (rev (drop_while is_space (rev t))) as [|c r] eqn:E; [exact I|].
  pose proof (drop_while_head is_space s) as H. fold t in H. rewrite Ht in H. exact H.
Qed.

Lemma find_first_pos f : forall s i p, find_first f s i = Some p ->
  i <= p /\ f (nth (p - i) s zero) = true /\ (p = i -> match s with c :: _ => f c = true | [] => False end).
Proof.
  induction s as [|c r IH]; intros i p H; [discriminate|].
  cbn [find_first] in H. destruct (f c) eqn:E.
  - inversion H; subst. rewrite Nat.sub_diag. simpl. auto.
  - apply IH in H as (H1 & H2 & H3). split; [lia|]. split.
    + replace (p - i) with (S (p - S i)) by lia. exact H2.
    + intros ->. lia.
Qed.

Lemma parse_define_name_nonempty content n b :
  (match content with [] => True | c :: _ => is_space c = false end) ->
  parse_define content = PDefine n b false -> n <> [].
Proof.
  intros Hh. unfold parse_define. destruct content as [|c0 content]; [discriminate|].
  destruct (find_first is_blank_or_paren (c0 :: content) 0) as [sp|] eqn:F.
  - destruct (code (nth sp (c0 :: content) zero) =? 40) eqn:E40.
    + destruct (find_first (fun c : ascii => code c =? 41) (skipn sp (c0 :: content)) sp); intros HH; inversion HH.
    + intros [= <- _]. apply find_first_pos in F as (_ & F2 & F3).
      destruct sp as [|sp]; [|simpl; discriminate].
      exfalso. specialize (F3 eq_refl). cbn in F3. simpl in E40.
      unfold is_blank_or_paren in F3. rewrite E40, orb_false_r in F3.
      apply blank_is_space in F3. congruence.
  - intros [= <- _]. discriminate.
Qed.

Lemma classify_define_nonempty line n b : classify line = KPlain (PDefine n b false) -> n <> [].
Proof.
  unfold classify. destruct (trim line) as [|c rest]; [discriminate|].
  destruct (code c =? 35); [|discriminate].
  destruct (trim rest) as [|t0 t] eqn:Et; [discriminate|].
  set (tt := t0 :: t).
  (* every directive keyword but "define" gives a result that is no PDefine *)
  repeat match goal with
         | |- context [if ?b then _ else _] => destruct b
         | |- context [match ?x with [] => _ | _ :: _ => _ end] => destruct x
         end; try discriminate.
  destruct (find_first is_blank tt 0) as [p|]; intros H; injection H as H.
  - revert H. apply parse_define_name_nonempty. apply trim_head.
  - discriminate H.
Qed.

Lemma In_insert m x t : In x (insert m t) -> x = m \/ In x t.
Proof.
  induction t as [|y r IH]; cbn [insert]; [intros [H|[]]; auto|].
  destruct (str_eqb (mname m) (mname y)).
  - intros [H|H]; [left; auto | right; right; exact H].
  - destruct (str_ltb (mname m) (mname y)).
    + intros [H|H]; [left; auto | right; exact H].
    + intros [H|H]; [right; left; exact H|]. apply IH in H as [H|H]; [left; exact H | right; right; exact H].
Qed.

Lemma In_erase n x t : In x (erase n t) -> In x t.
Proof.
  induction t as [|y r IH]; cbn [erase]; [auto|].
  destruct (str_eqb n (mname y)); [intros H; right; exact H|].
  intros [H|H]; [left; exact H | right; apply IH; exact H].
Qed.

Lemma nonempty_insert m t : (mfn m = false -> mname m <> []) -> names_nonempty t -> names_nonempty (insert m t).
Proof. intros Hm Ht x Hx. apply In_insert in Hx as [->|Hx]; [exact Hm | apply Ht; exact Hx]. Qed.

Lemma nonempty_erase n t : names_nonempty t -> names_nonempty (erase n t).
Proof. intros Ht x Hx. apply In_erase in Hx. apply Ht; exact Hx. Qed.

Lemma tab_fail_line live c raw : tab (fail_line live c raw) = tab c.
Proof. unfold fail_line. destruct live; reflexivity. Qed.

Lemma nonempty_tick c : names_nonempty (tab c) -> names_nonempty (tab (tick c)).
Proof.
  intros H. unfold tick. cbn [tab].
  apply nonempty_insert; [intros _; discriminate|].
  apply nonempty_insert; [intros _; discriminate|exact H].
Qed.

Lemma nonempty_plain_step live c raw k :
  (forall n b, k = PDefine n b false -> n <> []) ->
  names_nonempty (tab c) -> names_nonempty (tab (plain_step live c raw k)).
Proof.
  intros Hk H. destruct k; cbn [plain_step]; destruct live; rewrite ?tab_fail_line; cbn [tab add_err add_warn emit]; auto.
  - (* PText *) destruct (expand (tab c) raw) as [e [|]]; cbn [tab add_err emit]; exact H.
  - (* PDefine *) unfold with_tab. cbn [tab]. destruct fn; cbn [tab add_warn].
    + apply nonempty_insert; [cbn; discriminate | exact H].
    + apply nonempty_insert; [cbn; intros _; eapply Hk; reflexivity | exact H].
  - (* PUndef *) unfold with_tab. cbn [tab]. apply nonempty_erase. exact H.
Qed.

(* a directive that leaves the table alone: the hypothesis about the table, before or after [tick], is the goal *)
Ltac fin := unfold mkp; cbn [cor]; rewrite ?tab_fail_line; assumption.

Lemma nonempty_step p raw :
  names_nonempty (tab (cor p)) -> names_nonempty (tab (cor (step p (raw, classify raw)))).
Proof.
  intros H. unfold step. cbn [fst snd].
  pose proof (nonempty_tick _ H) as Ht.
  destruct (classify raw) as [k| | | | |] eqn:Ek; cbn [mkp cor stack].
  - apply nonempty_plain_step; [|exact Ht]. intros n b ->. eapply classify_define_nonempty. exact Ek.
  - fin.
  - fin.
  - destruct (stack p) as [|x r]; [fin|]. destruct (else_seen x); [fin|]. destruct (taken x); fin.
  - destruct (stack p) as [|x r]; [fin|]. destruct (else_seen x); fin.
  - destruct (stack p) as [|x r]; fin.
Qed.

Lemma nonempty_run : forall lines p,
  names_nonempty (tab (cor p)) ->
  names_nonempty (tab (cor (run (map (fun l => (l, classify l)) lines) p))).
Proof.
  induction lines as [|l r IH]; intros p H; [exact H|].
  cbn [map run fold_left]. apply IH. apply nonempty_step. exact H.
Qed.
