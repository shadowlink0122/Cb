(* C10 - termination and correctness of the typedef-chain walk (proofs about Typedefs.v). *)
From Coq Require Import List Arith String Lia.
From Cb Require Import C10.Typedefs.
Import ListNotations.
Local Open Scope string_scope.

Lemma mem_In : forall l k, mem l k = true <-> In k l.
Proof.
  unfold mem. intros l k. rewrite existsb_exists. split.
  - intros [x [Hin He]]. apply String.eqb_eq in He. subst. exact Hin.
  - intros H. exists k. split; [exact H|apply String.eqb_refl].
Qed.

Lemma mem_false_notIn : forall l k, mem l k = false -> ~ In k l.
Proof. intros l k H Hin. apply mem_In in Hin. congruence. Qed.

Lemma lookup_In_keys : forall m k v, td_lookup m k = Some v -> In k (map fst m).
Proof.
  induction m as [|[k' v'] r IH]; cbn [td_lookup map fst]; intros k v H; [discriminate|].
  destruct (String.eqb k k') eqn:E.
  - apply String.eqb_eq in E. subst. left. reflexivity.
  - right. eapply IH. exact H.
Qed.

(* a walk that marks one key per unit of fuel.  [room keys v f]: the keys marked so far, v, are distinct, and f more
   marks would use the keys up *)
Definition room (keys v : list string) (f : nat) : Prop :=
  NoDup v /\ incl v keys /\ List.length keys < f + List.length v.

Lemma room_start : forall keys, room keys [] (S (List.length keys)).
Proof. intros keys. split; [constructor | split; [intros x [] | cbn [List.length]; lia]]. Qed.

(* out of fuel every key is marked, so the next one is marked already *)
Lemma room_0 : forall keys v, ~ room keys v 0.
Proof. intros keys v (Hnd & Hincl & Hlen). pose proof (NoDup_incl_length Hnd Hincl). cbn in Hlen. lia. Qed.

Lemma room_mark : forall keys v f x, room keys v (S f) -> ~ In x v -> In x keys -> room keys (x :: v) f.
Proof.
  intros keys v f x (Hnd & Hincl & Hlen) Hx Hk. split; [constructor; assumption | split].
  - intros y [<-|Hy]; [exact Hk | apply Hincl, Hy].
  - cbn [List.length]. lia.
Qed.

(* every loop-back marks a key that was not marked, so after |typedef_map_| loop-backs the next name is either no
   key or already visited *)
Lemma resolve_loop_total : forall fuel t visited cur,
  room (map fst (tm t)) visited fuel -> resolve_loop fuel t visited cur <> RFuel.
Proof.
  induction fuel as [|f IH]; intros t visited cur H; [destruct (room_0 _ _ H)|].
  cbn [resolve_loop].
  destruct (td_lookup (tm t) cur) as [next|] eqn:Hc; [|discriminate].
  destruct (mem visited cur) eqn:Hv; [discriminate|].
  destruct (String.eqb next cur); [discriminate|].
  destruct (td_lookup (tm t) next) as [v|]; [|discriminate].
  apply IH, room_mark; [exact H | apply mem_false_notIn, Hv | eapply lookup_In_keys, Hc].
Qed.

Lemma resolve_total_l : forall t s, resolve t s <> RFuel.
Proof.
  intros t s. unfold resolve. apply resolve_loop_total. rewrite <- (map_length fst (tm t)). apply room_start.
Qed.

(* more fuel never changes an answer *)
Lemma resolve_loop_mono : forall f t visited cur k,
  resolve_loop f t visited cur <> RFuel -> resolve_loop (f + k) t visited cur = resolve_loop f t visited cur.
Proof.
  induction f as [|f IH]; intros t visited cur k H; [exfalso; apply H; reflexivity|].
  cbn [resolve_loop Nat.add] in *.
  destruct (td_lookup (tm t) cur) as [next|]; [|reflexivity].
  destruct (mem visited cur); [reflexivity|].
  destruct (String.eqb next cur); [reflexivity|].
  destruct (td_lookup (tm t) next); [|reflexivity].
  apply IH. exact H.
Qed.

Lemma walk_deterministic : forall t cur n r, walk t cur n r -> forall n' r', walk t cur n' r' -> n = n' /\ r = r'.
Proof.
  induction 1 as [cur H|cur H|cur next H Hne Hn|cur next v n r H Hne Hn Hw IH]; intros n' r' W'; inversion W'; subst;
    try congruence; try (split; reflexivity).
  - split; [reflexivity|]. congruence.
  - assert (next0 = next) by congruence. subst. destruct (IH _ _ H3) as [-> ->]. split; reflexivity.
Qed.

(* the invariant of the loop on a name whose chain ends after n loop-backs: a visited name that has a chain at all
   needs MORE than n *)
Definition deeper (t : tables) (n : nat) (seen : list string) : Prop :=
  forall x, In x seen -> forall k r, walk t x k r -> n < k.

Lemma deeper_fresh : forall t cur n r seen, walk t cur n r -> deeper t n seen -> mem seen cur = false.
Proof.
  intros t cur n r seen W Hs. destruct (mem seen cur) eqn:Hv; [|reflexivity].
  apply mem_In in Hv. specialize (Hs _ Hv _ _ W). lia.
Qed.

Lemma deeper_step : forall t cur n r seen, walk t cur (S n) r -> deeper t (S n) seen -> deeper t n (cur :: seen).
Proof.
  intros t cur n r seen W Hs x [<-|Hx] k r' Wx.
  - destruct (walk_deterministic _ _ _ _ W _ _ Wx) as [<- _]. lia.
  - specialize (Hs _ Hx _ _ Wx). lia.
Qed.

Lemma resolve_loop_walk : forall t cur n r, walk t cur n r ->
  forall f visited, n < f -> deeper t n visited -> resolve_loop f t visited cur = RDone r.
Proof.
  induction 1 as [cur H|cur H|cur next H Hne Hn|cur next v n r H Hne Hn Hw IH]; intros f visited Hf Hvis;
    (destruct f as [|f]; [lia|]); cbn [resolve_loop]; rewrite H.
  - reflexivity.
  - rewrite (deeper_fresh _ _ _ _ _ (W_self t cur H) Hvis), String.eqb_refl. reflexivity.
  - rewrite (deeper_fresh _ _ _ _ _ (W_out t cur next H Hne Hn) Hvis).
    apply String.eqb_neq in Hne. rewrite Hne, Hn. reflexivity.
  - pose proof (W_step t cur next v n r H Hne Hn Hw) as W. rewrite (deeper_fresh _ _ _ _ _ W Hvis).
    apply String.eqb_neq in Hne. rewrite Hne, Hn.
    apply IH; [lia | exact (deeper_step _ _ _ _ _ W Hvis)].
Qed.

Lemma walk_keys_bound : forall t cur n r, walk t cur n r -> forall seen, NoDup seen -> incl seen (map fst (tm t)) ->
  deeper t n seen -> n + List.length seen < List.length (tm t) + 1.
Proof.
  induction 1 as [cur H|cur H|cur next H Hne Hn|cur next v n r H Hne Hn Hw IH]; intros seen Hnd Hincl Hs;
    try (pose proof (NoDup_incl_length Hnd Hincl) as L; rewrite map_length in L; lia).
  pose proof (W_step t cur next v n r H Hne Hn Hw) as W.
  assert (L : n + List.length (cur :: seen) < List.length (tm t) + 1).
  { apply IH.
    - constructor; [apply mem_false_notIn, (deeper_fresh _ _ _ _ _ W Hs) | exact Hnd].
    - intros x [<-|Hx]; [eapply lookup_In_keys, H | apply Hincl, Hx].
    - exact (deeper_step _ _ _ _ _ W Hs). }
  cbn [List.length] in L. lia.
Qed.

(* a chain has fewer loop-backs than the table has entries *)
Lemma walk_short : forall t cur n r, walk t cur n r -> n < List.length (tm t) + 1.
Proof.
  intros t cur n r W. pose proof (walk_keys_bound _ _ _ _ W [] (NoDup_nil _)) as H.
  cbn [List.length] in H. rewrite Nat.add_0_r in H. apply H.
  - intros x [].
  - intros x [].
Qed.

(* conversely: whatever the loop answers is the chain's value, or "" *)
Lemma resolve_loop_sound : forall f t visited cur r,
  resolve_loop f t visited cur = RDone r -> (exists n, walk t cur n r) \/ r = "".
Proof.
  induction f as [|f IH]; intros t visited cur r H; [discriminate|].
  cbn [resolve_loop] in H.
  destruct (td_lookup (tm t) cur) as [next|] eqn:Hc.
  - destruct (mem visited cur); [right; congruence|].
    destruct (String.eqb next cur) eqn:He.
    + apply String.eqb_eq in He. subst next. inversion H; subst. left. exists 0. apply W_self. exact Hc.
    + apply String.eqb_neq in He.
      destruct (td_lookup (tm t) next) as [v|] eqn:Hn.
      * destruct (IH _ _ _ _ H) as [[n W]|E]; [|right; exact E].
        left. exists (S n). eapply W_step; eassumption.
      * inversion H; subst. left. exists 0. apply W_out; assumption.
  - inversion H; subst. left. exists 0. apply W_term. exact Hc.
Qed.

Definition rho_tables : tables := fst (td_run empty_tables rho_program).

Example rho_tables_map : tm rho_tables = [("A", "T"); ("C", "T"); ("T", "A")] /\ snd (td_run empty_tables rho_program) = None.
Proof. vm_compute. split; reflexivity. Qed.

(* once inside the cycle T -> A -> T the start name C is never met again *)
Lemma startonly_spins : forall f, startonly_loop f rho_tables "C" "T" = RFuel /\ startonly_loop f rho_tables "C" "A" = RFuel.
Proof.
  induction f as [|f [IHt IHa]]; [split; reflexivity|].
  split.
  - change (startonly_loop (S f) rho_tables "C" "T") with (startonly_loop f rho_tables "C" "A"). exact IHa.
  - change (startonly_loop (S f) rho_tables "C" "A") with (startonly_loop f rho_tables "C" "T"). exact IHt.
Qed.

Lemma startonly_diverges_l : forall f, startonly_loop f rho_tables "C" "C" = RFuel.
Proof.
  intros [|f]; [reflexivity|].
  change (startonly_loop (S f) rho_tables "C" "C") with (startonly_loop f rho_tables "C" "T").
  apply startonly_spins.
Qed.

(* the loop as coded answers "" on the same table, for every name *)
Example resolve_rho : map (resolved rho_tables) ["A"; "C"; "T"; "Z"] = [""; ""; ""; ""].
Proof. vm_compute. reflexivity. Qed.

(* what  typedef BASE ALIAS;  stores is the answer of the loop for BASE: never a name that is itself an alias of
   something else (a self-mapped anonymous struct excepted) *)
Lemma lookup_set_same : forall m k v, td_lookup (td_set m k v) k = Some v.
Proof.
  induction m as [|[k' v'] r IH]; intros k v; cbn [td_set td_lookup].
  - rewrite String.eqb_refl. reflexivity.
  - destruct (String.eqb k k') eqn:E; cbn [td_lookup]; [rewrite String.eqb_refl; reflexivity|].
    rewrite E. apply IH.
Qed.

Lemma terminal_cases t cur : terminal t cur = cur \/ terminal t cur = "".
Proof.
  unfold terminal. destruct (is_basic cur); auto. destruct (struct_prefixed t cur); auto.
  destruct (mem (sdefs t) cur); auto. destruct (mem (edefs t) cur); auto.
  destruct (has_bracket cur); auto. destruct (mem (udefs t) cur); auto.
Qed.

Lemma resolve_loop_result_flat : forall f t visited cur r,
  resolve_loop f t visited cur = RDone r -> r <> "" ->
  td_lookup (tm t) r = None \/ td_lookup (tm t) r = Some r.
Proof.
  induction f as [|f IH]; intros t visited cur r H Hr; [discriminate|].
  cbn [resolve_loop] in H.
  destruct (td_lookup (tm t) cur) as [next|] eqn:Hc.
  - destruct (mem visited cur); [inversion H; subst; congruence|].
    destruct (String.eqb next cur) eqn:He.
    + apply String.eqb_eq in He. subst next.
      destruct (mem (sdefs t) cur); inversion H; subst; [right; exact Hc|congruence].
    + destruct (td_lookup (tm t) next) as [v|] eqn:Hn.
      * eapply IH; eassumption.
      * inversion H; subst. left. exact Hn.
  - inversion H; subst. destruct (terminal_cases t cur) as [E|E]; rewrite E in *; [left; exact Hc | congruence].
Qed.
