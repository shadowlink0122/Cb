(* C18 - property theorems about the FRONT END of the loader (Front.v: the dispatch of
   StatementParser::parseStatement and the three places where the `export` flag is put on the node) and its
   composition with the run-time loader (Model.v).  The case analysis of the dispatch is in FrontLemmas.v
   (parse_item_spec).  They hold for every parser environment (the type tables of the module's private parser),
   every surface file system, every table state. *)
From Coq Require Import List String Ascii Bool Arith.
Import ListNotations.
From Cb Require Import C18.Model C18.Import C18.Front C18.FrontLemmas.
Local Open Scope string_scope.
Local Open Scope list_scope.

(* ------------------------------------------------------------------ the export filter over all kinds and spellings *)

(* The keyword arrives: a function / a single variable or constant / a typedef / struct / enum / interface / impl
   written `[export] ...` reaches the loader as the same definition with exactly that flag - whether its type is
   written as a built-in keyword, `unsigned` + keyword, a typedef alias, a struct, interface, union or enum name, a
   generic instance, with `*`, `&` or (after a user-defined name) `[n]`, or a name the parser only assumes to be a
   type.  (This is the statement the seeded change C18-4 falsifies for the identifier branch.) *)
Theorem export_flag_follows_keyword : forall env e df it,
  plain_item it = true -> dispatchable env it = true ->
  exists d, parse_item env (mkW e df it) = SDecl e d /\ same_decl it d.
Proof. exact parse_item_plain. Qed.
Print Assumptions export_flag_follows_keyword.

(* ... and is never invented: an exported statement of the loader was written with `export` and is that very item *)
Theorem exported_statement_was_written_exported : forall env w d,
  parse_item env w = SDecl true d -> w_export w = true /\ same_decl (w_item w) d.
Proof.
  intros env [e df it] d H. pose proof (parse_item_spec env e df it) as S. rewrite H in S. cbn [w_export w_item].
  (* of the three outcomes only the second is an exported declaration *)
  destruct it; try discriminate S; destruct (plain_item _ && dispatchable _ _);
    destruct S as [x S]; try discriminate S.
  all: destruct S as [E Hs]; injection E as <- <-; auto.
Qed.
Print Assumptions exported_statement_was_written_exported.

Theorem no_export_without_keyword : forall env w d,
  w_export w = false -> parse_item env w <> SDecl true d.
Proof.
  intros env w d He H. apply exported_statement_was_written_exported in H. destruct H as [H _]. congruence.
Qed.
Print Assumptions no_export_without_keyword.

(* an `import` line of a module file reaches the loader as an import statement, whatever is written before it *)
Theorem import_line_stays_import : forall env w p,
  parse_item env w = SImport p <-> w_item w = IImport p.
Proof.
  intros env [e df it] p. cbn [w_item]. split; [|intros ->; reflexivity].
  intros H. pose proof (parse_item_spec env e df it) as S. rewrite H in S.
  destruct it as [q| | | | | | |]; [now injection S as <-|..];
    (destruct (plain_item _ && dispatchable _ _); destruct S as [x S]; [destruct S as [S _]|]; discriminate S).
Qed.
Print Assumptions import_line_stays_import.

(* REFUTED on the faithful model (known finding C18-exported-array-not-imported): an array declaration with a
   built-in element type becomes an AST_ARRAY_DECL node, which never receives the flag *)
Theorem exported_array_keeps_flag_refuted : exists env it,
  parse_item env (mkW true false it) = SDecl false (DOther "arr") /\
  it = IVar false false (mkSpell (HBasic BInt) 0 false [Some 3]) (mkD "arr" [] None) [].
Proof. exists empty_env. eexists. split; [|reflexivity]. reflexivity. Qed.
Print Assumptions exported_array_keeps_flag_refuted.

(* REFUTED on the faithful model (known finding C18-multi-declaration-export-dropped): `export int a = 1, b = 2;`
   becomes an AST_MULTIPLE_VAR_DECL node, which never receives the flag - in either branch *)
Theorem exported_multi_declaration_keeps_flag_refuted :
  parse_item empty_env (mkW true false (IVar false false (mkSpell (HBasic BInt) 0 false [])
                                              (mkD "a" [] (Some (ELit 1))) [mkD "b" [] (Some (ELit 2))]))
  = SDecl false (DOther "") /\
  parse_item (mkEnv ["Ms"] [] [] [] []) (mkW true false (IVar false false (mkSpell (HName "Ms" []) 0 false [])
                                              (mkD "a" [] (Some (ELit 1))) [mkD "b" [] (Some (ELit 2))]))
  = SDecl false (DOther "").
Proof. split; reflexivity. Qed.
Print Assumptions exported_multi_declaration_keeps_flag_refuted.

(* ------------------------------------------------------------------ exactly the exports, on the module TEXT *)

(* Whatever binding differs after `import p;` was written by a newly loaded module q: by an item of q's file that
   carries the keyword `export` - under its own name or `q.name` - or by an impl block of that file's parser. *)
Theorem only_written_exports_visible : forall sfs fuel pf t p t' g k,
  handle_import fuel pf (parse_fs sfs) t p = Ok t' -> tlookup g k t' <> tlookup g k t ->
  exists q sm, mem q (loaded t) = false /\ mem q (loaded t') = true /\ sresolve sfs q = Some sm /\
    ((exists w d, In w sm /\ w_export w = true /\ same_decl (w_item w) d /\ In (g, k) (decl_keys q d)) \/
     (exists d, In d (parser_impls pf (parse_fs sfs) (parse_file sfs sm)) /\
        ((g = TF /\ In k (map fst (method_binds d))) \/ (g = TD /\ k = im_struct d /\ im_dtor d <> None)))).
Proof.
  intros sfs fuel pf t p t' g k H Hne.
  destruct (only_exports_visible_l fuel pf (parse_fs sfs) t p t' g k H Hne) as [q [m [Hq0 [Hq1 [Hr Hw]]]]].
  apply resolve_parse_fs_some in Hr. destruct Hr as [sm [Hs ->]].
  exists q, sm. repeat split; try assumption.
  destruct Hw as [[d [Hin Hk]]|Himpl].
  - left. apply parse_module_In in Hin. destruct Hin as [i [w [Hn Hp]]].
    symmetry in Hp. apply exported_statement_was_written_exported in Hp. destruct Hp as [He Hs'].
    exists w, d. repeat split; try assumption. eapply nth_error_In. exact Hn.
  - right. exact Himpl.
Qed.
Print Assumptions only_written_exports_visible.

Theorem hidden_items_stay_hidden : forall sfs fuel pf t p t' g k,
  handle_import fuel pf (parse_fs sfs) t p = Ok t' ->
  (forall q sm, mem q (loaded t) = false -> mem q (loaded t') = true -> sresolve sfs q = Some sm ->
     (forall w d, In w sm -> w_export w = true -> same_decl (w_item w) d -> ~ In (g, k) (decl_keys q d)) /\
     (forall d, In d (parser_impls pf (parse_fs sfs) (parse_file sfs sm)) ->
        ~ (g = TF /\ In k (map fst (method_binds d))) /\ ~ (g = TD /\ k = im_struct d /\ im_dtor d <> None))) ->
  tlookup g k t' = tlookup g k t.
Proof.
  intros sfs fuel pf t p t' g k H Hall.
  destruct (otval_eq_dec (tlookup g k t') (tlookup g k t)) as [E|N]; [exact E|exfalso].
  destruct (only_written_exports_visible sfs fuel pf t p t' g k H N) as [q [sm [Hq0 [Hq1 [Hs Hw]]]]].
  destruct (Hall q sm Hq0 Hq1 Hs) as [HA HB].
  destruct Hw as [[w [d [Hin [He [Hsd Hk]]]]]|[d [Hin Hk]]].
  - exact (HA w d Hin He Hsd Hk).
  - destruct (HB d Hin) as [H1 H2]. destruct Hk as [Hk|Hk]; [exact (H1 Hk)|exact (H2 Hk)].
Qed.
Print Assumptions hidden_items_stay_hidden.

(* Every item written with `export` - of any kind and any type spelling - is bound after the import of its file ... *)
Theorem written_exports_become_visible : forall sfs fuel pf t p sm t' i df it,
  mem p (loaded t) = false -> sresolve sfs p = Some sm ->
  handle_import fuel pf (parse_fs sfs) t p = Ok t' ->
  nth_error sm i = Some (mkW true df it) -> plain_item it = true ->
  dispatchable (env_at (import_env sfs) empty_env sm i) it = true ->
  exists d, same_decl it d /\ forall g k, In (g, k) (decl_keys p d) -> tlookup g k t' <> None.
Proof.
  intros sfs fuel pf t p sm t' i df it Hl Hs H Hn Hp Hd.
  destruct (parse_item_plain _ true df it Hp Hd) as [d [Hpi Hsd]].
  exists d. split; [exact Hsd|]. intros g k Hk.
  eapply (exports_become_visible_l fuel pf (parse_fs sfs) t p (parse_file sfs sm) t' d g k); try eassumption.
  - rewrite resolve_parse_fs, Hs. reflexivity.
  - unfold parse_file. eapply nth_error_In. erewrite parse_module_nth by exact Hn. rewrite Hpi. reflexivity.
Qed.
Print Assumptions written_exports_become_visible.

(* ... and so is every such item of every module the import loaded directly or through other modules, whose own
   import lines have all been executed *)
Theorem written_exports_of_loaded_modules : forall sfs fuel pf t p t' q,
  handle_import fuel pf (parse_fs sfs) t p = Ok t' -> mem q (loaded t) = false -> mem q (loaded t') = true ->
  exists sm, sresolve sfs q = Some sm /\
    (forall r, In (mkW false false (IImport r)) sm \/ (exists e df, In (mkW e df (IImport r)) sm) -> mem r (loaded t') = true) /\
    (forall i df it, nth_error sm i = Some (mkW true df it) -> plain_item it = true ->
       dispatchable (env_at (import_env sfs) empty_env sm i) it = true ->
       exists d, same_decl it d /\ forall g k, In (g, k) (decl_keys q d) -> tlookup g k t' <> None).
Proof.
  intros sfs fuel pf t p t' q H Hq0 Hq1.
  destruct (loaded_modules_complete_l fuel pf (parse_fs sfs) t p t' q H Hq0 Hq1) as [m [Hr [Himp Hexp]]].
  apply resolve_parse_fs_some in Hr. destruct Hr as [sm [Hs ->]]. exists sm. split; [exact Hs|]. split.
  - intros r Hr. apply Himp.
    assert (Hin : exists e df, In (mkW e df (IImport r)) sm) by (destruct Hr as [Hr|Hr]; [eauto|exact Hr]).
    destruct Hin as [e [df Hin]]. apply In_nth_error in Hin. destruct Hin as [i Hi].
    unfold parse_file. eapply nth_error_In. erewrite parse_module_nth by exact Hi. reflexivity.
  - intros i df it Hn Hp Hd.
    destruct (parse_item_plain _ true df it Hp Hd) as [d [Hpi Hsd]].
    exists d. split; [exact Hsd|]. intros g k Hk. eapply Hexp; [|exact Hk].
    unfold parse_file. eapply nth_error_In. erewrite parse_module_nth by exact Hn. rewrite Hpi. reflexivity.
Qed.
Print Assumptions written_exports_of_loaded_modules.

(* ------------------------------------------------------------------ non-vacuity: the seeded demo (seeded/C18-4/units.cb) *)
Definition sp (h : head) : spell := mkSpell h 0 false [].
Definition units_text : smodule :=
  [mkW true false (ITypedef "Millis" "int");
   mkW true false (IEnum "Level" [("Low", 1); ("Mid", 5); ("High", 9)]);
   mkW true false (IVar false true (sp (HBasic BInt)) (mkD "PLAIN_LIMIT" [] (Some (ELit 3))) []);
   mkW true false (IVar false true (sp (HName "Millis" [])) (mkD "TIMEOUT" [] (Some (ELit 250))) []);
   mkW true false (IVar false true (sp (HName "Level" [])) (mkD "DEFAULT_LEVEL" [] (Some (EEnum "Level" "Mid"))) []);
   mkW true false (IFunc false false (sp (HName "Millis" [])) "twice" [] [sp (HName "Millis" [])] 11);
   mkW true false (IFunc false false (sp (HBasic BInt)) "level_weight" [] [sp (HName "Level" [])] 12);
   mkW false false (IVar false true (sp (HName "Millis" [])) (mkD "HIDDEN_K" [] (Some (ELit 7))) []);
   mkW false false (IFunc false false (sp (HName "Level" [])) "hidden_f" [] [] 13)].

Example seeded_demo_parsed :
  parse_file [("units.cb", units_text)] units_text =
  [SDecl true (DTypedef "Millis" "int");
   SDecl true (DEnum "Level" [("Low", 1); ("Mid", 5); ("High", 9)]);
   SDecl true (DVar "PLAIN_LIMIT" true (Some (ELit 3)));
   SDecl true (DVar "TIMEOUT" true (Some (ELit 250)));
   SDecl true (DVar "DEFAULT_LEVEL" true (Some (EEnum "Level" "Mid")));
   SDecl true (DFunc "twice" 11);
   SDecl true (DFunc "level_weight" 12);
   SDecl false (DVar "HIDDEN_K" true (Some (ELit 7)));
   SDecl false (DFunc "hidden_f" 13)].
Proof. reflexivity. Qed.

Example seeded_demo_loaded : exists t,
  load 3 3 (parse_fs [("units.cb", units_text)]) ["units"] empty_tables = Ok t /\
  lookup "TIMEOUT" (vars t) = Some (true, Some 250) /\ lookup "units.TIMEOUT" (vars t) = Some (true, Some 250) /\
  lookup "DEFAULT_LEVEL" (vars t) = Some (true, Some 5) /\ lookup "PLAIN_LIMIT" (vars t) = Some (true, Some 3) /\
  lookup "twice" (funcs t) = Some 11 /\ lookup "level_weight" (funcs t) = Some 12 /\
  lookup "HIDDEN_K" (vars t) = None /\ lookup "hidden_f" (funcs t) = None.
Proof. eexists. vm_compute. repeat split. Qed.

(* every branch of the dispatch is reachable: the same constant written with a built-in type, `unsigned`, a typedef
   alias, an enum, a struct, an interface, a union, an unknown name, a pointer - always one exported variable node *)
Example every_branch_exports :
  let env := mkEnv ["Ms"] ["Pt"] ["Shape"] ["U"] ["Lv"] in
  let v h := mkW true false (IVar false true (sp h) (mkD "K" [] (Some (ELit 1))) []) in
  map (parse_item env) [v (HBasic BInt); v (HUnsigned BLong); v (HName "Ms" []); v (HName "Lv" []); v (HName "Pt" []);
                        v (HName "U" []); v (HName "Unknown" []);
                        mkW true true (IVar false true (mkSpell (HName "Ms" []) 1 false []) (mkD "K" [] (Some (ELit 1))) [])]
  = [SDecl true (DVar "K" true (Some (ELit 1))); SDecl true (DVar "K" true (Some (ELit 1)));
     SDecl true (DVar "K" true (Some (ELit 1))); SDecl true (DVar "K" true (Some (ELit 1)));
     SDecl true (DVar "K" true (Some (ELit 1))); SDecl true (DVar "K" true (Some (ELit 1)));
     SDecl true (DVar "K" true (Some (ELit 1))); SDecl true (DVar "K" false (Some (ELit 1)))] /\
  parse_item env (mkW true false (IVar false true (sp (HName "Shape" [])) (mkD "K" [] (Some (ELit 1))) []))
  = SDecl true (DVar "K" false (Some (ELit 1))).                      (* the interface branch drops `const` *)
Proof. split; reflexivity. Qed.
