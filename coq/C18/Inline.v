(* C18 - an import equals local registration of the exported declarations (table level), and the
   dotted-path resolution. *)
From Coq Require Import List String Ascii Bool.
Import ListNotations.
From Cb Require Import C18.Model C18.Import C18.Init.
Local Open Scope string_scope.
Local Open Scope list_scope.
Opaque bind.

Lemma prefix_refl_app : forall x b, String.prefix x (x +++ b) = true.
Proof. induction x; intros; simpl; [now destruct b|]. destruct (ascii_dec a a); [apply IHx|congruence]. Qed.

Lemma contains_here : forall x s, String.prefix x s = true -> contains x s = true.
Proof. intros. destruct s; cbn [contains]; now rewrite H. Qed.

Lemma contains_app_r : forall x a b, contains x (a +++ x +++ b) = true.
Proof.
  induction a; intros; simpl String.append.
  - apply contains_here. apply prefix_refl_app.
  - cbn [contains]. destruct (String.prefix x (String a (a0 +++ x +++ b))); [reflexivity|apply IHa].
Qed.

Definition dotted (k : name) : bool := contains "." k.

Lemma qualified_dotted : forall p n, dotted (qualified p n) = true.
Proof. intros. unfold dotted, qualified. apply contains_app_r. Qed.

Record sim (a b : tables) : Prop := mk_sim {
  sim_funcs : forall k, dotted k = false -> lookup k (funcs a) = lookup k (funcs b);
  sim_vars : forall k, dotted k = false -> lookup k (vars a) = lookup k (vars b);
  sim_structs : structs a = structs b;
  sim_ifaces : ifaces a = ifaces b;
  sim_typedefs : typedefs a = typedefs b;
  sim_enums : enums a = enums b;
  sim_impls : impls a = impls b;
  sim_ctors : ctors a = ctors b;
  sim_dtors : dtors a = dtors b;
  sim_statics : istatics a = istatics b;
  sim_loaded : loaded a = loaded b
}.
Definition rsim (r1 r2 : result) : Prop :=
  match r1, r2 with
  | Ok a, Ok b => sim a b
  | Err e1, Err e2 => e1 = e2
  | _, _ => False
  end.

Lemma sim_refl : forall t, sim t t.
Proof. intros; constructor; auto. Qed.

(* an initialiser whose names (and those of every function body it may call) are plain identifiers
   computes the same value on both sides *)
Definition expr_ok (e : expr) : Prop := forall g k, In (g, k) (ereads e) -> dotted k = false.

Lemma sim_eval : forall a b p e, sim a b -> expr_ok e -> eval a p e = eval b p e.
Proof.
  intros a b p e [Hf Hv Hs Hi Ht He Him Hc Hd Hst Hl] Hok. apply eval_frame. intros g k Hin.
  specialize (Hok g k Hin). destruct g; unfold tlookup; f_equal; auto; congruence.
Qed.

Definition undotted (ks : list name) : list name := filter (fun k => negb (dotted k)) ks.

Lemma lookup_init_undotted : forall ks c v k (m1 m2 : amap (bool * option nat)),
  dotted k = false -> lookup k m1 = lookup k m2 ->
  lookup k (bind_all (init_binds ks c v) m1) = lookup k (bind_all (init_binds (undotted ks) c v) m2).
Proof.
  induction ks as [|k0 r IH]; intros c v k m1 m2 Hk H; [exact H|].
  unfold bind_all in *. simpl. destruct (dotted k0) eqn:D; simpl.
  - apply IH; auto. rewrite lookup_bind_neq; [exact H|]. intro; subst; congruence.
  - apply IH; auto. now apply lookup_bind_congr.
Qed.

(* what a step of the importing run becomes in the inlined run: bindings under qualified names are dropped *)
Definition op_ok (o : op) : Prop := match o with OInit _ _ e => expr_ok e | _ => True end.

Definition erase_op (o : op) : list op :=
  match o with
  | OInit ks c e => [OInit (undotted ks) c e]
  | OFunc k _ => if dotted k then [] else [o]
  | OVar k _ _ => if dotted k then [] else [o]
  | _ => [o]
  end.
Definition erase (ops : list op) : list op := flat_map erase_op ops.

Lemma sim_apply : forall o a b, sim a b -> op_ok o -> rsim (apply_op a o) (run_ops (erase_op o) b).
Proof.
  intros o a b H Hok. pose proof H as [Hf Hv Hs Hi Ht He Him Hc Hd Hst Hl].
  destruct o; cbn [erase_op];
    try (simpl; constructor; simpl; intros; auto using lookup_bind_congr; congruence).
  - (* OFunc *) destruct (dotted k) eqn:D; simpl.
    + constructor; simpl; intros; auto. rewrite lookup_bind_neq; auto. intro; subst; congruence.
    + constructor; simpl; intros; auto using lookup_bind_congr.
  - (* OVar *) destruct (dotted k) eqn:D; simpl.
    + constructor; simpl; intros; auto. rewrite lookup_bind_neq; auto. intro; subst; congruence.
    + constructor; simpl; intros; auto using lookup_bind_congr.
  - (* OEnum *) simpl. rewrite He. destruct (lookup k (enums b)).
    + constructor; auto.
    + constructor; simpl; intros; auto; congruence.
  - (* OImpl *)
    simpl. rewrite Him. destruct (has_impl _ _ _).
    + constructor; simpl; intros; auto; try congruence. apply lookup_bind_all_congr; auto.
    + destruct (find_conflict _ _); [reflexivity|].
      constructor; simpl; intros; auto; try congruence. apply lookup_bind_all_congr; auto.
  - (* OInit *)
    simpl in Hok. simpl. rewrite (sim_eval a b 0 e H Hok). destruct (eval b 0 e); [|reflexivity].
    constructor; simpl; intros; auto. apply lookup_init_undotted; auto.
Qed.

Lemma run_ops_one : forall o t, run_ops [o] t = apply_op t o.
Proof. intros. simpl. now destruct (apply_op t o). Qed.

Lemma sim_run : forall ops a b, sim a b -> Forall op_ok ops -> rsim (run_ops ops a) (run_ops (erase ops) b).
Proof.
  induction ops as [|o ops IH]; intros a b H Hok; simpl; [assumption|].
  inversion Hok as [|? ? Ho Hr]; subst. unfold erase in *. rewrite run_ops_app.
  pose proof (sim_apply o a b H Ho) as S.
  destruct (apply_op a o), (run_ops (erase_op o) b); simpl in S; try tauto. now apply IH.
Qed.

Lemma erase_app : forall a b, erase (a ++ b) = erase a ++ erase b.
Proof. intros. unfold erase. apply flat_map_app. Qed.
Lemma erase_flat_map : forall A (f : A -> list op) l, erase (flat_map f l) = flat_map (fun x => erase (f x)) l.
Proof. induction l; simpl; [reflexivity|]. now rewrite erase_app, IHl. Qed.

Lemma erase_sync : forall d, erase (sync_ops d) = sync_ops d.
Proof.
  intros. unfold sync_ops. rewrite !erase_app. f_equal; [|f_equal; [|f_equal]].
  - induction (im_statics d); simpl; [reflexivity|]. unfold erase in *. simpl. now rewrite IHl.
  - induction (im_ctors d); simpl; [reflexivity|]. unfold erase in *. simpl. now rewrite IHl.
  - now destruct (im_dtor d).
Qed.
Lemma erase_syncs : forall l, erase (flat_map sync_ops l) = flat_map local_impl_ops l.
Proof. induction l; simpl; [reflexivity|]. now rewrite erase_app, erase_sync, IHl. Qed.
Lemma sync_ops_ok : forall l, Forall op_ok (flat_map sync_ops l).
Proof.
  intros. apply Forall_forall. intros o Ho. apply in_flat_map in Ho. destruct Ho as [d [_ Ho]].
  apply in_sync_ops in Ho. destruct Ho as [[v ->]|[[a [b ->]]|[[b [_ ->]]| ->]]]; exact I.
Qed.

(* side conditions: declared names are identifiers, a const has an initialiser, initialisers use
   plain (unqualified) names only *)
Definition decl_ok (d : decl) : Prop :=
  match d with
  | DFunc n _ => dotted n = false
  | DVar n c init => dotted n = false /\ (c = true -> init <> None) /\ (forall e, init = Some e -> expr_ok e)
  | _ => True
  end.
Definition names_ok (fs : fsys) : Prop :=
  forall q m d, resolve fs q = Some m -> In (SDecl true d) m -> decl_ok d.

Lemma erase_import_stmt : forall p e d, (e = true -> decl_ok d) ->
  erase (import_stmt_ops p (SDecl e d)) = inline_stmt_ops (SDecl e d).
Proof.
  intros p [|] d H; [|reflexivity]. specialize (H eq_refl).
  destruct d; simpl in *; unfold erase; simpl; try reflexivity.
  - rewrite H, qualified_dotted. reflexivity.
  - destruct H as [H1 [H2 H3]]. destruct is_const, init; simpl; unfold undotted; simpl;
      rewrite ?H1, ?qualified_dotted; try reflexivity.
    exfalso. now apply H2.
Qed.

Lemma import_stmt_ops_ok : forall p e d, (e = true -> decl_ok d) -> Forall op_ok (import_stmt_ops p (SDecl e d)).
Proof.
  intros p [|] d H; [|constructor]. specialize (H eq_refl).
  destruct d; simpl in *; repeat constructor.
  destruct H as [H1 [H2 H3]]. destruct is_const, init; repeat constructor; simpl; auto.
Qed.

Lemma sim_stmts : forall imp inl p,
  (forall a b q, sim a b -> rsim (imp a q) (inl b q)) ->
  forall l a b, sim a b -> (forall d, In (SDecl true d) l -> decl_ok d) ->
  rsim (run_stmts imp p l a) (inline_stmts inl l b).
Proof.
  intros imp inl p Hi. induction l as [|s l IH]; intros a b H Hok; [exact H|].
  destruct s as [q|e d]; cbn [run_stmts inline_stmts].
  - pose proof (Hi a b q H) as S. destruct (imp a q), (inl b q); simpl in S; try tauto.
    apply IH; auto. intros. apply Hok. now right.
  - assert (Hd : e = true -> decl_ok d) by (intros ->; apply Hok; now left).
    pose proof (sim_run (import_stmt_ops p (SDecl e d)) a b H (import_stmt_ops_ok p e d Hd)) as S.
    rewrite erase_import_stmt in S by exact Hd.
    destruct (run_ops (import_stmt_ops p (SDecl e d)) a), (run_ops (inline_stmt_ops (SDecl e d)) b);
      simpl in S; try tauto.
    apply IH; auto. intros. apply Hok. now right.
Qed.

Lemma sim_mark : forall p a b, sim a b -> sim (mark_loaded p a) (mark_loaded p b).
Proof. intros p a b []. constructor; simpl; auto. congruence. Qed.

Lemma sim_import : forall pf fs, names_ok fs -> forall fuel a b p, sim a b ->
  rsim (handle_import fuel pf fs a p) (handle_inline fuel pf fs b p).
Proof.
  intros pf fs Hok. induction fuel as [|f IH]; intros a b p H; simpl;
    rewrite <- (sim_loaded _ _ H); destruct (mem p (loaded a)) eqn:M; try exact H; [reflexivity|].
  destruct (resolve fs p) as [m|] eqn:R; [|reflexivity].
  pose proof (sim_stmts (handle_import f pf fs) (handle_inline f pf fs) p IH m _ _ (sim_mark p a b H)
                (fun d Hd => Hok p m d R Hd)) as S.
  destruct (run_stmts _ _ _ _), (inline_stmts _ _ _); simpl in S; try tauto.
  pose proof (sim_run (flat_map sync_ops (parser_impls pf fs m)) _ _ S (sync_ops_ok _)) as S2.
  rewrite erase_syncs in S2. exact S2.
Qed.

Lemma map_str_app : forall f a b, map_str f (a +++ b) = map_str f a +++ map_str f b.
Proof. induction a; intros; simpl; [reflexivity|]. now rewrite IHa. Qed.

Lemma contains_dot_cons : forall a s,
  contains "." (String a s) = if ascii_dec "."%char a then true else contains "." s.
Proof.
  intros. cbn [contains String.prefix]. destruct (ascii_dec "."%char a); [|reflexivity]. now destruct s.
Qed.

Lemma no_dot_map_id : forall s, contains "." s = false -> map_str dot_to_slash s = s.
Proof.
  induction s; intros H; [reflexivity|]. rewrite contains_dot_cons in H. cbn [map_str].
  destruct (ascii_dec "."%char a) as [E|N]; [discriminate|].
  rewrite IHs by assumption. unfold dot_to_slash.
  destruct (Ascii.eqb_spec a "."%char); [congruence|reflexivity].
Qed.

Lemma dots_become_slashes : forall segs, (forall s, In s segs -> contains "." s = false) ->
  map_str dot_to_slash (String.concat "." segs) = String.concat "/" segs.
Proof.
  induction segs as [|s segs IH]; intros H; [reflexivity|].
  destruct segs as [|s2 segs].
  - simpl. apply no_dot_map_id. apply H. now left.
  - change (String.concat "." (s :: s2 :: segs)) with (s +++ "." +++ String.concat "." (s2 :: segs)).
    change (String.concat "/" (s :: s2 :: segs)) with (s +++ "/" +++ String.concat "/" (s2 :: segs)).
    rewrite !map_str_app. rewrite IH by (intros; apply H; now right).
    rewrite no_dot_map_id by (apply H; now left). reflexivity.
Qed.

(* a module path as the parser produces it (identifiers joined by dots) contains no '/' *)
Lemma file_path_dotted : forall p,
  contains "." p = true -> contains "/" p = false -> contains ".." p = false ->
  file_path_of p = map_str dot_to_slash p +++ ".cb".
Proof. intros p H2 H3 H4. unfold file_path_of. now rewrite H2, H3, H4, !andb_false_r. Qed.

Lemma file_path_plain : forall p, contains "." p = false -> contains "/" p = false -> file_path_of p = p +++ ".cb".
Proof. intros p H H3. unfold file_path_of. now rewrite H, H3, !andb_false_r. Qed.

Lemma resolve_first_candidate : forall fs p m, lookup (file_path_of p) fs = Some m -> resolve fs p = Some m.
Proof.
  intros fs p m H. unfold resolve, search_paths.
  destruct (String.prefix "../" (file_path_of p) || String.prefix "./" (file_path_of p)); simpl; now rewrite H.
Qed.

