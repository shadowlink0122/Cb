(* C18 - order independence: table equality "as maps"; what one registration step does to the tables as
   seen through footprint keys (it leaves the cells outside its footprint alone, and depends on the tables
   only through its footprint and the bindings it reads), whence congruence of every step and commutation
   of independent steps; reordering of the blocks of modules (two runs that unfold into blocks of the same
   modules agree when the pairs they order differently commute); which modules a load loads. *)
From Coq Require Import List String Bool Arith Permutation.
Import ListNotations.
From Cb Require Import C18.Model C18.Import C18.Init.
Local Open Scope string_scope.
Local Open Scope list_scope.

Opaque bind.

Record teq (a b : tables) : Prop := mk_teq {
  teq_funcs : forall k, lookup k (funcs a) = lookup k (funcs b);
  teq_structs : forall k, lookup k (structs a) = lookup k (structs b);
  teq_ifaces : forall k, lookup k (ifaces a) = lookup k (ifaces b);
  teq_typedefs : forall k, lookup k (typedefs a) = lookup k (typedefs b);
  teq_vars : forall k, lookup k (vars a) = lookup k (vars b);
  teq_enums : forall k, lookup k (enums a) = lookup k (enums b);
  teq_dtors : forall k, lookup k (dtors a) = lookup k (dtors b);
  teq_impls : forall s, impls_of s (impls a) = impls_of s (impls b);      (* impl blocks of each struct, in order *)
  teq_ctors : forall s n, find_ctor s n (ctors a) = find_ctor s n (ctors b);   (* constructor chosen for (struct, arity) *)
  teq_statics : forall x, In x (istatics a) <-> In x (istatics b);
  teq_loaded : forall p, mem p (loaded a) = mem p (loaded b)
}.
Definition req (r1 r2 : result) : Prop :=
  match r1, r2 with
  | Ok a, Ok b => teq a b
  | Err _, Err _ => True            (* both runs end with an error before main starts *)
  | _, _ => False
  end.

Lemma teq_refl : forall a, teq a a.
Proof. intros; constructor; intros; tauto || reflexivity. Qed.
Lemma teq_sym : forall a b, teq a b -> teq b a.
Proof. intros a b []; constructor; intros; try symmetry; auto. Qed.
Lemma teq_trans : forall a b c, teq a b -> teq b c -> teq a c.
Proof.
  intros a b c H1 H2. constructor; intros; try (etransitivity; [apply H1|apply H2]).
Qed.
Lemma req_refl : forall r, req r r.
Proof. destruct r; simpl; auto using teq_refl. Qed.
Lemma req_sym : forall r s, req r s -> req s r.
Proof. destruct r, s; simpl; auto using teq_sym. Qed.
Lemma req_trans : forall r s u, req r s -> req s u -> req r u.
Proof. destruct r, s, u; simpl; try tauto. apply teq_trans. Qed.

Lemma teq_tlookup : forall a b, teq a b -> forall g k, tlookup g k a = tlookup g k b.
Proof. intros a b [] g k. destruct g; simpl; f_equal; auto. Qed.

(* what the interpreter can ask of the two non-map tables is determined by the per-struct views *)
Lemma find_ctor_sub : forall s n l, find_ctor s n l = find_ctor s n (ctors_of s l).
Proof.
  induction l as [|[s' [a b]] l IH]; simpl; [reflexivity|].
  rewrite (String.eqb_sym s' s). destruct (String.eqb s s') eqn:E; simpl.
  - rewrite E. simpl. destruct (Nat.eqb n a); auto.
  - assumption.
Qed.
Lemma has_impl_sub : forall i s l, has_impl i s l = has_impl i s (impls_of s l).
Proof.
  induction l as [|e l IH]; simpl; [reflexivity|]. unfold same_key at 1.
  destruct (String.eqb (im_struct e) s) eqn:E; simpl.
  - unfold same_key at 1. rewrite E. now rewrite IH.
  - now rewrite andb_false_r.
Qed.

Definition impl_step (l : list impl_def) (d : impl_def) : option (list impl_def) :=
  if has_impl (im_iface d) (im_struct d) l then Some (replace_impl d l)
  else match find_conflict l d with Some _ => None | None => Some (l ++ [d]) end.

Lemma apply_impl : forall t d,
  match impl_step (impls t) d with
  | Some l' => apply_op t (OImpl d) = Ok (set_funcs (set_impls t l') (bind_all (method_binds d) (funcs t)))
  | None => exists e, apply_op t (OImpl d) = Err e
  end.
Proof.
  intros t d. unfold impl_step. simpl. destruct (has_impl _ _ _); [reflexivity|].
  destruct (find_conflict _ _); eauto.
Qed.

Lemma impls_of_app : forall s a b, impls_of s (a ++ b) = impls_of s a ++ impls_of s b.
Proof. intros. unfold impls_of. apply filter_app. Qed.

Lemma same_key_struct : forall i s e, same_key i s e = true -> im_struct e = s.
Proof. unfold same_key. intros. apply andb_true_iff in H. destruct H. now apply String.eqb_eq. Qed.

Lemma impls_of_replace : forall s d l,
  impls_of s (replace_impl d l) =
  if String.eqb (im_struct d) s then replace_impl d (impls_of s l) else impls_of s l.
Proof.
  induction l as [|e l IH]; simpl.
  - now destruct (String.eqb _ _).
  - destruct (same_key (im_iface d) (im_struct d) e) eqn:K.
    + pose proof (same_key_struct _ _ _ K) as Es. simpl. rewrite Es.
      destruct (String.eqb (im_struct d) s) eqn:E; [|reflexivity]. simpl. now rewrite K.
    + simpl. rewrite IH. destruct (String.eqb (im_struct e) s) eqn:E1, (String.eqb (im_struct d) s) eqn:E2;
        simpl; try rewrite K; reflexivity.
Qed.

Lemma find_conflict_sub : forall l d, find_conflict l d = find_conflict (impls_of (im_struct d) l) d.
Proof.
  intros. unfold find_conflict, impls_of.
  assert (Hf : forall (f : impl_def -> bool) x, filter f (filter f x) = filter f x).
  { induction x; simpl; auto. destruct (f a) eqn:E; simpl; rewrite ?E; congruence. }
  now rewrite Hf.
Qed.

(* the step on d only reads and changes the blocks of d's struct *)
Lemma impl_step_local : forall l1 l2 d,
  impls_of (im_struct d) l1 = impls_of (im_struct d) l2 ->
  match impl_step l1 d, impl_step l2 d with
  | Some a, Some b => impls_of (im_struct d) a = impls_of (im_struct d) b
  | None, None => True
  | _, _ => False
  end.
Proof.
  intros l1 l2 d H. unfold impl_step.
  rewrite (has_impl_sub _ _ l1), (has_impl_sub _ _ l2), (find_conflict_sub l1), (find_conflict_sub l2), H.
  destruct (has_impl _ _ _).
  - rewrite !impls_of_replace, String.eqb_refl. now rewrite H.
  - destruct (find_conflict _ _); [exact Logic.I|]. rewrite !impls_of_app. now rewrite H.
Qed.

Lemma impl_step_other : forall l d l' s,
  impl_step l d = Some l' -> s <> im_struct d -> impls_of s l' = impls_of s l.
Proof.
  intros l d l' s H Hs. unfold impl_step in H. apply not_eq_sym in Hs. apply String.eqb_neq in Hs.
  destruct (has_impl _ _ _).
  - injection H as <-. now rewrite impls_of_replace, Hs.
  - destruct (find_conflict _ _); [discriminate|]. injection H as <-.
    rewrite impls_of_app. simpl. rewrite Hs. apply app_nil_r.
Qed.

Lemma find_ctor_app : forall s n l s' a b,
  find_ctor s n (l ++ [(s', (a, b))]) =
  match find_ctor s n l with
  | Some v => Some v
  | None => if String.eqb s s' && Nat.eqb n a then Some b else None
  end.
Proof.
  induction l as [|[s0 [a0 b0]] l IH]; intros; simpl; [reflexivity|].
  destruct (String.eqb s s0 && Nat.eqb n a0); [reflexivity|apply IH].
Qed.

Inductive ftag := FMap (g : tag) | FImpl | FCtor (arity : nat).
Definition foot (o : op) : list (ftag * name) :=
  map (fun x => (FMap (fst x), snd x)) (op_writes o) ++
  match o with
  | OImpl d => [(FImpl, im_struct d)]
  | OCtor s a _ => [(FCtor a, s)]
  | _ => []
  end.
(* the bindings a step looks at: only an initialiser reads (the names in its expression) *)
Definition op_reads (o : op) : list (tag * name) := match o with OInit _ _ e => ereads e | _ => [] end.
(* write/write independence ... *)
Definition findep (o1 o2 : op) : Prop := forall x, In x (foot o1) -> ~ In x (foot o2).
(* ... and neither step reads what the other writes *)
Definition indep (o1 o2 : op) : Prop :=
  findep o1 o2 /\ (forall x, In x (op_reads o1) -> ~ In x (op_writes o2)) /\
  (forall x, In x (op_reads o2) -> ~ In x (op_writes o1)).

Lemma findep_sym : forall a b, findep a b -> findep b a.
Proof. unfold findep. intros a b H x Hb Ha. exact (H x Ha Hb). Qed.
Lemma indep_sym : forall a b, indep a b -> indep b a.
Proof. intros a b [H1 [H2 H3]]. repeat split; auto using findep_sym. Qed.

Lemma foot_writes : forall o g k, In (FMap g, k) (foot o) <-> In (g, k) (op_writes o).
Proof.
  intros. unfold foot. rewrite in_app_iff, in_map_iff. split.
  - intros [[[g' k'] [E H]]|H]; [now injection E as <- <-|]. destruct o; simpl in H; intuition discriminate.
  - intros H. left. now exists (g, k).
Qed.

Definition ftag_eq_dec : forall a b : ftag, {a = b} + {a <> b}.
Proof. decide equality; [apply tag_eq_dec|apply Nat.eq_dec]. Defined.
Definition fk_eq_dec : forall a b : ftag * name, {a = b} + {a <> b} := prod_eq_dec ftag_eq_dec string_dec.

(* The tables seen through footprint keys.  [cell x t] is what the tables hold under the key x;
   tables are equal as maps iff they agree on every cell, on the set of impl statics and on the set of
   loaded modules (the two tables that have no keys: a step only ever adds to them). *)
Inductive cval := CMap (v : option tval) | CImpls (l : list impl_def) | CCtor (b : option nat).
Definition cell (x : ftag * name) (t : tables) : cval :=
  match fst x with
  | FMap g => CMap (tlookup g (snd x) t)
  | FImpl => CImpls (impls_of (snd x) (impls t))
  | FCtor n => CCtor (find_ctor (snd x) n (ctors t))
  end.

Lemma teq_cells : forall a b, teq a b <->
  (forall x, cell x a = cell x b) /\
  (forall x, In x (istatics a) <-> In x (istatics b)) /\ (forall p, mem p (loaded a) = mem p (loaded b)).
Proof.
  intros a b. split.
  - intros H. split; [|split; apply H]. intros [[g| |n] k]; unfold cell; simpl; f_equal.
    + now apply teq_tlookup.
    + apply H.
    + apply H.
  - intros [Hc [Hs Hl]].
    assert (Hm : forall g k, tlookup g k a = tlookup g k b).
    { intros g k. specialize (Hc (FMap g, k)). now injection Hc. }
    constructor; intros; auto.
    + exact (tlookup_eq TF k a b (Hm _ _)).
    + exact (tlookup_eq TS k a b (Hm _ _)).
    + exact (tlookup_eq TI k a b (Hm _ _)).
    + exact (tlookup_eq TT k a b (Hm _ _)).
    + exact (tlookup_eq TV k a b (Hm _ _)).
    + exact (tlookup_eq TE k a b (Hm _ _)).
    + exact (tlookup_eq TD k a b (Hm _ _)).
    + specialize (Hc (FImpl, s)). now injection Hc.
    + specialize (Hc (FCtor n, s)). now injection Hc.
Qed.

(* What one step does.  Three facts per step, from which congruence and commutation follow
   without looking at the steps again: the tables without keys only grow, a cell outside the footprint is
   left alone, and success and the new contents of the footprint depend on the old tables only through
   the footprint and the bindings read. *)
Definition op_statics (o : op) : list (name * (name * name)) :=
  match o with OStatic i s v => [(i, (s, v))] | _ => [] end.

Lemma apply_rest : forall o t t', apply_op t o = Ok t' ->
  match o with OImpl d => impl_step (impls t) d = Some (impls t') | _ => impls t' = impls t end /\
  ctors t' = ctors t ++ match o with OCtor s a b => [(s, (a, b))] | _ => [] end /\
  istatics t' = op_statics o ++ istatics t.
Proof.
  intros o t t' H. destruct o; simpl in H; try enum_case H;
    try (injection H as <-; simpl; rewrite ?app_nil_r; auto; fail); try discriminate.
  - unfold impl_step. destruct (has_impl _ _ _); [|destruct (find_conflict _ _); [discriminate|]];
      injection H as <-; simpl; rewrite app_nil_r; auto.
  - destruct (eval t 0 e); [|discriminate]. injection H as <-. simpl. rewrite app_nil_r. auto.
Qed.

Lemma apply_cell_frame : forall o t t' x, apply_op t o = Ok t' -> ~ In x (foot o) -> cell x t' = cell x t.
Proof.
  intros o t t' [[g| |n] k] H Hn; destruct (apply_rest _ _ _ H) as [Hi [Hc _]]; unfold cell; simpl; f_equal.
  - eapply apply_frame; eauto. now rewrite <- foot_writes.
  - destruct o; try now rewrite Hi. eapply impl_step_other; eauto.
    intros ->. apply Hn. unfold foot. apply in_app_iff. right. now left.
  - rewrite Hc. destruct o; rewrite ?app_nil_r; auto.
    rewrite find_ctor_app. destruct (find_ctor k n (ctors t)); [reflexivity|].
    destruct (String.eqb_spec k s) as [->|]; [|reflexivity]. destruct (Nat.eqb_spec n arity) as [->|]; [|reflexivity].
    exfalso. apply Hn. simpl. auto.
Qed.

Definition depends (o : op) (x : ftag * name) : Prop :=
  In x (foot o) \/ exists g k, x = (FMap g, k) /\ In (g, k) (op_reads o).

Lemma apply_local : forall o a b, (forall x, depends o x -> cell x a = cell x b) ->
  match apply_op a o, apply_op b o with
  | Ok a', Ok b' => forall x, In x (foot o) -> cell x a' = cell x b'
  | Err _, Err _ => True
  | _, _ => False
  end.
Proof.
  intros o a b H.
  assert (Hw : forall g k, In (g, k) (op_writes o) -> tlookup g k a = tlookup g k b).
  { intros g k Hk. assert (E : cell (FMap g, k) a = cell (FMap g, k) b) by (apply H; left; now apply foot_writes).
    now injection E. }
  destruct o; simpl; try exact Logic.I; try (intros x []; fail);
    try (intros x [<-|[]]; unfold cell; simpl; now rewrite !lookup_bind_eq).
  - (* OEnum: registered unless the name is taken *)
    rewrite (tlookup_eq TE k a b) by (apply Hw; simpl; auto).
    destruct (lookup k (enums b)) eqn:E; intros x [<-|[]].
    + apply H. left. simpl. auto.
    + unfold cell. simpl. now rewrite !lookup_bind_eq.
  - (* OCtor: the first constructor of that arity stays *)
    intros x [<-|[]]. unfold cell. simpl. rewrite !find_ctor_app.
    assert (E : cell (FCtor arity, s) a = cell (FCtor arity, s) b) by (apply H; left; simpl; auto).
    injection E as ->. reflexivity.
  - (* OImpl: decided and stored on the blocks of the struct alone *)
    fold (apply_op a (OImpl d)). fold (apply_op b (OImpl d)).
    assert (E : cell (FImpl, im_struct d) a = cell (FImpl, im_struct d) b).
    { apply H. left. unfold foot. apply in_app_iff. right. now left. }
    injection E as E. apply impl_step_local in E.
    pose proof (apply_impl a d) as Ia. pose proof (apply_impl b d) as Ib.
    destruct (impl_step (impls a) d) as [la|], (impl_step (impls b) d) as [lb|]; try contradiction.
    + rewrite Ia, Ib. intros x Hx. unfold foot in Hx. apply in_app_iff in Hx. destruct Hx as [Hx|[<-|[]]].
      * apply in_map_iff in Hx. destruct Hx as [[g k] [<- Hk]]. unfold cell. simpl. f_equal.
        pose proof (Hw g k Hk) as L. simpl in Hk. apply in_map_iff in Hk. destruct Hk as [w [Ew _]].
        injection Ew as <- <-. simpl. f_equal. apply lookup_bind_all_congr. exact (tlookup_eq TF _ a b L).
      * unfold cell. simpl. now f_equal.
    + destruct Ia as [ea ->], Ib as [eb ->]. exact Logic.I.
  - (* OInit: the value is computed from the bindings read *)
    rewrite (eval_frame e a b 0) by (intros g k Hk; assert (E : cell (FMap g, k) a = cell (FMap g, k) b)
                                       by (apply H; right; eauto); now injection E).
    destruct (eval b 0 e) as [v|]; [|exact Logic.I]. intros x Hx. unfold foot in Hx. rewrite app_nil_r in Hx.
    apply in_map_iff in Hx. destruct Hx as [[g k] [<- Hk]]. pose proof (Hw g k Hk) as L.
    simpl in Hk. apply in_map_iff in Hk. destruct Hk as [k0 [Ek _]]. injection Ek as <- <-.
    unfold cell. simpl. do 2 f_equal. apply lookup_bind_all_congr. exact (tlookup_eq TV _ a b L).
Qed.

Lemma apply_congr : forall o a b, teq a b -> req (apply_op a o) (apply_op b o).
Proof.
  intros o a b H. apply teq_cells in H. destruct H as [Hc [Hs Hl]].
  pose proof (apply_local o a b (fun x _ => Hc x)) as L.
  destruct (apply_op a o) as [a'|] eqn:Ea, (apply_op b o) as [b'|] eqn:Eb; try exact L.
  apply teq_cells. split; [|split].
  - intros x. destruct (in_dec fk_eq_dec x (foot o)) as [Hx|Hx]; [auto|].
    now rewrite (apply_cell_frame _ _ _ _ Ea Hx), (apply_cell_frame _ _ _ _ Eb Hx).
  - intros x. destruct (apply_rest _ _ _ Ea) as [_ [_ ->]]. destruct (apply_rest _ _ _ Eb) as [_ [_ ->]].
    rewrite !in_app_iff, Hs. tauto.
  - intros p. rewrite (apply_loaded _ _ _ Ea), (apply_loaded _ _ _ Eb), !mem_app. now rewrite Hl.
Qed.

Lemma run_congr : forall ops a b, teq a b -> req (run_ops ops a) (run_ops ops b).
Proof.
  induction ops as [|o ops IH]; intros a b H; simpl; [assumption|].
  pose proof (apply_congr o a b H) as C.
  destruct (apply_op a o), (apply_op b o); simpl in C; try tauto. now apply IH.
Qed.

Lemma req_run_congr : forall ops r1 r2, req r1 r2 ->
  req (match r1 with Ok t => run_ops ops t | Err e => Err e end)
      (match r2 with Ok t => run_ops ops t | Err e => Err e end).
Proof. intros ops [a|e1] [b|e2] H; simpl in *; try tauto. now apply run_congr. Qed.

(* a step is not disturbed by an independent step executed before it *)
Lemma apply_after : forall o1 o2 t t2, indep o1 o2 -> apply_op t o2 = Ok t2 ->
  match apply_op t o1, apply_op t2 o1 with
  | Ok t1, Ok t21 => forall x, In x (foot o1) -> cell x t1 = cell x t21
  | Err _, Err _ => True
  | _, _ => False
  end.
Proof.
  intros o1 o2 t t2 [If [Ir _]] E2. apply apply_local. intros x D. symmetry.
  apply (apply_cell_frame _ _ _ _ E2). destruct D as [D|[g [k [-> D]]]].
  - now apply If.
  - rewrite foot_writes. now apply Ir.
Qed.

Lemma comm_two : forall o1 o2 t, indep o1 o2 -> req (run_ops [o1; o2] t) (run_ops [o2; o1] t).
Proof.
  intros o1 o2 t I. pose proof (apply_after o1 o2 t) as A1. pose proof (apply_after o2 o1 t) as A2.
  simpl. destruct (apply_op t o1) as [t1|] eqn:E1, (apply_op t o2) as [t2|] eqn:E2.
  - specialize (A1 t2 I eq_refl). specialize (A2 t1 (indep_sym _ _ I) eq_refl).
    destruct (apply_op t1 o2) as [t12|] eqn:E12; [|contradiction].
    destruct (apply_op t2 o1) as [t21|] eqn:E21; [|contradiction].
    destruct I as [If _]. apply teq_cells. split; [|split].
    + intros x. destruct (in_dec fk_eq_dec x (foot o1)) as [H1|H1].
      * rewrite (apply_cell_frame _ _ _ _ E12 (If x H1)). now apply A1.
      * rewrite (apply_cell_frame _ _ _ _ E21 H1). destruct (in_dec fk_eq_dec x (foot o2)) as [H2|H2].
        -- symmetry. now apply A2.
        -- now rewrite (apply_cell_frame _ _ _ _ E12 H2), (apply_cell_frame _ _ _ _ E1 H1), (apply_cell_frame _ _ _ _ E2 H2).
    + intros x. destruct (apply_rest _ _ _ E12) as [_ [_ ->]]. destruct (apply_rest _ _ _ E21) as [_ [_ ->]].
      destruct (apply_rest _ _ _ E1) as [_ [_ ->]]. destruct (apply_rest _ _ _ E2) as [_ [_ ->]].
      rewrite !in_app_iff. tauto.
    + intros p. rewrite (apply_loaded _ _ _ E12), (apply_loaded _ _ _ E21), (apply_loaded _ _ _ E1), (apply_loaded _ _ _ E2).
      rewrite !mem_app. destruct (mem p (op_loads o1)), (mem p (op_loads o2)); reflexivity.
  - specialize (A2 t1 (indep_sym _ _ I) eq_refl). destruct (apply_op t1 o2); [contradiction|exact Logic.I].
  - specialize (A1 t2 I eq_refl). destruct (apply_op t2 o1); [contradiction|exact Logic.I].
  - exact Logic.I.
Qed.

(* two steps are compatible if they are the very same step (the same impl block reaching the
   interpreter through two importers of a common module - a diamond) or touch different names *)
Definition compat (o1 o2 : op) : Prop := o1 = o2 \/ indep o1 o2.

Lemma swap_adjacent : forall o1 o2 rest t, compat o1 o2 ->
  req (run_ops (o1 :: o2 :: rest) t) (run_ops (o2 :: o1 :: rest) t).
Proof.
  intros. change (o1 :: o2 :: rest) with ([o1; o2] ++ rest). change (o2 :: o1 :: rest) with ([o2; o1] ++ rest).
  rewrite !run_ops_app. apply req_run_congr. destruct H as [->|H]; [apply req_refl|now apply comm_two].
Qed.

Lemma req_prefix : forall pre a b,
  (forall t, req (run_ops a t) (run_ops b t)) -> forall t, req (run_ops (pre ++ a) t) (run_ops (pre ++ b) t).
Proof.
  induction pre as [|o pre IH]; intros a b H t; simpl; [apply H|]. destruct (apply_op t o); [now apply IH|exact Logic.I].
Qed.

Lemma move_one : forall o ops2 rest, (forall o2, In o2 ops2 -> compat o o2) ->
  forall t, req (run_ops (o :: ops2 ++ rest) t) (run_ops (ops2 ++ o :: rest) t).
Proof.
  induction ops2 as [|o2 ops2 IH]; intros rest H t; simpl app.
  - apply req_refl.
  - eapply req_trans; [apply swap_adjacent; apply H; now left|].
    apply (req_prefix [o2]). intros. apply IH. intros. apply H. now right.
Qed.

Lemma swap_blocks : forall ops1 ops2 rest,
  (forall o1 o2, In o1 ops1 -> In o2 ops2 -> compat o1 o2) ->
  forall t, req (run_ops (ops1 ++ ops2 ++ rest) t) (run_ops (ops2 ++ ops1 ++ rest) t).
Proof.
  induction ops1 as [|o ops1 IH]; intros ops2 rest H t; simpl app.
  - apply req_refl.
  - eapply req_trans.
    + apply (req_prefix [o]). intros. apply IH. intros. apply H; auto. now right.
    + simpl app. apply move_one. intros. apply H; auto. now left.
Qed.

Lemma NoDup_app_intro_disj : forall (a b : list name),
  NoDup a -> NoDup b -> (forall x, In x a -> In x b -> False) -> NoDup (a ++ b).
Proof.
  induction a; intros b Ha Hb H; simpl; [assumption|]. inversion Ha; subst. constructor.
  - intro Hin. apply in_app_iff in Hin. destruct Hin; [contradiction|]. apply (H a); [now left|assumption].
  - apply IHa; auto. intros x Hx. apply H. now right.
Qed.

Fixpoint before (a b : name) (l : list name) : Prop :=
  match l with [] => False | c :: r => (c = a /\ In b r) \/ before a b r end.

Lemma before_app : forall a b l1 l2,
  before a b (l1 ++ l2) <-> before a b l1 \/ before a b l2 \/ (In a l1 /\ In b l2).
Proof.
  induction l1 as [|c l1 IH]; intros l2; simpl; [tauto|]. rewrite IH, in_app_iff. tauto.
Qed.
Lemma before_in : forall a b l, before a b l -> In a l /\ In b l.
Proof. induction l as [|c l IH]; simpl; [tauto|]. intros [[-> H]|H]; [auto|]. apply IH in H. tauto. Qed.
Lemma before_neq : forall a b l, NoDup l -> before a b l -> a <> b.
Proof.
  induction l as [|c l IH]; simpl; [tauto|]. intros N. inversion N; subst.
  intros [[-> H]|H]; [|auto]. intros ->. contradiction.
Qed.

(* [C] lists the modules loaded between [t] and [t'], each once *)
Definition news (t t' : tables) (C : list name) : Prop := NoDup C /\ forall q, In q C <-> newly t t' q.

Lemma news_nil : forall t t', loaded t' = loaded t -> news t t' [].
Proof.
  intros t t' L. split; [constructor|]. intros q. split; [intros []|]. intros [H1 H2]. rewrite L in H2. congruence.
Qed.

Lemma news_seq : forall t ta t' Ca Cr, extends t ta -> extends ta t' ->
  news t ta Ca -> news ta t' Cr -> news t t' (Ca ++ Cr).
Proof.
  intros t ta t' Ca Cr E1 E2 [Na Sa] [Nr Sr]. split.
  - apply NoDup_app_intro_disj; auto. intros x Ha Hr. apply Sa in Ha. apply Sr in Hr.
    destruct Ha as [_ A2]. destruct Hr as [R1 _]. congruence.
  - intros q. rewrite in_app_iff, Sa, Sr. split; [now apply newly_seq|].
    intros [H1 H2]. unfold newly. destruct (mem q (loaded ta)); auto.
Qed.

Lemma news_load : forall p t t2 t' C, mem p (loaded t) = false -> extends (mark_loaded p t) t2 ->
  loaded t' = loaded t2 -> news (mark_loaded p t) t2 C -> news t t' (p :: C).
Proof.
  intros p t t2 t' C M E L [N S]. split.
  - constructor; [|exact N]. intros Hp. apply S in Hp. destruct Hp as [Hp _]. simpl in Hp.
    now rewrite String.eqb_refl in Hp.
  - intros q. unfold newly. rewrite L. simpl. rewrite S. unfold newly. simpl.
    destruct (String.eqb_spec q p) as [->|Hn].
    + split; [|now left]. intros _. split; [exact M|]. apply (ext_loaded _ _ E). simpl. now rewrite String.eqb_refl.
    + split; [intros [->|H]; [contradiction|exact H]|now right].
Qed.

Lemma news_perm : forall t t' C C', Permutation C C' -> news t t' C -> news t t' C'.
Proof.
  intros t t' C C' P [N S]. split; [eapply Permutation_NoDup; eauto|].
  intros q. rewrite <- S. split; apply Permutation_in; [symmetry|]; exact P.
Qed.

Section Blocks.
Variable pf : nat.
Variable fs : fsys.

Definition blocks (l : list name) : list op := flat_map (block pf fs) l.
Definition footprint (p : name) : list (ftag * name) := flat_map foot (block pf fs p).
Definition mreads (p : name) : list (tag * name) := flat_map op_reads (block pf fs p).
Definition mwrites (p : name) : list (tag * name) := flat_map op_writes (block pf fs p).
(* modules that bind disjoint names (impl blocks: for different structs; constructors: for different
   (struct, arity)) and whose initialisers do not read a name the other module binds *)
Definition independent (U : list name) : Prop :=
  forall p q, In p U -> In q U -> p <> q ->
    (forall x, In x (footprint p) -> ~ In x (footprint q)) /\
    (forall x, In x (mreads p) -> ~ In x (mwrites q)).
(* weaker: any two registration steps of two different modules are identical or touch different names *)
Definition compatible (U : list name) : Prop :=
  forall p q, In p U -> In q U -> p <> q ->
  forall o1 o2, In o1 (block pf fs p) -> In o2 (block pf fs q) -> compat o1 o2.

Lemma independent_compatible : forall U, independent U -> compatible U.
Proof.
  intros U H p q Hp Hq Hne o1 o2 H1 H2. right.
  destruct (H p q Hp Hq Hne) as [F R]. destruct (H q p Hq Hp (not_eq_sym Hne)) as [_ R'].
  split; [|split]; intros x Hx1 Hx2.
  - apply (F x); unfold footprint; apply in_flat_map; eauto.
  - apply (R x); [unfold mreads|unfold mwrites]; apply in_flat_map; eauto.
  - apply (R' x); [unfold mreads|unfold mwrites]; apply in_flat_map; eauto.
Qed.

Lemma blocks_app : forall l1 l2, blocks (l1 ++ l2) = blocks l1 ++ blocks l2.
Proof. intros. unfold blocks. apply flat_map_app. Qed.
Lemma in_blocks : forall o l, In o (blocks l) -> exists q, In q l /\ In o (block pf fs q).
Proof. intros o l H. apply in_flat_map in H. exact H. Qed.

(* two orders of the same blocks that differ only in pairs whose blocks commute *)
Lemma reorder : forall C2 C1, NoDup C1 -> Permutation C1 C2 ->
  (forall a b, before a b C1 -> before b a C2 ->
     forall o1 o2, In o1 (block pf fs a) -> In o2 (block pf fs b) -> compat o1 o2) ->
  forall rest t, req (run_ops (blocks C1 ++ rest) t) (run_ops (blocks C2 ++ rest) t).
Proof.
  induction C2 as [|q C2 IH]; intros C1 N1 P I rest t.
  - apply Permutation_sym, Permutation_nil in P. subst C1. apply req_refl.
  - assert (Hq : In q C1) by (apply (Permutation_in _ (Permutation_sym P)); now left).
    apply in_split in Hq. destruct Hq as [A [B ->]].
    pose proof (NoDup_remove_2 _ _ _ N1) as NqAB.
    change (q :: B) with ([q] ++ B). change (q :: C2) with ([q] ++ C2). rewrite !blocks_app.
    assert (Eq1 : blocks [q] = block pf fs q) by (unfold blocks; simpl; apply app_nil_r).
    rewrite Eq1. rewrite <- !app_assoc.
    eapply req_trans.
    + (* the block of q moves to the front, past the blocks of A *)
      apply swap_blocks. intros o1 o2 H1 H2. apply in_blocks in H1. destruct H1 as [a [Ha Ho1]].
      apply (I a q); auto.
      * apply before_app. right. right. split; [assumption|now left].
      * left. split; [reflexivity|].
        destruct (Permutation_in _ P (in_or_app _ _ a (or_introl Ha))) as [<-|Ha2]; [|exact Ha2].
        exfalso. apply NqAB. apply in_app_iff. now left.
    + apply req_prefix. intros t0. rewrite app_assoc, <- blocks_app.
      apply IH.
      * exact (NoDup_remove_1 _ _ _ N1).
      * apply Permutation_sym, (Permutation_cons_app_inv _ _ (Permutation_sym P)).
      * intros a b H1 H2. apply (I a b).
        -- apply before_app in H1. apply before_app. simpl. tauto.
        -- now right.
Qed.

Lemma blocks_agree : forall t t1 t2 C1 C2, news t t1 C1 -> news t t2 C2 ->
  (forall q, mem q (loaded t1) = true <-> mem q (loaded t2) = true) ->
  (forall a b, before a b C1 -> before b a C2 ->
     forall o1 o2, In o1 (block pf fs a) -> In o2 (block pf fs b) -> compat o1 o2) ->
  (forall rest, req (run_ops rest t1) (run_ops (blocks C1 ++ rest) t)) ->
  (forall rest, req (run_ops rest t2) (run_ops (blocks C2 ++ rest) t)) -> teq t1 t2.
Proof.
  intros t t1 t2 C1 C2 [N1 S1] [N2 S2] HL I F1 F2.
  assert (E : req (run_ops (blocks C1 ++ []) t) (run_ops (blocks C2 ++ []) t)).
  { apply reorder; auto. apply NoDup_Permutation; auto. intros x. rewrite S1, S2. unfold newly. now rewrite HL. }
  exact (req_trans (Ok t1) _ (Ok t2) (F1 []) (req_trans _ _ _ E (req_sym _ _ (F2 [])))).
Qed.

(* Which modules an import loads.  [S] is any set closed under the import statements of its
   members that are not in [L]; a run that starts with [L] loaded and is asked for members of [S] only
   loads nothing outside [S] *)
Definition within (S : name -> Prop) (L : list name) (t : tables) : Prop :=
  (forall x, mem x L = true -> mem x (loaded t) = true) /\
  (forall x, mem x (loaded t) = true -> mem x L = true \/ S x).

Lemma loaded_within : forall (S : name -> Prop) L,
  (forall r m q, S r -> mem r L = false -> resolve fs r = Some m -> In (SImport q) m -> S q) ->
  (forall t p t', imports pf fs t p t' -> within S L t -> S p \/ mem p (loaded t) = true -> within S L t') /\
  (forall p t l t', stmts pf fs p t l t' -> within S L t -> (forall q, In (SImport q) l -> S q) -> within S L t').
Proof.
  intros S L closed. apply loader_ind.
  - intros t p M W _. exact W.
  - intros t p m t2 t' M R Hst IH Hs [W1 W2] [Sp|Hp]; [|congruence].
    unfold within. rewrite (run_sync_loaded _ _ _ Hs). apply IH.
    + split; intros x Hx.
      * exact (ext_loaded _ _ (mark_extends p t) x (W1 x Hx)).
      * simpl in Hx. destruct (String.eqb_spec x p) as [E|_]; [subst x|]; auto.
    + intros q Hq. apply (closed p m q Sp); auto.
      destruct (mem p L) eqn:E; [|reflexivity]. now rewrite (W1 p E) in M.
  - intros p t W _. exact W.
  - intros p t q r ta t2 Hi IHi Hs IHs W HS. apply IHs.
    + apply IHi; [exact W|]. left. apply HS. now left.
    + intros; apply HS; now right.
  - intros p t e d r ta t2 Hr Hs IH W HS. apply IH.
    + unfold within. now rewrite (run_stmt_ops_loaded _ _ _ _ Hr).
    + intros; apply HS; now right.
Qed.

(* induction over the modules a run loads: what holds of the modules asked for and passes along the import
   statements of newly loaded modules holds of every newly loaded module (the loaded modules that have the
   property are closed, since new members are complete) *)
Lemma newly_ind : forall (P : name -> Prop) p t l t', stmts pf fs p t l t' ->
  (forall q, In (SImport q) l -> P q) ->
  (forall r m q, P r -> newly t t' r -> resolve fs r = Some m -> In (SImport q) m -> P q) ->
  forall a, newly t t' a -> P a.
Proof.
  intros P p t l t' Hst Hl Hinh a [A1 A2].
  destruct (proj2 (newly_loaded_complete pf fs) _ _ _ _ Hst) as [Cm [Im _]].
  assert (W : within (fun x => P x /\ mem x (loaded t') = true) (loaded t) t').
  { apply (fun C => proj2 (loaded_within _ _ C) _ _ _ _ Hst).
    - intros r m q [Pr Lr] Mr Rr Hq. destruct (Cm r Mr Lr) as [m' [R' [Ci _]]].
      rewrite Rr in R'. injection R' as <-. split; [|auto]. apply (Hinh r m q); auto. now split.
    - split; auto.
    - intros q Hq. split; auto. }
  destruct (proj2 W a A2) as [HL|[HS _]]; [congruence|exact HS].
Qed.

(* the set of modules a successful sequence of imports loads does not depend on the order: the other run has
   loaded the modules asked for, and the imports of every module it loaded *)
Lemma load_same_modules : forall fuel l1 l2 t t1 t2,
  Permutation l1 l2 -> load fuel pf fs l1 t = Ok t1 -> load fuel pf fs l2 t = Ok t2 ->
  forall q, mem q (loaded t1) = true -> mem q (loaded t2) = true.
Proof.
  intros fuel l1 l2 t t1 t2 P H1 H2 q Hq.
  pose proof (load_stmts pf fs _ _ _ _ H1 "") as S1. pose proof (load_stmts pf fs _ _ _ _ H2 "") as S2.
  destruct (proj2 (newly_loaded_complete pf fs) _ _ _ _ S2) as [C2 [M2 _]].
  destruct (mem q (loaded t)) eqn:Mq; [exact (ext_loaded _ _ (stmts_extends _ _ _ _ _ _ S2) q Mq)|].
  apply (newly_ind (fun x => mem x (loaded t2) = true) _ _ _ _ S1); [| |now split].
  - intros p Hp. apply M2. apply in_map_iff in Hp. destruct Hp as [x [E Hx]]. injection E as <-.
    apply in_map. now apply (Permutation_in _ P).
  - intros r m x Sr [Mr _] Rr Hx. destruct (C2 r Mr Sr) as [m' [R' [C _]]].
    rewrite Rr in R'. injection R' as <-. auto.
Qed.

Lemma permuted_loads : forall fuel U l1 l2 t t1 t2,
  Permutation l1 l2 -> load fuel pf fs l1 t = Ok t1 -> load fuel pf fs l2 t = Ok t2 ->
  (forall q, mem q (loaded t1) = true -> mem q (loaded t) = true \/ In q U) ->
  (forall q, mem q (loaded t1) = true <-> mem q (loaded t2) = true) /\
  (forall q, newly t t1 q -> In q U) /\ (forall q, newly t t2 q -> In q U).
Proof.
  intros fuel U l1 l2 t t1 t2 P H1 H2 HU.
  assert (HL : forall q, mem q (loaded t1) = true <-> mem q (loaded t2) = true).
  { intros q. split; [apply (load_same_modules _ _ _ _ _ _ P H1 H2)|
                      apply (load_same_modules _ _ _ _ _ _ (Permutation_sym P) H2 H1)]. }
  assert (HU1 : forall q, newly t t1 q -> In q U).
  { intros q [Q1 Q2]. destruct (HU q Q2) as [X|X]; [congruence|exact X]. }
  repeat split; try apply HL; auto. intros q [Q1 Q2]. apply HU1. split; [exact Q1|now apply HL].
Qed.

End Blocks.

(* A decidable sufficient check of [compatible], for concrete file systems *)
Definition impl_eq_dec : forall a b : impl_def, {a = b} + {a <> b}.
Proof.
  decide equality; try apply string_dec.
  - apply (list_eq_dec string_dec).
  - apply (option_eq_dec Nat.eq_dec).
  - apply (list_eq_dec (prod_eq_dec Nat.eq_dec Nat.eq_dec)).
  - apply (list_eq_dec (prod_eq_dec string_dec Nat.eq_dec)).
Defined.
Definition error_eq_dec : forall a b : error, {a = b} + {a <> b}.
Proof. decide equality; apply string_dec. Defined.
Definition expr_eq_dec : forall a b : expr, {a = b} + {a <> b}.
Proof.
  fix IH 1. intros a b. decide equality; try apply string_dec; try apply Nat.eq_dec.
  apply (list_eq_dec (prod_eq_dec Nat.eq_dec IH)).
Defined.
Definition op_eq_dec : forall a b : op, {a = b} + {a <> b}.
Proof.
  decide equality; try apply string_dec; try apply Nat.eq_dec; try apply bool_dec;
    try apply expr_eq_dec; try apply (list_eq_dec string_dec).
  - apply sdef_eq_dec.
  - apply (option_eq_dec Nat.eq_dec).
  - apply (list_eq_dec (prod_eq_dec string_dec Nat.eq_dec)).
  - apply impl_eq_dec.
  - apply error_eq_dec.
Defined.

Definition disjointb (a b : list (ftag * name)) : bool :=
  forallb (fun x => if in_dec fk_eq_dec x b then false else true) a.
Definition tdisjointb (a b : list (tag * name)) : bool :=
  forallb (fun x => if in_dec tk_eq_dec x b then false else true) a.
Definition compatb (o1 o2 : op) : bool :=
  if op_eq_dec o1 o2 then true
  else disjointb (foot o1) (foot o2) && tdisjointb (op_reads o1) (op_writes o2) && tdisjointb (op_reads o2) (op_writes o1).
Definition compatibleb (pf : nat) (fs : fsys) (l : list name) : bool :=
  forallb (fun p => forallb (fun q =>
     String.eqb p q || forallb (fun o1 => forallb (compatb o1) (block pf fs q)) (block pf fs p)) l) l.

Lemma in_dec_disjoint : forall A (dec : forall a b : A, {a = b} + {a <> b}) (a b : list A),
  forallb (fun x => if in_dec dec x b then false else true) a = true -> forall x, In x a -> ~ In x b.
Proof. intros A dec a b H x Ha. rewrite forallb_forall in H. specialize (H x Ha). now destruct (in_dec dec x b). Qed.

Lemma compatb_sound : forall o1 o2, compatb o1 o2 = true -> compat o1 o2.
Proof.
  intros o1 o2 H. unfold compatb in H. destruct (op_eq_dec o1 o2); [now left|right].
  apply andb_true_iff in H. destruct H as [H H3]. apply andb_true_iff in H. destruct H as [H H2].
  split; [|split]; intros x; eapply in_dec_disjoint; eassumption.
Qed.

Lemma compatb_all_sound : forall B1 B2, forallb (fun o1 => forallb (compatb o1) B2) B1 = true ->
  forall o1 o2, In o1 B1 -> In o2 B2 -> compat o1 o2.
Proof.
  intros B1 B2 H o1 o2 H1 H2. rewrite forallb_forall in H. specialize (H o1 H1). rewrite forallb_forall in H.
  apply compatb_sound. auto.
Qed.

Lemma compatibleb_sound : forall pf fs l, compatibleb pf fs l = true -> compatible pf fs l.
Proof.
  intros pf fs l H p q Hp Hq Hne. unfold compatibleb in H.
  rewrite forallb_forall in H. specialize (H p Hp). rewrite forallb_forall in H. specialize (H q Hq).
  apply orb_true_iff in H. destruct H as [H|H]; [apply String.eqb_eq in H; contradiction|].
  now apply compatb_all_sound.
Qed.
