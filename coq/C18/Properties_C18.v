(* C18 - property theorems only. Statements are about the Mech model of the run-time module loader
   (Model.v: handle_import_statement incl. the execution of a module's own imports,
   sync_impl_definitions_from_parser, register_impl_definition) as it stands after the fix: commits
   e75028a, 7f2ae2b, 871ed77, a650333; the lemmas they rest on are in Import.v / Init.v / Order.v / Layers.v / Inline.v.  They hold for
   every file system [fs], every table state [t], every recursion bound [fuel] and every depth bound
   [pf] of the private parser's transitive impl list. *)
From Coq Require Import List String Ascii Bool Arith Permutation.
Import ListNotations.
From Cb Require Import C18.Model C18.Import C18.Init C18.Order C18.Layers C18.Inline.
Local Open Scope string_scope.
Local Open Scope list_scope.

(* ------------------------------------------------------------------ exactly the exports *)

(* Whatever binding (function, struct, interface, typedef, variable, enum, destructor) differs after
   `import p;` was written by a module q that this import loaded (p itself or a module reached through
   the imports of loaded modules): by an exported declaration of q's file, under its own name or
   `q.name`, or by an impl block held by that file's parser (impl blocks are registered whether or not
   they are exported: hidden_impl_invisible_refuted). *)
Theorem only_exports_visible : forall fuel pf fs t p t' g k,
  handle_import fuel pf fs t p = Ok t' -> tlookup g k t' <> tlookup g k t ->
  exists q m, mem q (loaded t) = false /\ mem q (loaded t') = true /\ resolve fs q = Some m /\
    ((exists d, In (SDecl true d) m /\ In (g, k) (decl_keys q d)) \/
     (exists d, In d (parser_impls pf fs m) /\
        ((g = TF /\ In k (map fst (method_binds d))) \/ (g = TD /\ k = im_struct d /\ im_dtor d <> None)))).
Proof. exact only_exports_visible_l. Qed.
Print Assumptions only_exports_visible.

(* readable instance: a function name that no exported function of any newly loaded module carries
   (plain or qualified) and that is no mangled method key is exactly as (un)callable as before *)
Theorem hidden_function_not_callable : forall fuel pf fs t p t' n,
  handle_import fuel pf fs t p = Ok t' ->
  (forall q m, mem q (loaded t) = false -> mem q (loaded t') = true -> resolve fs q = Some m ->
     (forall n0 b, In (SDecl true (DFunc n0 b)) m -> n <> n0 /\ n <> qualified q n0) /\
     (forall d, In d (parser_impls pf fs m) -> ~ In n (map fst (method_binds d)))) ->
  lookup n (funcs t') = lookup n (funcs t).
Proof.
  intros fuel pf fs t p t' n H Hn. apply (tlookup_eq TF n t' t).
  destruct (otval_eq_dec (tlookup TF n t') (tlookup TF n t)) as [E|C]; [exact E|exfalso].
  destruct (only_exports_visible_l _ _ _ _ _ _ _ _ H C) as [q [m [Q1 [Q2 [Q3 W]]]]].
  destruct (Hn q m Q1 Q2 Q3) as [Hf Hi].
  destruct W as [[d [Hd Hk]]|[d [Hd [[_ Hk]|[Hg _]]]]].
  - apply decl_keys_TF in Hk. destruct Hk as [n0 [b [-> Hk]]]. destruct (Hf _ _ Hd). tauto.
  - exact (Hi d Hd Hk).
  - discriminate.
Qed.
Print Assumptions hidden_function_not_callable.

(* every exported declaration of the imported module is bound afterwards (under name and p.name) *)
Theorem exports_become_visible : forall fuel pf fs t p m t' d g k,
  mem p (loaded t) = false -> resolve fs p = Some m -> handle_import fuel pf fs t p = Ok t' ->
  In (SDecl true d) m -> In (g, k) (decl_keys p d) -> tlookup g k t' <> None.
Proof. exact exports_become_visible_l. Qed.
Print Assumptions exports_become_visible.

(* ... and the same holds for EVERY module the import loaded, directly or through other modules: its
   own imports are loaded and all its exports are bound - so an exported definition finds the exported
   names of the modules its file imports (formerly finding #35 / C18-transitive-import) *)
Theorem loaded_modules_are_complete : forall fuel pf fs t p t' q,
  handle_import fuel pf fs t p = Ok t' -> mem q (loaded t) = false -> mem q (loaded t') = true ->
  exists m, resolve fs q = Some m /\
    (forall r, In (SImport r) m -> mem r (loaded t') = true) /\
    (forall d g k, In (SDecl true d) m -> In (g, k) (decl_keys q d) -> tlookup g k t' <> None).
Proof. exact loaded_modules_complete_l. Qed.
Print Assumptions loaded_modules_are_complete.

Theorem transitive_imports_loaded : forall fuel pf fs t p m t' r,
  mem p (loaded t) = false -> resolve fs p = Some m -> handle_import fuel pf fs t p = Ok t' ->
  In (SImport r) m -> mem r (loaded t') = true.
Proof.
  intros fuel pf fs t p m t' r M R H Hr.
  destruct (loaded_modules_complete_l _ _ _ _ _ _ p H M (handle_import_marks _ _ _ _ _ _ H)) as [m' [R' [C _]]].
  rewrite R in R'. injection R' as <-. auto.
Qed.
Print Assumptions transitive_imports_loaded.

(* REFUTED on the faithful model (finding C18-hidden-impl-visible): an impl block WITHOUT `export`
   is registered all the same - its method becomes callable and its constructor is found *)
Theorem hidden_impl_invisible_refuted : exists fs t,
  resolve fs "a" = Some [SDecl true (DStruct "SA" (mkSdef false [mkMember "x" None]));
                         SDecl true (DInterface "IA" ["getx"]);
                         SDecl false (DImpl (mkImpl "IA" "SA" [("getx", 7)] [] None []));
                         SDecl false (DImpl (mkImpl "" "SA" [] [(1, 8)] None []))] /\
  load 3 3 fs ["a"] empty_tables = Ok t /\
  lookup (method_key "SA" "getx") (funcs t) = Some 7 /\ find_ctor "SA" 1 (ctors t) = Some 8.
Proof.
  exists [("a.cb", [SDecl true (DStruct "SA" (mkSdef false [mkMember "x" None]));
                   SDecl true (DInterface "IA" ["getx"]);
                   SDecl false (DImpl (mkImpl "IA" "SA" [("getx", 7)] [] None []));
                   SDecl false (DImpl (mkImpl "" "SA" [] [(1, 8)] None []))])].
  eexists. vm_compute. repeat split.
Qed.
Print Assumptions hidden_impl_invisible_refuted.


(* ------------------------------------------------------------------ initialisers (evaluated at import time) *)

(* When the loader reaches statement k of module p, an exported variable with initialiser e, it
   evaluates e in the state tk that the first k statements of the file have produced, and in tk
   every module the file imports before that statement is loaded - and, if this run loaded it,
   complete: its own imports loaded, all its exports bound - and every exported declaration that
   precedes the statement is bound.  So an initialiser that refers only to exported names of the
   modules its file imports (and to earlier exports of its own file) finds them, whether or not the
   importing program imports those modules itself, and in whatever order. *)
Theorem initialiser_sees_imports : forall fuel pf fs t p m t' k n c e,
  mem p (loaded t) = false -> resolve fs p = Some m ->
  handle_import (S fuel) pf fs t p = Ok t' ->
  nth_error m k = Some (SDecl true (DVar n c (Some e))) ->
  exists tk v,
    run_stmts (handle_import fuel pf fs) p (firstn k m) (mark_loaded p t) = Ok tk /\
    eval tk 0 e = VOk v /\
    (forall r, In (SImport r) (firstn k m) ->
       mem r (loaded tk) = true /\ (mem r (loaded t) = true \/ r = p \/ complete fs r tk)) /\
    (forall d g key, In (SDecl true d) (firstn k m) -> In (g, key) (decl_keys p d) -> tlookup g key tk <> None).
Proof.
  intros fuel pf fs t p m t' k n c e M R H Hn.
  rewrite handle_import_S, M, R in H.
  destruct (run_stmts (handle_import fuel pf fs) p m (mark_loaded p t)) as [t2|] eqn:E; [|discriminate].
  rewrite (nth_split _ m k _ Hn) in E. rewrite run_stmts_app in E.
  destruct (run_stmts (handle_import fuel pf fs) p (firstn k m) (mark_loaded p t)) as [tk|] eqn:Ek; [|discriminate].
  cbn [run_stmts import_stmt_ops] in E.
  assert (Hops : import_decl_ops p (DVar n c (Some e)) = [OInit [n; qualified p n] c e]) by (destruct c; reflexivity).
  rewrite Hops in E. cbn [run_ops] in E.
  destruct (apply_op tk (OInit [n; qualified p n] c e)) as [tk'|] eqn:Ea; [|discriminate].
  destruct (apply_init_ok _ _ _ _ _ Ea) as [v [Hv _]].
  exists tk, v. split; [reflexivity|]. split; [exact Hv|].
  pose proof (run_stmts_sound pf fs (handle_import fuel pf fs) p (handle_import_sound pf fs fuel) _ _ _ Ek) as Hs.
  destruct (proj2 (newly_loaded_complete pf fs) _ _ _ _ Hs) as [S1 [S2 S3]]. split; [|exact S3].
  intros r Hr. split; [auto|]. destruct (String.eqb_spec r p) as [|N]; [auto|].
  destruct (mem r (loaded t)) eqn:Mr; [auto|]. right. right. apply S1; [|auto].
  simpl. apply String.eqb_neq in N. now rewrite N.
Qed.
Print Assumptions initialiser_sees_imports.

(* the value of an initialiser depends on the tables only through the names that occur in it and in
   the bodies of the functions it may call: whatever else an import order has bound or not is immaterial *)
Theorem initialiser_value_local : forall e a b p,
  (forall g k, In (g, k) (ereads e) -> tlookup g k a = tlookup g k b) -> eval a p e = eval b p e.
Proof. exact eval_frame. Qed.
Print Assumptions initialiser_value_local.

(* a failing initialiser makes the import fail (the program ends before main) with that very error *)
Theorem failing_initialiser_fails_import : forall t ks c e er,
  eval t 0 e = VErr er -> apply_op t (OInit ks c e) = Err er.
Proof. intros t ks c e er H. simpl. now rewrite H. Qed.
Print Assumptions failing_initialiser_fails_import.

(* a constant registered by an import (under its name and under module.name) rejects an assignment by
   the importer - the former finding C18-imported-const-assignable, repaired by fix a4fa15d *)
Theorem imported_constant_rejects_assignment : forall t ks e t' k v,
  apply_op t (OInit ks true e) = Ok t' -> In k ks -> assign t' k v = Err (EConstAssign k).
Proof.
  intros t ks e t' k v H Hin. destruct (apply_init_ok _ _ _ _ _ H) as [w [_ ->]]. unfold assign. simpl.
  now rewrite (lookup_init_binds ks true w k (vars t) Hin).
Qed.
Print Assumptions imported_constant_rejects_assignment.

(* ... and, in general, an assignment to an unqualified name is accepted or rejected (same error) alike
   after `import` and after pasting the loaded files *)
Theorem assignment_imported_like_inlined : forall a b k v,
  sim a b -> contains "." k = false -> rsim (assign a k v) (assign b k v).
Proof.
  intros a b k v H Hk. pose proof H as [Hf Hv Hs Hi Ht He Him Hc Hd Hst Hl]. unfold assign. rewrite (Hv k Hk).
  destruct (lookup k (vars b)) as [[[|] w]|]; simpl; try reflexivity.
  constructor; simpl; intros; auto. now rewrite Hv.
Qed.
Print Assumptions assignment_imported_like_inlined.

(* ------------------------------------------------------------------ once *)

Theorem import_idempotent : forall fuel pf fs p r t,
  load fuel pf fs (p :: p :: r) t = load fuel pf fs (p :: r) t.
Proof.
  intros. simpl. destruct (handle_import fuel pf fs t p) as [t'|e] eqn:H; [|reflexivity].
  now rewrite (handle_import_again fuel pf fs t' p (handle_import_marks _ _ _ _ _ _ H)).
Qed.
Print Assumptions import_idempotent.

(* a repeated import anywhere later in the sequence is a no-op: the very same result *)
Theorem import_again_is_noop : forall fuel pf fs p l1 l2 t,
  In p l1 -> load fuel pf fs (l1 ++ p :: l2) t = load fuel pf fs (l1 ++ l2) t.
Proof. intros. apply load_again_gen. now left. Qed.
Print Assumptions import_again_is_noop.


(* REFUTED on the faithful model (finding C18-same-file-two-module-paths): "once" is per module PATH, not per
   file - a file that the search path also finds under a second module path is processed twice (its
   initialisers run again, an exported global is bound anew) *)
Theorem same_file_loaded_once_refuted : exists fs t,
  resolve fs "m0" = resolve fs "modules.m0" /\ resolve fs "m0" <> None /\
  load 3 3 fs ["m0"; "modules.m0"] empty_tables = Ok t /\
  loaded t = ["modules.m0"; "m0"] /\ List.length (filter (fun b => String.eqb (fst b) "g") (vars t)) = 2.
Proof.
  exists [("modules/m0.cb", [SDecl true (DVar "g" false (Some (ELit 5)))])]. eexists. vm_compute.
  repeat split. discriminate.
Qed.
Print Assumptions same_file_loaded_once_refuted.

(* the same for a module that was loaded through another module (a diamond, or a program importing
   what one of its modules imports): it is loaded once, the later import changes nothing *)
Theorem loaded_module_changes_nothing : forall fuel pf fs t p t',
  mem p (loaded t) = true -> handle_import fuel pf fs t p = Ok t' -> t' = t.
Proof. intros. rewrite handle_import_again in H0 by assumption. now injection H0. Qed.
Print Assumptions loaded_module_changes_nothing.

Theorem successful_import_marks_loaded : forall fuel pf fs t p t',
  handle_import fuel pf fs t p = Ok t' -> mem p (loaded t') = true.
Proof. exact handle_import_marks. Qed.
Print Assumptions successful_import_marks_loaded.

(* the recursion bound of the model is immaterial: a result other than "bound exhausted" is final *)
Theorem recursion_bound_immaterial : forall fuel pf fs t p,
  no_depth (handle_import fuel pf fs t p) -> handle_import (S fuel) pf fs t p = handle_import fuel pf fs t p.
Proof.
  induction fuel as [|f IH]; intros pf fs t p N.
  - simpl in *. destruct (mem p (loaded t)); [reflexivity|destruct N].
  - rewrite (handle_import_S (S f)). rewrite (handle_import_S f) in *.
    destruct (mem p (loaded t)); [reflexivity|].
    destruct (resolve fs p) as [m|]; [|reflexivity].
    rewrite (run_stmts_more (handle_import f pf fs) (handle_import (S f) pf fs) p); [reflexivity| |].
    + intros t0 q N0. now apply IH.
    + destruct (run_stmts (handle_import f pf fs) p m (mark_loaded p t)); [exact I|exact N].
Qed.
Print Assumptions recursion_bound_immaterial.

(* ------------------------------------------------------------------ independent of order *)

(* Two successful import sequences that are permutations of each other load the same set of modules
   (those reachable through not-yet-loaded modules) ... *)
Theorem same_modules_loaded : forall fuel pf fs l1 l2 t t1 t2,
  Permutation l1 l2 -> load fuel pf fs l1 t = Ok t1 -> load fuel pf fs l2 t = Ok t2 ->
  forall q, mem q (loaded t1) = true -> mem q (loaded t2) = true.
Proof. intros fuel pf fs. exact (load_same_modules pf fs fuel). Qed.
Print Assumptions same_modules_loaded.

(* ... and, when the newly loaded modules (all inside U) have pairwise disjoint footprints (bound
   names; impl blocks: per struct; constructors: per struct and arity), tables equal as maps. *)
Theorem import_order_independent : forall fuel pf fs U l1 l2 t t1 t2,
  Permutation l1 l2 -> load fuel pf fs l1 t = Ok t1 -> load fuel pf fs l2 t = Ok t2 ->
  independent pf fs U ->
  (forall q, mem q (loaded t1) = true -> mem q (loaded t) = true \/ In q U) ->
  teq t1 t2.
Proof. intros. eapply import_order_compatible; eauto using independent_compatible. Qed.
Print Assumptions import_order_independent.

(* the same for modules that share registration steps: two importers of a common module both hand
   over its impl blocks (a diamond); identical steps commute *)
Theorem import_order_independent_diamond : forall fuel pf fs U l1 l2 t t1 t2,
  Permutation l1 l2 -> load fuel pf fs l1 t = Ok t1 -> load fuel pf fs l2 t = Ok t2 ->
  compatible pf fs U ->
  (forall q, mem q (loaded t1) = true -> mem q (loaded t) = true \/ In q U) ->
  teq t1 t2.
Proof. exact import_order_compatible. Qed.
Print Assumptions import_order_independent_diamond.


(* Modules whose initialisers READ exports of the modules they import (chains, diamonds with
   initialisers) are not independent and their registration steps do not commute; still the order of
   the program's import list is immaterial: when the import graph on U is acyclic, the files in U
   have their imports before their declarations, and any two modules of U either commute step by
   step (disjoint or identical writes, no read of the other's writes) or one imports the other, two
   successful permuted import sequences yield tables equal as maps.  (A load is the sequence of the
   new modules' blocks in completion order; no module is completed before one it imports.) *)
Theorem import_order_independent_layered : forall pf fs U rank fuel l1 l2 t t1 t2,
  (forall p m q, In p U -> resolve fs p = Some m -> In (SImport q) m -> rank q < rank p) ->
  (forall p m, In p U -> resolve fs p = Some m -> imports_first m = true) ->
  layered pf fs U -> Permutation l1 l2 ->
  load fuel pf fs l1 t = Ok t1 -> load fuel pf fs l2 t = Ok t2 ->
  (forall q, mem q (loaded t1) = true -> mem q (loaded t) = true \/ In q U) ->
  teq t1 t2.
Proof. intros. eapply layered_order_independent; eauto. Qed.
Print Assumptions import_order_independent_layered.

(* what "equal as maps" gives the interpreter: every lookup it can make answers the same *)
Theorem equal_tables_answer_alike : forall a b, teq a b ->
  (forall g k, tlookup g k a = tlookup g k b) /\
  (forall s n, find_ctor s n (ctors a) = find_ctor s n (ctors b)) /\
  (forall i s, has_impl i s (impls a) = has_impl i s (impls b)) /\
  (forall s, impls_of s (impls a) = impls_of s (impls b)) /\
  (forall p, mem p (loaded a) = mem p (loaded b)).
Proof.
  intros a b H. repeat split; try apply H.
  - exact (teq_tlookup a b H).
  - intros i s. rewrite (has_impl_sub i s (impls a)), (has_impl_sub i s (impls b)). now rewrite (teq_impls _ _ H).
Qed.
Print Assumptions equal_tables_answer_alike.

(* every registration step respects equality-as-maps, so everything that runs after the imports
   (the importer's own declarations) cannot tell the two orders apart either *)
Theorem later_registrations_respect_equality : forall ops a b,
  teq a b -> req (run_ops ops a) (run_ops ops b).
Proof. exact run_congr. Qed.
Print Assumptions later_registrations_respect_equality.

(* ------------------------------------------------------------------ imported = inlined (table level) *)

(* `import p;` leaves the tables as if every file it loads had been pasted once, where the loader
   visits it, as declarations of the importing file (exported declarations without `export`, then the
   impl blocks its parser holds): equal on every unqualified function and variable name, literally
   equal struct (array members included) / interface / typedef / enum / impl / constructor /
   destructor / impl-static tables; an error arises in one exactly if in the other.  Side conditions:
   names are identifiers and const variables have initialisers. *)
Theorem imported_like_inlined : forall fuel pf fs t p, names_ok fs ->
  rsim (handle_import fuel pf fs t p) (handle_inline fuel pf fs t p).
Proof. intros. apply sim_import; auto using sim_refl. Qed.
Print Assumptions imported_like_inlined.

(* ------------------------------------------------------------------ found via the dotted path *)

Theorem dotted_path_resolution : forall segs fs m,
  (forall s, In s segs -> contains "." s = false) ->
  let p := String.concat "." segs in
  contains "." p = true -> contains "/" p = false -> contains ".." p = false ->
  lookup (String.concat "/" segs +++ ".cb") fs = Some m ->
  resolve fs p = Some m.
Proof.
  intros segs fs m Hs p H2 H3 H4 Hl. apply resolve_first_candidate.
  rewrite (file_path_dotted p H2 H3 H4). unfold p. now rewrite (dots_become_slashes segs Hs).
Qed.
Print Assumptions dotted_path_resolution.

Theorem undotted_path_resolution : forall p fs m,
  contains "." p = false -> contains "/" p = false -> lookup (p +++ ".cb") fs = Some m -> resolve fs p = Some m.
Proof. intros p fs m H H3 Hl. apply resolve_first_candidate. now rewrite (file_path_plain p H H3). Qed.
Print Assumptions undotted_path_resolution.

Theorem missing_module_is_an_error : forall fuel pf fs t p,
  mem p (loaded t) = false -> resolve fs p = None ->
  handle_import (S fuel) pf fs t p = Err (EOpen p (file_path_of p)).
Proof. intros. simpl. now rewrite H, H0. Qed.
Print Assumptions missing_module_is_an_error.

(* ------------------------------------------------------------------ the former refutation witnesses *)
(* (known findings C18-struct-array-member, C18-impl-static-not-imported, C18-transitive-import,
   C18-dotcb-component before the repairs): on the model of the repaired code each now behaves as the
   property demands *)
Theorem former_witnesses_repaired :
  (* an exported struct with an array member keeps the array shape *)
  (let wa := mkSdef false [mkMember "v" (Some 3); mkMember "k" None] in
   exists t, load 3 3 [("arr.cb", [SDecl true (DStruct "WA" wa)])] ["arr"] empty_tables = Ok t /\
             lookup "WA" (structs t) = Some wa) /\
  (* the static variable of an imported impl block exists *)
  (exists t, load 3 3 [("ms.cb", [SDecl true (DStruct "SS" (mkSdef false [mkMember "x" None]));
                                  SDecl true (DInterface "IS" ["tick"]);
                                  SDecl true (DImpl (mkImpl "IS" "SS" [("tick", 4)] [] None ["n"]))])]
                   ["ms"] empty_tables = Ok t /\ istatics t = [("IS", ("SS", "n"))]) /\
  (* a module's own import is loaded with it *)
  (exists t, load 5 5 [("lib/left.cb", [SImport "lib.base"; SDecl true (DFunc "left" 1)]);
                       ("lib/base.cb", [SDecl true (DFunc "bump" 2)])] ["lib.left"] empty_tables = Ok t /\
             lookup "left" (funcs t) = Some 1 /\ lookup "bump" (funcs t) = Some 2 /\
             mem "lib.base" (loaded t) = true) /\
  (* a path component beginning with "cb" *)
  (file_path_of "lib.cbits.m" = "lib/cbits/m.cb" /\
   resolve [("lib/cbits/m.cb", [SDecl true (DFunc "cf" 1)])] "lib.cbits.m" = Some [SDecl true (DFunc "cf" 1)]).
Proof. vm_compute. repeat split; eexists; repeat split. Qed.
Print Assumptions former_witnesses_repaired.

(* ------------------------------------------------------------------ non-vacuity *)
Definition ex_fs : fsys :=
  [("d1/a.cb", [SDecl true (DFunc "fa" 1); SDecl false (DFunc "ha" 2);
                SDecl true (DStruct "SA" (mkSdef false [mkMember "x" None; mkMember "v" (Some 2)]));
                SDecl true (DInterface "IA" ["ma"]);
                SDecl true (DImpl (mkImpl "IA" "SA" [("ma", 3)] [(1, 4)] (Some 5) ["sn"]))]);
   ("d1/d2/b.cb", [SImport "d1.a"; SDecl true (DFunc "fb" 6); SDecl true (DEnum "EB" [("X", 1)]);
                   SDecl true (DVar "KB" true (Some (ELit 7)))]);
   ("c.cb", [SImport "d1.a"; SDecl true (DTypedef "TC" "int"); SDecl false (DVar "HC" true (Some (ELit 8)))])].

Definition ex_fs2 : fsys :=
  [("x.cb", [SDecl true (DFunc "fx" 1); SDecl true (DStruct "SX" (mkSdef false [mkMember "x" None]));
             SDecl true (DImpl (mkImpl "" "SX" [] [(1, 4)] None []))]);
   ("sub/y.cb", [SImport "x"; SDecl true (DFunc "fy" 2); SDecl true (DEnum "EY" [("A", 1)])]);
   ("z.cb", [SDecl true (DVar "KZ" true (Some (ELit 3))); SDecl false (DFunc "fx" 9)])].

Example independence_hypothesis_satisfiable : independent 4 ex_fs2 ["x"; "z"].
Proof.
  intros p q Hp Hq Hne. simpl in Hp, Hq.
  destruct Hp as [<-|[<-|[]]]; destruct Hq as [<-|[<-|[]]]; try congruence;
    (split; [apply (in_dec_disjoint _ fk_eq_dec)|apply (in_dec_disjoint _ tk_eq_dec)]); vm_compute; reflexivity.
Qed.

(* the diamond d1.a <- d1.d2.b, c : b and c both carry a's impl block; still compatible *)
Example diamond_is_compatible : compatible 4 ex_fs ["d1.a"; "d1.d2.b"; "c"].
Proof. apply compatibleb_sound. vm_compute. reflexivity. Qed.

(* importing only the two tips of the diamond loads d1.a through them, once, in either order *)
Example permutations_agree : exists t1 t2,
  load 4 4 ex_fs ["d1.d2.b"; "c"] empty_tables = Ok t1 /\ load 4 4 ex_fs ["c"; "d1.d2.b"] empty_tables = Ok t2 /\
  teq t1 t2 /\ mem "d1.a" (loaded t1) = true.
Proof.
  assert (H1 : exists t1, load 4 4 ex_fs ["d1.d2.b"; "c"] empty_tables = Ok t1 /\ mem "d1.a" (loaded t1) = true /\
                         forall q, In q (loaded t1) -> In q ["d1.a"; "d1.d2.b"; "c"])
    by (eexists; split; [vm_compute; reflexivity|]; vm_compute; intuition).
  assert (H2 : exists t2, load 4 4 ex_fs ["c"; "d1.d2.b"] empty_tables = Ok t2) by (eexists; vm_compute; reflexivity).
  destruct H1 as [t1 [H1 [M HU]]]. destruct H2 as [t2 H2]. exists t1, t2.
  split; [exact H1|]. split; [exact H2|]. split; [|exact M].
  apply (import_order_independent_diamond 4 4 ex_fs ["d1.a"; "d1.d2.b"; "c"] _ _ empty_tables _ _ (perm_swap _ _ _) H1 H2
           diamond_is_compatible).
  intros q Hq. right. now apply HU, mem_true_iff.
Qed.

Example diamond_example : exists t,
  load 4 4 ex_fs ["d1.d2.b"; "c"; "d1.a"; "c"; "d1.a"] empty_tables = Ok t /\
  load 4 4 ex_fs ["d1.d2.b"; "c"] empty_tables = Ok t /\
  lookup "fa" (funcs t) = Some 1 /\ lookup "ha" (funcs t) = None /\ lookup "d1.a.fa" (funcs t) = Some 1 /\
  lookup "SA::ma" (funcs t) = Some 3 /\ find_ctor "SA" 1 (ctors t) = Some 4 /\
  lookup "HC" (vars t) = None /\ lookup "KB" (vars t) = Some (true, Some 7).
Proof. eexists. vm_compute. repeat split. Qed.

(* the seeded shape: units <- layout, layout's constants are initialised from what units exports (a variable,
   a call), the program imports layout alone or both in either order; and a diamond on top of it *)
Definition scale_body : expr := EAdd EParam (EVar "UNIT").
Definition ex_init : fsys :=
  [("units.cb", [SDecl true (DVar "UNIT" true (Some (ELit 4))); SDecl true (DFunc "scale" 11)]);
   ("layout.cb", [SImport "units";
                  SDecl true (DVar "ROW" true (Some (EAdd (EVar "UNIT") (EVar "UNIT"))));
                  SDecl true (DVar "PAGE" true (Some (ECall "scale" [(11, scale_body)] (ELit 3))))]);
   ("lib/left.cb", [SImport "layout"; SDecl true (DVar "L" false (Some (EAdd (EVar "ROW") (ELit 1))))]);
   ("lib/right.cb", [SImport "layout"; SImport "units";
                     SDecl true (DVar "R" false (Some (EAdd (EVar "PAGE") (EVar "units.UNIT"))))])].
Definition ex_rank (p : name) : nat :=
  if String.eqb p "units" then 0 else if String.eqb p "layout" then 1 else 2.

Example initialisers_evaluated : exists t,
  load 5 5 ex_init ["layout"] empty_tables = Ok t /\
  lookup "ROW" (vars t) = Some (true, Some 8) /\ lookup "PAGE" (vars t) = Some (true, Some 7) /\
  lookup "layout.ROW" (vars t) = Some (true, Some 8) /\ lookup "UNIT" (vars t) = Some (true, Some 4) /\
  assign t "ROW" 3 = Err (EConstAssign "ROW").
Proof. eexists. vm_compute. repeat split. Qed.

(* without the nested import the initialiser fails and with it the import *)
Example initialiser_needs_import :
  load 5 5 [("layout.cb", [SDecl true (DVar "ROW" true (Some (EVar "UNIT")))])] ["layout"] empty_tables
  = Err (EUndefVar "UNIT").
Proof. reflexivity. Qed.

Example diamond_with_initialisers_is_layered :
  layeredb 5 ex_init ["units"; "layout"; "lib.left"; "lib.right"] = true /\
  rank_okb ex_init ex_rank ["units"; "layout"; "lib.left"; "lib.right"] = true /\
  imports_firstb ex_init ["units"; "layout"; "lib.left"; "lib.right"] = true /\
  compatibleb 5 ex_init ["units"; "layout"; "lib.left"; "lib.right"] = false.   (* the blocks do NOT commute *)
Proof. vm_compute. repeat split. Qed.

Example initialiser_permutations_agree : exists t1 t2,
  load 6 5 ex_init ["lib.left"; "lib.right"; "units"] empty_tables = Ok t1 /\
  load 6 5 ex_init ["units"; "lib.right"; "lib.left"] empty_tables = Ok t2 /\
  teq t1 t2 /\ lookup "R" (vars t1) = Some (false, Some 11) /\ lookup "L" (vars t2) = Some (false, Some 9).
Proof.
  assert (H1 : exists t1, load 6 5 ex_init ["lib.left"; "lib.right"; "units"] empty_tables = Ok t1 /\
                         lookup "R" (vars t1) = Some (false, Some 11) /\
                         forall q, In q (loaded t1) -> In q ["units"; "layout"; "lib.left"; "lib.right"])
    by (eexists; split; [vm_compute; reflexivity|]; vm_compute; intuition).
  assert (H2 : exists t2, load 6 5 ex_init ["units"; "lib.right"; "lib.left"] empty_tables = Ok t2 /\
                         lookup "L" (vars t2) = Some (false, Some 9)) by (eexists; split; vm_compute; reflexivity).
  destruct H1 as [t1 [H1 [R HU]]]. destruct H2 as [t2 [H2 L]]. exists t1, t2.
  split; [exact H1|]. split; [exact H2|]. split; [|split; assumption].
  destruct diamond_with_initialisers_is_layered as [HL [HR [HF _]]].
  apply (import_order_independent_layered 5 ex_init ["units"; "layout"; "lib.left"; "lib.right"] ex_rank 6 _ _
           empty_tables _ _ (rank_okb_sound _ _ _ HR) (imports_firstb_sound _ _ HF) (layeredb_sound _ _ _ HL)
           (Permutation_rev _) H1 H2).
  intros q Hq. right. now apply HU, mem_true_iff.
Qed.
