(* C18 - lemmas about the front end (Front.v): what a written item becomes (parse_item_spec: the `export`
   keyword arrives on the loader's statement for every kind of item and every spelling of its type, nothing
   is exported without it), where the items of a file end up in the parsed module, and how the parsed file
   system resolves.  Properties_C18_front.v composes them with the visibility lemmas of Import.v, so that
   those hold about module files AS WRITTEN. *)
From Coq Require Import List String Bool.
Import ListNotations.
From Cb Require Import C18.Model C18.Front.
Local Open Scope string_scope.
Local Open Scope list_scope.

(* The three outcomes of [parse_item]: an import line stays one; a plain item that the dispatch reaches becomes the
   very item (same name, same body / initialiser / definition) with exactly the flag that was written - whatever
   its kind and however its type is spelled: built-in, `unsigned`, typedef alias, struct, interface, union, enum,
   generic instance, pointer, reference, a name the parser does not know yet; everything else (the two node kinds of
   [plain_item], an item no branch recognises) becomes an unexported node that the loader skips. *)
Lemma parse_item_spec : forall env e df it,
  match it with
  | IImport p => parse_item env (mkW e df it) = SImport p
  | _ => if plain_item it && dispatchable env it
         then exists d, parse_item env (mkW e df it) = SDecl e d /\ same_decl it d
         else exists n, parse_item env (mkW e df it) = SDecl false (DOther n)
  end.
Proof.
  intros env e df it. unfold parse_item; cbn [w_export w_item].
  destruct it as [p|a c ret n tp ps body|st c ty dc more|n x|n sd|n ms|n ms|i]; cbn [decl_branch];
    try (cbn; eexists; split; [reflexivity|cbn; auto]; fail).
  - reflexivity.
  - (* function *)
    cbn [name_branch basic_branch plain_item dispatchable andb]. unfold head_name, is_basic_head.
    destruct (sp_head ret) as [b|b|hn ta]; [| |destruct (var_branch env hn _) as [vb|]]; cbn;
      rewrite ?andb_true_r; eexists; try (split; [reflexivity|cbn; auto]); reflexivity.
  - (* variable *)
    cbn [name_branch basic_branch plain_item dispatchable]. unfold head_name, is_basic_head.
    destruct (sp_head ty) as [b|b|hn ta]; [| |destruct (var_branch env hn _) as [[| | |]|]];
      cbn [negb andb]; try destruct (nonempty (sp_dims ty)); destruct more; cbn;
      rewrite ?andb_true_r, ?andb_false_r; eexists; try (split; [reflexivity|cbn; auto]); reflexivity.
Qed.

Lemma parse_item_plain : forall env e df it,
  plain_item it = true -> dispatchable env it = true ->
  exists d, parse_item env (mkW e df it) = SDecl e d /\ same_decl it d.
Proof.
  intros env e df it Hp Hd. pose proof (parse_item_spec env e df it) as S.
  destruct it; try (rewrite Hp, Hd in S; exact S). discriminate.
Qed.

(* the branch (and with it the parser's type tables) does not matter for WHAT is exported: two environments in which
   the item is dispatchable give the same statement up to the constness of a variable node *)
Lemma parse_item_env_independent : forall env1 env2 e df it d1 d2,
  plain_item it = true -> dispatchable env1 it = true -> dispatchable env2 it = true ->
  parse_item env1 (mkW e df it) = SDecl e d1 -> parse_item env2 (mkW e df it) = SDecl e d2 ->
  same_decl it d1 /\ same_decl it d2.
Proof.
  intros env1 env2 e df it d1 d2 Hp H1 H2 P1 P2.
  destruct (parse_item_plain env1 e df it Hp H1) as [x1 [Q1 S1]].
  destruct (parse_item_plain env2 e df it Hp H2) as [x2 [Q2 S2]].
  rewrite Q1 in P1. rewrite Q2 in P2. injection P1 as <-. injection P2 as <-. auto.
Qed.

Lemma parse_module_nth : forall imp sm env k w,
  nth_error sm k = Some w ->
  nth_error (parse_module imp env sm) k = Some (parse_item (env_at imp env sm k) w).
Proof.
  intros imp sm. induction sm as [|x r IH]; intros env k w H.
  - destruct k; discriminate.
  - destruct k as [|k]; cbn in H.
    + injection H as ->. reflexivity.
    + cbn [parse_module env_at nth_error]. apply IH. exact H.
Qed.

Lemma parse_module_In : forall imp sm env s,
  In s (parse_module imp env sm) ->
  exists k w, nth_error sm k = Some w /\ s = parse_item (env_at imp env sm k) w.
Proof.
  intros imp sm. induction sm as [|x r IH]; intros env s H.
  - destruct H.
  - cbn [parse_module] in H. destruct H as [H|H].
    + exists 0, x. split; [reflexivity|]. now rewrite <- H.
    + apply IH in H. destruct H as [k [w [Hn Hs]]]. exists (S k), w. split; [exact Hn|exact Hs].
Qed.

Lemma parse_module_length : forall imp sm env, List.length (parse_module imp env sm) = List.length sm.
Proof. intros imp sm. induction sm; intros env; cbn; [reflexivity|now rewrite IHsm]. Qed.

Lemma lookup_map_snd : forall (A B : Type) (f : A -> B) k (l : list (name * A)),
  lookup k (map (fun pm => (fst pm, f (snd pm))) l) = option_map f (lookup k l).
Proof.
  intros A B f k l. induction l as [|[k' v] r IH]; cbn; [reflexivity|].
  destruct (String.eqb k k'); [reflexivity|exact IH].
Qed.

Lemma resolve_parse_fs : forall sfs p,
  resolve (parse_fs sfs) p = option_map (parse_file sfs) (sresolve sfs p).
Proof.
  intros sfs p. unfold resolve, sresolve, parse_fs.
  induction (search_paths (file_path_of p)) as [|x r IH]; cbn; [reflexivity|].
  rewrite lookup_map_snd. destruct (lookup x sfs); cbn; [reflexivity|exact IH].
Qed.

Lemma resolve_parse_fs_some : forall sfs p m,
  resolve (parse_fs sfs) p = Some m -> exists sm, sresolve sfs p = Some sm /\ m = parse_file sfs sm.
Proof.
  intros sfs p m H. rewrite resolve_parse_fs in H. destruct (sresolve sfs p) as [sm|]; [|discriminate].
  injection H as <-. eauto.
Qed.

