(* C18 - initialisers of exported variables: evaluated at import time against the tables as they are
   at that moment.  Induction principle for the nested expression type, the names an evaluation can
   read, the frame lemma of [eval], and how a run over a module's statements splits at statement k. *)
From Coq Require Import List String.
Import ListNotations.
From Cb Require Import C18.Model C18.Import.
Local Open Scope string_scope.
Local Open Scope list_scope.

(* Induction over expressions (candidate bodies of a call are sub-expressions) *)
Lemma expr_ind2 : forall P : expr -> Prop,
  (forall v, P (ELit v)) -> P EParam -> (forall x, P (EVar x)) -> (forall en m, P (EEnum en m)) ->
  (forall a b, P a -> P b -> P (EAdd a b)) ->
  (forall f cands arg, Forall (fun c => P (snd c)) cands -> P arg -> P (ECall f cands arg)) ->
  forall e, P e.
Proof.
  intros P H1 H2 H3 H4 H5 H6. fix IH 1. intros [v| |x|en m|a b|f cands arg].
  - apply H1.
  - apply H2.
  - apply H3.
  - apply H4.
  - apply H5; apply IH.
  - apply H6; [|apply IH].
    revert cands. fix IHc 1. intros [|[b body] r].
    + constructor.
    + constructor; [apply IH|apply IHc].
Qed.

(* The bindings an evaluation can look at: every name in the expression and in every
   candidate body of every call (a static over-approximation of what the late-bound call reads) *)
Fixpoint ereads (e : expr) : list (tag * name) :=
  match e with
  | ELit _ | EParam => []
  | EVar x => [(TV, x)]
  | EEnum en _ => [(TE, en)]
  | EAdd a b => ereads a ++ ereads b
  | ECall f cands arg =>
      (TF, f) :: ereads arg ++
      (fix go (l : list (nat * expr)) : list (tag * name) :=
         match l with [] => [] | (_, body) :: r => ereads body ++ go r end) cands
  end.
Definition creads (cands : list (nat * expr)) : list (tag * name) := flat_map (fun c => ereads (snd c)) cands.
Lemma ereads_call : forall f cands arg, ereads (ECall f cands arg) = (TF, f) :: ereads arg ++ creads cands.
Proof.
  intros. cbn [ereads]. do 2 f_equal. unfold creads.
  induction cands as [|[b body] r IH]; [reflexivity|]. simpl. now rewrite IH.
Qed.

Lemma pick_body_ext : forall ev1 ev2 f b cands,
  Forall (fun c => ev1 (snd c) = ev2 (snd c)) cands -> pick_body ev1 f b cands = pick_body ev2 f b cands.
Proof.
  intros ev1 ev2 f b cands H. induction H as [|[b' body] r Hc _ IH]; [reflexivity|].
  simpl in *. destruct (Nat.eqb b b'); [exact Hc|exact IH].
Qed.

(* [eval] depends on the tables only through the bindings in [ereads] *)
Lemma eval_frame : forall e a b p,
  (forall g k, In (g, k) (ereads e) -> tlookup g k a = tlookup g k b) -> eval a p e = eval b p e.
Proof.
  induction e as [v| |x|en m|e1 e2 IH1 IH2|f cands arg IHc IHa] using expr_ind2; intros a b p H.
  - reflexivity.
  - reflexivity.
  - simpl. rewrite (tlookup_eq TV x a b) by (apply H; simpl; auto). reflexivity.
  - simpl. rewrite (tlookup_eq TE en a b) by (apply H; simpl; auto). reflexivity.
  - simpl. rewrite (IH1 a b p), (IH2 a b p); [reflexivity| |];
      intros g k Hin; apply H; simpl; apply in_app_iff; auto.
  - rewrite ereads_call in H. cbn [eval].
    rewrite (IHa a b p) by (intros g k Hin; apply H; right; apply in_app_iff; auto).
    destruct (eval b p arg) as [x|er]; [|reflexivity].
    rewrite (tlookup_eq TF f a b) by (apply H; left; reflexivity).
    destruct (lookup f (funcs b)) as [bd|]; [|reflexivity].
    apply pick_body_ext. rewrite Forall_forall in *. intros c Hc. apply IHc; [assumption|].
    intros g k Hin. apply H. right. apply in_app_iff. right. unfold creads. apply in_flat_map. eauto.
Qed.

Lemma lookup_init_binds : forall ks c w k (m : amap (bool * option nat)), In k ks ->
  lookup k (bind_all (init_binds ks c w) m) = Some (c, Some w).
Proof.
  induction ks as [|k0 r IH]; intros c w k m Hin; [destruct Hin|].
  change (bind_all (init_binds (k0 :: r) c w) m) with (bind_all (init_binds r c w) (bind k0 (c, Some w) m)).
  destruct (in_dec string_dec k r) as [Hr|Hn]; [now apply IH|].
  destruct Hin as [->|Hr]; [|contradiction].
  rewrite lookup_bind_all_notin by (now rewrite init_binds_keys). apply lookup_bind_eq.
Qed.

(* [run_stmts ... (firstn k m) (mark_loaded p t)] is the state in which the loader reaches statement k of
   module p *)
Lemma run_stmts_app : forall imp p l1 l2 t,
  run_stmts imp p (l1 ++ l2) t =
  match run_stmts imp p l1 t with Ok t1 => run_stmts imp p l2 t1 | Err e => Err e end.
Proof.
  intros imp p. induction l1 as [|s l1 IH]; intros l2 t; [reflexivity|].
  destruct s as [q|e d]; cbn [app run_stmts].
  - destruct (imp t q); [apply IH|reflexivity].
  - destruct (run_ops _ t); [apply IH|reflexivity].
Qed.

Lemma nth_split : forall (A : Type) (l : list A) k x, nth_error l k = Some x ->
  l = firstn k l ++ x :: skipn (S k) l.
Proof.
  induction l as [|a l IH]; intros [|k] x H; simpl in *; try discriminate.
  - now injection H as ->.
  - f_equal. now apply IH.
Qed.
