(* C18 - a successful load equals the blocks of the newly loaded modules in COMPLETION order.  For a file
   with its imports before its declarations nothing has to commute for that (only the OLoaded mark moves),
   so this holds also for modules whose initialisers READ what the modules they import export (chains,
   diamonds with initialisers); a file that imports after a declaration must commute with the modules that
   import brings.  Completion orders of an acyclic import graph never put a module before one it imports,
   and two orders of the same modules are connected by swaps of the pairs they order differently: whence
   order independence for modules that all commute, and for modules that commute or import one another. *)
From Coq Require Import List String Bool Arith Permutation.
Import ListNotations.
From Cb Require Import C18.Model C18.Import C18.Order.
Local Open Scope string_scope.
Local Open Scope list_scope.

Section Layers.
Variable pf : nat.
Variable fs : fsys.

Definition bcompat (a b : name) : Prop :=
  forall o1 o2, In o1 (block pf fs a) -> In o2 (block pf fs b) -> compat o1 o2.

Fixpoint decls_only (m : module) : bool :=
  match m with [] => true | SImport _ :: _ => false | SDecl _ _ :: r => decls_only r end.
Fixpoint imports_first (m : module) : bool :=
  match m with SImport _ :: r => imports_first r | l => decls_only l end.

Lemma imports_first_imports : forall l, imports_first (map SImport l) = true.
Proof. induction l; simpl; auto. Qed.

Lemma decls_static : forall p t l t', stmts pf fs p t l t' -> decls_only l = true ->
  run_ops (flat_map (import_stmt_ops p) l) t = Ok t' /\ loaded t' = loaded t.
Proof.
  intros p t l t' H. induction H as [p t|p t q r ta t2 Hi Hs IH|p t e d r ta t2 Hr Hs IH]; intros D.
  - split; reflexivity.
  - discriminate.
  - simpl in D. destruct (IH D) as [E L]. split.
    + cbn [flat_map]. rewrite run_ops_app, Hr. exact E.
    + rewrite L. eapply run_stmt_ops_loaded; eauto.
Qed.

Definition imports_mod (a b : name) : Prop := exists m, resolve fs a = Some m /\ In (SImport b) m.
(* a completion order: no module stands before one it imports *)
Definition resp (C : list name) : Prop := forall a b, before a b C -> ~ imports_mod a b.

Variable U : list name.
Variable rank : name -> nat.
(* the import graph is acyclic on U: every import statement of a U-module decreases the rank *)
Definition acyclic : Prop :=
  forall p m q, In p U -> resolve fs p = Some m -> In (SImport q) m -> rank q < rank p.
(* a module of U that imports after it has declared commutes with every other module of U *)
Hypothesis Hlate : forall p m, In p U -> resolve fs p = Some m ->
  imports_first m = true \/ forall q, In q U -> q <> p -> bcompat p q.

Lemma loaded_compat : forall p o, compat (OLoaded p) o.
Proof. intros. right. repeat split; intros x H; simpl in H; try tauto; simpl; tauto. Qed.

Lemma resp_nil : resp [].
Proof. intros a b []. Qed.

Lemma resp_app : forall C1 C2, resp C1 -> resp C2 ->
  (forall a b, In a C1 -> In b C2 -> ~ imports_mod a b) -> resp (C1 ++ C2).
Proof.
  intros C1 C2 R1 R2 X a b H. apply before_app in H. destruct H as [H1|[H1|[H1 H2]]]; auto.
Qed.

(* what an import completes has all its imports loaded by then: nothing completed later is imported by it *)
Lemma resp_seq : forall t p ta t' Ca Cr, imports pf fs t p ta -> news t ta Ca -> news ta t' Cr ->
  resp Ca -> resp Cr -> resp (Ca ++ Cr).
Proof.
  intros t p ta t' Ca Cr Hi [_ Sa] [_ Sr] Ra Rr. apply resp_app; auto. intros a b Ha Hb [ma [Ra' Him]].
  apply Sa in Ha. destruct Ha as [A1 A2]. apply Sr in Hb. destruct Hb as [B1 _].
  destruct (proj1 (newly_loaded_complete pf fs) _ _ _ Hi a A1 A2) as [m' [R' [Cm _]]].
  rewrite Ra' in R'. injection R' as <-. rewrite (Cm b Him) in B1. discriminate.
Qed.

(* what is loaded while the statements of p run has a smaller rank than p *)
Lemma below_rank : acyclic -> forall p t m t2 a, In p U -> resolve fs p = Some m ->
  stmts pf fs p (mark_loaded p t) m t2 -> (forall q, newly (mark_loaded p t) t2 q -> In q U) ->
  newly (mark_loaded p t) t2 a -> rank a < rank p.
Proof.
  intros HA p t m t2 a HpU R Hst HU. apply (newly_ind pf fs (fun x => rank x < rank p) _ _ _ _ Hst).
  - intros q Hq. exact (HA p m q HpU R Hq).
  - intros r mr q Sr Nr Rr Hq. apply (Nat.lt_trans _ (rank r)); [|exact Sr]. exact (HA r mr q (HU r Nr) Rr Hq).
Qed.

(* a successful load = the blocks of the newly loaded modules in the order in which they were completed; the
   steps a module does before one of its import statements move behind the blocks that import brings *)
Lemma completion_form :
  (forall t p t', imports pf fs t p t' -> (forall q, newly t t' q -> In q U) ->
     exists C, news t t' C /\ (acyclic -> resp C) /\
       forall rest, req (run_ops rest t') (run_ops (blocks pf fs C ++ rest) t)) /\
  (forall p t l t', stmts pf fs p t l t' -> (forall q, newly t t' q -> In q U) ->
     imports_first l = true \/
       (forall q o1 o2, newly t t' q -> In o1 (flat_map (import_stmt_ops p) l) -> In o2 (block pf fs q) -> compat o1 o2) ->
     exists C, news t t' C /\ (acyclic -> resp C) /\
       forall rest, req (run_ops rest t') (run_ops (blocks pf fs C ++ flat_map (import_stmt_ops p) l ++ rest) t)).
Proof.
  apply loader_ind.
  - (* already loaded *)
    intros t p M _. exists []. split; [now apply news_nil|]. split; [intros _; exact resp_nil|].
    intros rest. apply req_refl.
  - (* a module is loaded: it is completed after everything loaded below it *)
    intros t p m t2 t' M R Hst IH Hs HU.
    pose proof (run_sync_loaded _ _ _ Hs) as L'. pose proof (stmts_extends _ _ _ _ _ _ Hst) as E.
    assert (HpU : In p U).
    { apply HU. split; [exact M|]. rewrite L'. apply (ext_loaded _ _ E). simpl. now rewrite String.eqb_refl. }
    assert (HU' : forall q, newly (mark_loaded p t) t2 q -> In q U).
    { intros q [Q1 Q2]. apply HU. split; [exact (ext_unloaded _ _ _ (mark_extends p t) Q1)|now rewrite L']. }
    destruct (IH HU') as [C [NC [RC EQ]]].
    { destruct (Hlate p m HpU R) as [F|B]; [now left|right]. intros q o1 o2 N H1 H2. apply (B q); auto.
      - intros ->. destruct N as [N _]. simpl in N. now rewrite String.eqb_refl in N.
      - rewrite (block_resolved pf fs p m R). right. apply in_app_iff. now left. }
    pose proof (news_load p t t2 t' C M E L' NC) as NC'.
    exists (C ++ [p]). split; [exact (news_perm _ _ _ _ (Permutation_cons_append C p) NC')|]. split.
    + (* no module loaded below p imports p: rank p < rank a < rank p *)
      intros HA. apply resp_app; [exact (RC HA)|intros a b [[_ []]|[]]|].
      intros a b Ha [<-|[]] [ma [Ra Hi]]. assert (Na : newly (mark_loaded p t) t2 a) by now apply NC.
      apply (Nat.lt_irrefl (rank p)), (Nat.lt_trans _ (rank a)); [exact (HA a ma p (HU' a Na) Ra Hi)|].
      exact (below_rank HA p t m t2 a HpU R Hst HU' Na).
    + intros rest. rewrite blocks_app. change (blocks pf fs [p]) with (block pf fs p ++ []).
      rewrite app_nil_r, (block_resolved pf fs p m R), <- app_assoc. simpl app. rewrite <- app_assoc.
      (* OLoaded p, executed first, moves behind the blocks of the modules loaded below p *)
      eapply req_trans; [|apply (move_one (OLoaded p) (blocks pf fs C)); intros; apply loaded_compat].
      cbn [run_ops apply_op]. fold (mark_loaded p t).
      replace (run_ops rest t') with (run_ops (flat_map sync_ops (parser_impls pf fs m) ++ rest) t2)
        by (now rewrite run_ops_app, Hs).
      apply EQ.
  - (* no statement *)
    intros p t _ _. exists []. split; [now apply news_nil|]. split; [intros _; exact resp_nil|].
    intros rest. apply req_refl.
  - (* an import statement of the module *)
    intros p t q r ta t2 Hi IHi Hs IHs HU F.
    pose proof (imports_extends _ _ _ _ _ Hi) as Ei. pose proof (stmts_extends _ _ _ _ _ _ Hs) as Es.
    destruct IHi as [Ca [Na [RCa EQa]]]. { intros; apply HU; eapply newly_seq; eauto. }
    destruct IHs as [Cr [Nr [RCr EQr]]]. { intros; apply HU; eapply newly_seq; eauto. }
    { destruct F as [F|B]; [left; exact F|right]. intros x o1 o2 N. apply B. eapply newly_seq; eauto. }
    exists (Ca ++ Cr). split; [eapply news_seq; eauto|]. split; [intros HA; eapply resp_seq; eauto|].
    intros rest. cbn [flat_map import_stmt_ops]. simpl app.
    rewrite blocks_app, <- app_assoc. eapply req_trans; [apply EQr|apply EQa].
  - intros p t e d r ta t2 Hr Hs IH HU [F|B].
    + (* a declaration of a file with its imports first: no import follows, the rest is a fixed list of steps *)
      simpl in F. destruct (decls_static _ _ _ _ (st_decl pf fs _ _ _ _ _ _ _ Hr Hs) F) as [E L].
      exists []. split; [now apply news_nil|]. split; [intros _; exact resp_nil|].
      intros rest. change (blocks pf fs [] ++ ?x) with x. rewrite run_ops_app, E. apply req_refl.
    + (* a declaration that commutes with what the later imports load *)
      pose proof (run_stmt_ops_loaded _ _ _ _ Hr) as La.
      assert (Hn : forall x, newly ta t2 x -> newly t t2 x) by (intros x [X1 X2]; split; [now rewrite <- La|exact X2]).
      destruct IH as [C [NC [RC EQ]]]; auto.
      { right. intros x o1 o2 N H1. apply (B x); auto. cbn [flat_map]. apply in_app_iff. now right. }
      exists C. split; [unfold news, newly in *; now rewrite <- La|]. split; [exact RC|].
      intros rest. cbn [flat_map]. rewrite <- app_assoc. eapply req_trans; [|apply swap_blocks].
      * rewrite run_ops_app, Hr. apply EQ.
      * intros o1 o2 H1 H2. apply in_blocks in H2. destruct H2 as [x [Hx Ho2]]. apply (B x); auto.
        -- apply Hn, NC, Hx.
        -- cbn [flat_map]. apply in_app_iff. now left.
Qed.

Lemma load_completion_form : forall fuel l t t',
  load fuel pf fs l t = Ok t' -> (forall q, newly t t' q -> In q U) ->
  exists C, news t t' C /\ (acyclic -> resp C) /\
    forall rest, req (run_ops rest t') (run_ops (blocks pf fs C ++ rest) t).
Proof.
  intros fuel l t t' H HU.
  destruct (proj2 completion_form _ _ _ _ (load_stmts pf fs _ _ _ _ H "") HU (or_introl (imports_first_imports l)))
    as [C [N [R EQ]]].
  exists C. split; [exact N|]. split; [exact R|]. intros rest. specialize (EQ rest). now rewrite imports_only in EQ.
Qed.

(* modules of U either commute step by step, or one of them imports the other *)
Definition layered : Prop :=
  forall p q, In p U -> In q U -> p <> q -> bcompat p q \/ imports_mod p q \/ imports_mod q p.

End Layers.

Lemma import_order_compatible : forall fuel pf fs U l1 l2 t t1 t2,
  Permutation l1 l2 -> load fuel pf fs l1 t = Ok t1 -> load fuel pf fs l2 t = Ok t2 ->
  compatible pf fs U ->
  (forall q, mem q (loaded t1) = true -> mem q (loaded t) = true \/ In q U) ->
  teq t1 t2.
Proof.
  intros fuel pf fs U l1 l2 t t1 t2 P H1 H2 HC HU.
  assert (Hlate : forall p m, In p U -> resolve fs p = Some m ->
                    imports_first m = true \/ forall q, In q U -> q <> p -> bcompat pf fs p q).
  { intros p m Hp _. right. intros q Hq Hne. exact (HC p q Hp Hq (not_eq_sym Hne)). }
  destruct (permuted_loads pf fs fuel U _ _ _ _ _ P H1 H2 HU) as [HL [HU1 HU2]].
  destruct (load_completion_form pf fs U (fun _ => 0) Hlate _ _ _ _ H1 HU1) as [C1 [N1 [_ F1]]].
  destruct (load_completion_form pf fs U (fun _ => 0) Hlate _ _ _ _ H2 HU2) as [C2 [N2 [_ F2]]].
  apply (blocks_agree pf fs t t1 t2 C1 C2); auto.
  intros a b B1 _. destruct (before_in _ _ _ B1) as [Ia Ib].
  apply HC; [apply HU1, N1, Ia|apply HU1, N1, Ib|exact (before_neq _ _ _ (proj1 N1) B1)].
Qed.

Lemma layered_order_independent : forall pf fs U rank fuel l1 l2 t t1 t2,
  acyclic fs U rank -> (forall p m, In p U -> resolve fs p = Some m -> imports_first m = true) ->
  layered pf fs U -> Permutation l1 l2 ->
  load fuel pf fs l1 t = Ok t1 -> load fuel pf fs l2 t = Ok t2 ->
  (forall q, mem q (loaded t1) = true -> mem q (loaded t) = true \/ In q U) ->
  teq t1 t2.
Proof.
  intros pf fs U rank fuel l1 l2 t t1 t2 HA HF HL P H1 H2 HU.
  pose proof (fun p m Hp R => or_introl (HF p m Hp R) :
                imports_first m = true \/ forall q, In q U -> q <> p -> bcompat pf fs p q) as Hlate.
  destruct (permuted_loads pf fs fuel U _ _ _ _ _ P H1 H2 HU) as [HS [HU1 HU2]].
  destruct (load_completion_form pf fs U rank Hlate _ _ _ _ H1 HU1) as [C1 [N1 [R1 F1]]].
  destruct (load_completion_form pf fs U rank Hlate _ _ _ _ H2 HU2) as [C2 [N2 [R2 F2]]].
  apply (blocks_agree pf fs t t1 t2 C1 C2); auto.
  (* a pair that the two completion orders invert is not connected by an import, so it commutes *)
  intros a b B1 B2. destruct (before_in _ _ _ B1) as [Ia Ib].
  destruct (HL a b) as [Hc|[Hi|Hi]]; [apply HU1, N1, Ia|apply HU1, N1, Ib|exact (before_neq _ _ _ (proj1 N1) B1)|exact Hc| |].
  - exfalso. exact (R1 HA a b B1 Hi).
  - exfalso. exact (R2 HA b a B2 Hi).
Qed.

(* Decidable sufficient checks of the hypotheses, for concrete file systems *)
Definition imports_modb (fs : fsys) (a b : name) : bool :=
  match resolve fs a with
  | Some m => existsb (fun s => match s with SImport q => String.eqb q b | _ => false end) m
  | None => false
  end.
Definition bcompatb (pf : nat) (fs : fsys) (p q : name) : bool :=
  forallb (fun o1 => forallb (compatb o1) (block pf fs q)) (block pf fs p).
Definition layeredb (pf : nat) (fs : fsys) (U : list name) : bool :=
  forallb (fun p => forallb (fun q =>
     String.eqb p q || bcompatb pf fs p q || imports_modb fs p q || imports_modb fs q p) U) U.
Definition rank_okb (fs : fsys) (rank : name -> nat) (U : list name) : bool :=
  forallb (fun p => match resolve fs p with
                    | Some m => forallb (fun s => match s with SImport q => Nat.ltb (rank q) (rank p) | _ => true end) m
                    | None => true
                    end) U.
Definition imports_firstb (fs : fsys) (U : list name) : bool :=
  forallb (fun p => match resolve fs p with Some m => imports_first m | None => true end) U.

Lemma imports_modb_sound : forall fs a b, imports_modb fs a b = true -> imports_mod fs a b.
Proof.
  intros fs a b H. unfold imports_modb in H. destruct (resolve fs a) as [m|] eqn:R; [|discriminate].
  exists m. split; [exact R|]. apply existsb_exists in H. destruct H as [s [Hs E]].
  destruct s as [q|]; [|discriminate]. apply String.eqb_eq in E. now subst.
Qed.
Lemma layeredb_sound : forall pf fs U, layeredb pf fs U = true -> layered pf fs U.
Proof.
  intros pf fs U H p q Hp Hq Hne. unfold layeredb in H.
  rewrite forallb_forall in H. specialize (H p Hp). rewrite forallb_forall in H. specialize (H q Hq).
  rewrite !orb_true_iff in H. destruct H as [[[H|H]|H]|H].
  - apply String.eqb_eq in H. contradiction.
  - left. exact (compatb_all_sound _ _ H).
  - right. left. now apply imports_modb_sound.
  - right. right. now apply imports_modb_sound.
Qed.
Lemma rank_okb_sound : forall fs rank U, rank_okb fs rank U = true ->
  forall p m q, In p U -> resolve fs p = Some m -> In (SImport q) m -> rank q < rank p.
Proof.
  intros fs rank U H p m q Hp R Hq. unfold rank_okb in H. rewrite forallb_forall in H. specialize (H p Hp).
  rewrite R in H. rewrite forallb_forall in H. specialize (H _ Hq). now apply Nat.ltb_lt in H.
Qed.
Lemma imports_firstb_sound : forall fs U, imports_firstb fs U = true ->
  forall p m, In p U -> resolve fs p = Some m -> imports_first m = true.
Proof.
  intros fs U H p m Hp R. unfold imports_firstb in H. rewrite forallb_forall in H. specialize (H p Hp).
  now rewrite R in H.
Qed.
