(* C18 - lemmas about the loader model (Model.v).  The seven map-like tables are read through one lookup
   [tlookup] over (tag, key); a registration step rebinds the keys in [op_writes] and leaves every other
   binding alone.  The recursive loader is given as a big-step relation ([imports] / [stmts]) for rule
   induction: a successful import is a run of registration steps, each from the block of a module it loaded
   (loader_trace) - so it only extends the tables, and every binding it changes was written by such a module -
   and every module it loads ends complete (own imports loaded, exports bound). *)
From Coq Require Import List String Bool Arith.
Import ListNotations.
From Cb Require Import C18.Model.
Local Open Scope string_scope.
Local Open Scope list_scope.

Lemma lookup_bind_eq : forall V k (v : V) m, lookup k (bind k v m) = Some v.
Proof. intros. unfold bind. simpl. now rewrite String.eqb_refl. Qed.
Lemma lookup_bind_neq : forall V k k' (v : V) m, k <> k' -> lookup k (bind k' v m) = lookup k m.
Proof. intros. unfold bind. simpl. apply String.eqb_neq in H. now rewrite H. Qed.

Lemma lookup_bind_congr : forall V k k0 (v : V) m1 m2,
  lookup k m1 = lookup k m2 -> lookup k (bind k0 v m1) = lookup k (bind k0 v m2).
Proof. intros. unfold bind. simpl. destruct (String.eqb k k0); auto. Qed.

Lemma bind_all_app : forall V (a b : list (name * V)) m, bind_all (a ++ b) m = bind_all b (bind_all a m).
Proof. intros. unfold bind_all. now rewrite fold_left_app. Qed.

Lemma lookup_bind_all_notin : forall V (ws : list (name * V)) m k,
  ~ In k (map fst ws) -> lookup k (bind_all ws m) = lookup k m.
Proof.
  induction ws as [|[k' v] ws IH]; intros m k H; simpl in *; [reflexivity|].
  unfold bind_all in *. simpl. rewrite IH by tauto. apply lookup_bind_neq. intro; subst; tauto.
Qed.

Lemma lookup_bind_all_congr : forall V (ws : list (name * V)) m1 m2 k,
  lookup k m1 = lookup k m2 -> lookup k (bind_all ws m1) = lookup k (bind_all ws m2).
Proof.
  induction ws as [|[k' v] ws IH]; intros m1 m2 k H; simpl; [exact H|].
  unfold bind_all in *. simpl. apply IH. unfold bind. simpl. destruct (String.eqb k k'); auto.
Qed.

Lemma lookup_bind_all_in : forall V (ws : list (name * V)) m k,
  In k (map fst ws) -> exists v, lookup k (bind_all ws m) = Some v.
Proof.
  induction ws as [|[k' v] ws IH]; intros m k H; simpl in *; [tauto|].
  unfold bind_all in *. simpl.
  destruct (in_dec string_dec k (map fst ws)) as [Hin|Hni].
  - now apply IH.
  - destruct H as [->|H]; [|tauto].
    exists v. fold (bind_all ws (bind k v m)). rewrite lookup_bind_all_notin by assumption. apply lookup_bind_eq.
Qed.

Opaque bind.

Ltac enum_case H :=
  match type of H with
  | context [match lookup ?k (enums ?t) with _ => _ end] => destruct (lookup k (enums t)) eqn:?EL
  end.

Lemma mem_true_iff : forall x l, mem x l = true <-> In x l.
Proof.
  induction l; simpl; [split; [discriminate|tauto]|].
  destruct (String.eqb_spec x a); subst; split; intros; auto.
  - right. now apply IHl.
  - destruct H; [congruence|]. now apply IHl.
Qed.
Lemma mem_app : forall x a b, mem x (a ++ b) = mem x a || mem x b.
Proof. induction a; intros; simpl; [reflexivity|]. destruct (String.eqb x a); auto. Qed.

Lemma run_ops_app : forall a b t,
  run_ops (a ++ b) t = match run_ops a t with Ok t' => run_ops b t' | Err e => Err e end.
Proof. induction a; intros; simpl; [reflexivity|]. destruct (apply_op t a); auto. Qed.

(* uniform view of the map-like tables *)
Inductive tag := TF | TS | TI | TT | TV | TE | TD.
Inductive tval :=
| VF (b : nat) | VS (d : sdef) | VI (ms : list name) | VT (x : name) | VV (c : bool) (v : option nat)
| VE (ms : list (name * nat)) | VD (b : nat).
Definition tlookup (g : tag) (k : name) (t : tables) : option tval :=
  match g with
  | TF => option_map VF (lookup k (funcs t))
  | TS => option_map VS (lookup k (structs t))
  | TI => option_map VI (lookup k (ifaces t))
  | TT => option_map VT (lookup k (typedefs t))
  | TV => option_map (fun p => VV (fst p) (snd p)) (lookup k (vars t))
  | TE => option_map VE (lookup k (enums t))
  | TD => option_map VD (lookup k (dtors t))
  end.

Lemma option_map_inj : forall A B (f : A -> B), (forall x y, f x = f y -> x = y) ->
  forall x y, option_map f x = option_map f y -> x = y.
Proof. intros A B f Hf [x|] [y|] H; simpl in H; try congruence. injection H as H. now rewrite (Hf x y H). Qed.

Lemma tlookup_eq : forall g k a b, tlookup g k a = tlookup g k b ->
  match g with
  | TF => lookup k (funcs a) = lookup k (funcs b)
  | TS => lookup k (structs a) = lookup k (structs b)
  | TI => lookup k (ifaces a) = lookup k (ifaces b)
  | TT => lookup k (typedefs a) = lookup k (typedefs b)
  | TV => lookup k (vars a) = lookup k (vars b)
  | TE => lookup k (enums a) = lookup k (enums b)
  | TD => lookup k (dtors a) = lookup k (dtors b)
  end.
Proof.
  intros g k a b. destruct g; apply option_map_inj; try congruence.
  intros [c v] [c' v']. simpl. congruence.
Qed.

Definition tag_eq_dec : forall a b : tag, {a = b} + {a <> b}. Proof. decide equality. Defined.
Definition tk_eq_dec : forall a b : tag * name, {a = b} + {a <> b}.
Proof. decide equality; [apply string_dec|apply tag_eq_dec]. Defined.

(* keys of the map-like tables an op (re)binds *)
Definition op_writes (o : op) : list (tag * name) :=
  match o with
  | OFunc k _ => [(TF, k)]
  | OStruct k _ => [(TS, k)]
  | OIface k _ => [(TI, k)]
  | OTypedef k _ => [(TT, k)]
  | OVar k _ _ => [(TV, k)]
  | OInit ks _ _ => map (fun k => (TV, k)) ks
  | OEnum k _ => [(TE, k)]
  | ODtor s _ => [(TD, s)]
  | OImpl d => map (fun w => (TF, fst w)) (method_binds d)
  | _ => []
  end.

Lemma in_map_TF : forall (ws : list (name * nat)) k,
  In (TF, k) (map (fun w => (TF, fst w)) ws) <-> In k (map fst ws).
Proof.
  induction ws; simpl; [tauto|]. intros. rewrite IHws. split; intros [H|H]; auto; left; congruence.
Qed.

Lemma in_map_TV : forall (ks : list name) k, In (TV, k) (map (fun k => (TV, k)) ks) <-> In k ks.
Proof.
  induction ks; simpl; [tauto|]. intros. rewrite IHks. split; intros [H|H]; auto; left; congruence.
Qed.
Lemma init_binds_keys : forall ks c v, map fst (init_binds ks c v) = ks.
Proof. intros. unfold init_binds. rewrite map_map. simpl. apply map_id. Qed.

Lemma apply_init_ok : forall t ks c e t', apply_op t (OInit ks c e) = Ok t' ->
  exists v, eval t 0 e = VOk v /\ t' = set_vars t (bind_all (init_binds ks c v) (vars t)).
Proof.
  intros t ks c e t' H. simpl in H. destruct (eval t 0 e) as [v|er]; [|discriminate].
  injection H as <-. eauto.
Qed.

Lemma apply_impl_ok : forall t d t', apply_op t (OImpl d) = Ok t' ->
  exists l, t' = set_funcs (set_impls t l) (bind_all (method_binds d) (funcs t)).
Proof.
  intros t d t' H. simpl in H. destruct (has_impl _ _ _); [|destruct (find_conflict _ _); [discriminate|]];
    injection H as <-; eauto.
Qed.

Lemma apply_frame : forall o t t' g k,
  apply_op t o = Ok t' -> ~ In (g, k) (op_writes o) -> tlookup g k t' = tlookup g k t.
Proof.
  intros o t t' g k H Hn.
  (* the two kinds of step that bind a list of keys are taken first; every other kind binds at most one *)
  destruct (match o with OInit _ _ _ => true | _ => false end) eqn:Eo.
  { destruct o; try discriminate. destruct (apply_init_ok _ _ _ _ _ H) as [v [_ ->]].
    destruct g; simpl; try reflexivity. rewrite lookup_bind_all_notin; [reflexivity|].
    rewrite init_binds_keys. intro Hin. apply Hn. simpl. now apply in_map_TV. }
  destruct (match o with OImpl _ => true | _ => false end) eqn:Ei.
  { destruct o; try discriminate. destruct (apply_impl_ok _ _ _ H) as [l ->].
    destruct g; simpl; try reflexivity. rewrite lookup_bind_all_notin; [reflexivity|].
    intro Hin. apply Hn. simpl. now apply in_map_TF. }
  destruct o; try discriminate; simpl in H; try enum_case H;
    try (injection H as <-; destruct g; simpl in *; try reflexivity;
         rewrite lookup_bind_neq; [reflexivity|intro; subst; apply Hn; left; reflexivity]);
    try (injection H as <-; destruct g; reflexivity).
Qed.

Lemma run_frame : forall ops t t' g k,
  run_ops ops t = Ok t' -> ~ In (g, k) (flat_map op_writes ops) -> tlookup g k t' = tlookup g k t.
Proof.
  induction ops as [|o ops IH]; intros t t' g k H Hn; simpl in *.
  - now injection H as <-.
  - destruct (apply_op t o) as [t1|] eqn:E; [|discriminate].
    rewrite in_app_iff in Hn. rewrite (IH t1 t') by tauto. eapply apply_frame; eauto.
Qed.

Lemma run_changed : forall ops t t' g k,
  run_ops ops t = Ok t' -> tlookup g k t' <> tlookup g k t -> In (g, k) (flat_map op_writes ops).
Proof.
  intros. destruct (in_dec tk_eq_dec (g, k) (flat_map op_writes ops)); [assumption|].
  exfalso. apply H0. eapply run_frame; eauto.
Qed.

Lemma apply_defines : forall o t t' g k,
  apply_op t o = Ok t' -> In (g, k) (op_writes o) -> tlookup g k t' <> None.
Proof.
  intros o t t' g k H Hin.
  assert (Hall : forall V (f : V -> tval) ws m, In k (map fst ws) -> option_map f (lookup k (bind_all ws m)) <> None).
  { intros V f ws m Hk. destruct (lookup_bind_all_in _ ws m k Hk) as [v ->]. discriminate. }
  destruct (match o with OInit _ _ _ | OImpl _ => true | _ => false end) eqn:Eo.
  - destruct o; try discriminate; simpl in Hin; apply in_map_iff in Hin; destruct Hin as [w [Hw Hin]];
      injection Hw as <- <-.
    + destruct (apply_impl_ok _ _ _ H) as [l ->]. apply Hall. now apply in_map.
    + destruct (apply_init_ok _ _ _ _ _ H) as [v [_ ->]]. apply Hall. now rewrite init_binds_keys.
  - destruct o; try discriminate Eo; simpl in H, Hin; try tauto;
      destruct Hin as [Hin|[]]; injection Hin as <- <-;
      try (injection H as <-; simpl; rewrite lookup_bind_eq; discriminate).
    enum_case H; injection H as <-; simpl; rewrite ?EL, ?lookup_bind_eq; discriminate.
Qed.

Lemma apply_keeps : forall o t t' g k,
  apply_op t o = Ok t' -> tlookup g k t <> None -> tlookup g k t' <> None.
Proof.
  intros o t t' g k H Hd. destruct (in_dec tk_eq_dec (g, k) (op_writes o)) as [Hin|Hni].
  - eapply apply_defines; eauto.
  - now rewrite (apply_frame _ _ _ _ _ H Hni).
Qed.

Lemma run_keeps : forall ops t t' g k,
  run_ops ops t = Ok t' -> tlookup g k t <> None -> tlookup g k t' <> None.
Proof.
  induction ops as [|o ops IH]; intros t t' g k H Hd; simpl in *.
  - now injection H as <-.
  - destruct (apply_op t o) as [t1|] eqn:E; [|discriminate]. eapply IH; eauto. eapply apply_keeps; eauto.
Qed.

Lemma run_defines : forall ops t t' g k,
  run_ops ops t = Ok t' -> In (g, k) (flat_map op_writes ops) -> tlookup g k t' <> None.
Proof.
  induction ops as [|o ops IH]; intros t t' g k H Hin; simpl in *; [tauto|].
  destruct (apply_op t o) as [t1|] eqn:E; [|discriminate].
  apply in_app_iff in Hin. destruct Hin as [Hin|Hin].
  - eapply run_keeps; eauto. eapply apply_defines; eauto.
  - eapply IH; eauto.
Qed.

Definition op_loads (o : op) : list name := match o with OLoaded p => [p] | _ => [] end.

Lemma apply_loaded : forall o t t', apply_op t o = Ok t' -> loaded t' = op_loads o ++ loaded t.
Proof.
  intros o t t' H. destruct o; simpl in H; try enum_case H; try (injection H as <-; reflexivity); try discriminate.
  - destruct (has_impl _ _ _); [injection H as <-; reflexivity|].
    destruct (find_conflict _ _); [discriminate|injection H as <-; reflexivity].
  - destruct (eval t 0 e); [injection H as <-; reflexivity|discriminate].
Qed.

Lemma run_loaded : forall ops t t',
  run_ops ops t = Ok t' -> loaded t' = rev (flat_map op_loads ops) ++ loaded t.
Proof.
  induction ops as [|o ops IH]; intros t t' H; simpl in *.
  - now injection H as <-.
  - destruct (apply_op t o) as [t1|] eqn:E; [|discriminate].
    rewrite (IH _ _ H), (apply_loaded _ _ _ E). rewrite rev_app_distr, <- app_assoc.
    destruct o; reflexivity.
Qed.

Lemma loads_import_stmt : forall p s, flat_map op_loads (import_stmt_ops p s) = [].
Proof.
  intros p [q|[|] d]; simpl; try reflexivity.
  destruct d; simpl; try reflexivity. destruct is_const, init; reflexivity.
Qed.

Lemma flat_map_nil : forall A B (f : A -> list B) l, (forall x, In x l -> f x = []) -> flat_map f l = [].
Proof.
  induction l as [|a l IH]; intros H; simpl; [reflexivity|].
  rewrite (H a), IH; auto; [intros; apply H; now right|now left].
Qed.

Lemma in_sync_ops : forall d o, In o (sync_ops d) ->
  (exists v, o = OStatic (im_iface d) (im_struct d) v) \/ (exists a b, o = OCtor (im_struct d) a b) \/
  (exists b, im_dtor d = Some b /\ o = ODtor (im_struct d) b) \/ o = OImpl d.
Proof.
  intros d o H. unfold sync_ops in H. rewrite !in_app_iff, !in_map_iff in H.
  destruct H as [[v [<- _]]|[[c [<- _]]|[H|[<-|[]]]]].
  - left. eauto.
  - right. left. eauto.
  - destruct (im_dtor d) as [b|]; [|destruct H]. destruct H as [<-|[]]. right. right. left. eauto.
  - right. right. right. reflexivity.
Qed.

Lemma run_stmt_ops_loaded : forall p s t t', run_ops (import_stmt_ops p s) t = Ok t' -> loaded t' = loaded t.
Proof. intros. apply run_loaded in H. now rewrite loads_import_stmt in H. Qed.
Lemma run_sync_loaded : forall l t t', run_ops (flat_map sync_ops l) t = Ok t' -> loaded t' = loaded t.
Proof.
  intros l t t' H. apply run_loaded in H. rewrite flat_map_nil in H; [exact H|].
  intros o Ho. apply in_flat_map in Ho. destruct Ho as [d [_ Ho]]. apply in_sync_ops in Ho.
  destruct Ho as [[v ->]|[[a [b ->]]|[[b [_ ->]]| ->]]]; reflexivity.
Qed.

Record extends (t t' : tables) : Prop := mk_extends {
  ext_loaded : forall q, mem q (loaded t) = true -> mem q (loaded t') = true;
  ext_bound : forall g k, tlookup g k t <> None -> tlookup g k t' <> None
}.

Lemma ext_unloaded : forall t t' q, extends t t' -> mem q (loaded t') = false -> mem q (loaded t) = false.
Proof. intros t t' q E H. destruct (mem q (loaded t)) eqn:M; [|reflexivity]. now rewrite (ext_loaded _ _ E q M) in H. Qed.

Lemma run_extends : forall ops t t', run_ops ops t = Ok t' -> extends t t'.
Proof.
  intros ops t t' H. constructor.
  - intros q Hq. rewrite (run_loaded _ _ _ H), mem_app, Hq. apply orb_true_r.
  - intros g k. eapply run_keeps; eauto.
Qed.
Lemma mark_extends : forall p t, extends t (mark_loaded p t).
Proof. intros. constructor; [|now destruct g]. intros q Hq. simpl. rewrite Hq. now destruct (String.eqb q p). Qed.

Definition newly (t t' : tables) (q : name) : Prop := mem q (loaded t) = false /\ mem q (loaded t') = true.

Lemma newly_seq : forall t ta t' q, extends t ta -> extends ta t' ->
  newly t ta q \/ newly ta t' q -> newly t t' q.
Proof.
  intros t ta t' q E1 E2 [[H1 H2]|[H1 H2]]; split; auto.
  - exact (ext_loaded _ _ E2 q H2).
  - exact (ext_unloaded _ _ _ E1 H1).
Qed.

Definition option_eq_dec {A} (d : forall a b : A, {a = b} + {a <> b}) : forall a b : option A, {a = b} + {a <> b}.
Proof. decide equality. Defined.
Definition prod_eq_dec {A B} (da : forall a b : A, {a = b} + {a <> b}) (db : forall a b : B, {a = b} + {a <> b})
  : forall a b : A * B, {a = b} + {a <> b}.
Proof. decide equality. Defined.
Definition member_eq_dec : forall a b : member, {a = b} + {a <> b}.
Proof. decide equality; [apply (option_eq_dec Nat.eq_dec)|apply string_dec]. Defined.
Definition sdef_eq_dec : forall a b : sdef, {a = b} + {a <> b}.
Proof. decide equality; [apply (list_eq_dec member_eq_dec)|apply bool_dec]. Defined.
Definition tval_eq_dec : forall a b : tval, {a = b} + {a <> b}.
Proof.
  decide equality; try apply Nat.eq_dec; try apply string_dec; try apply bool_dec.
  - apply sdef_eq_dec.
  - apply (list_eq_dec string_dec).
  - apply (option_eq_dec Nat.eq_dec).
  - apply (list_eq_dec (prod_eq_dec string_dec Nat.eq_dec)).
Defined.
Definition otval_eq_dec : forall a b : option tval, {a = b} + {a <> b} := option_eq_dec tval_eq_dec.

Definition decl_keys (module_path : name) (d : decl) : list (tag * name) :=
  flat_map op_writes (import_decl_ops module_path d).

Lemma decl_keys_TF : forall q d n, In (TF, n) (decl_keys q d) ->
  exists n0 b, d = DFunc n0 b /\ (n = n0 \/ n = qualified q n0).
Proof.
  intros q d n H. unfold decl_keys in H.
  destruct d; try (destruct is_const, init); simpl in H; try (now intuition discriminate).
  destruct H as [H|[H|[]]]; injection H as <-; eauto.
Qed.

Lemma writes_sync : forall d g k,
  In (g, k) (flat_map op_writes (sync_ops d)) ->
  (g = TF /\ In k (map fst (method_binds d))) \/ (g = TD /\ k = im_struct d /\ im_dtor d <> None).
Proof.
  intros d g k H. apply in_flat_map in H. destruct H as [o [Ho H]]. apply in_sync_ops in Ho.
  destruct Ho as [[v ->]|[[a [b ->]]|[[b [Eb ->]]| ->]]]; simpl in H; try tauto.
  - destruct H as [H|[]]. injection H as <- <-. right. rewrite Eb. repeat split. discriminate.
  - left. apply in_map_iff in H. destruct H as [w [Hw Hin]]. injection Hw as <- <-. split; [reflexivity|].
    now apply in_map.
Qed.

(* the bindings module q (file m) can write: exported declarations, or impl blocks of its parser *)
Definition written_by (pf : nat) (fs : fsys) (q : name) (m : module) (g : tag) (k : name) : Prop :=
  (exists d, In (SDecl true d) m /\ In (g, k) (decl_keys q d)) \/
  (exists d, In d (parser_impls pf fs m) /\
     ((g = TF /\ In k (map fst (method_binds d))) \/ (g = TD /\ k = im_struct d /\ im_dtor d <> None))).

Lemma writes_stmt_ops : forall p e d g k,
  In (g, k) (flat_map op_writes (import_stmt_ops p (SDecl e d))) -> e = true /\ In (g, k) (decl_keys p d).
Proof. intros p [|] d g k H; simpl in H; [split; [reflexivity|exact H]|tauto]. Qed.

Lemma writes_syncs : forall l g k, In (g, k) (flat_map op_writes (flat_map sync_ops l)) ->
  exists d, In d l /\ ((g = TF /\ In k (map fst (method_binds d))) \/ (g = TD /\ k = im_struct d /\ im_dtor d <> None)).
Proof.
  intros l g k H. apply in_flat_map in H. destruct H as [o [Ho Hw]].
  apply in_flat_map in Ho. destruct Ho as [d [Hd Ho]].
  exists d. split; [assumption|]. apply writes_sync. apply in_flat_map. eauto.
Qed.

(* the recursive loader as a big-step relation (successful runs), for rule induction *)
Section Loader.
Variable pf : nat.
Variable fs : fsys.

Inductive imports : tables -> name -> tables -> Prop :=
| imp_skip : forall t p, mem p (loaded t) = true -> imports t p t
| imp_load : forall t p m t2 t', mem p (loaded t) = false -> resolve fs p = Some m ->
    stmts p (mark_loaded p t) m t2 ->
    run_ops (flat_map sync_ops (parser_impls pf fs m)) t2 = Ok t' -> imports t p t'
with stmts : name -> tables -> module -> tables -> Prop :=
| st_nil : forall p t, stmts p t [] t
| st_import : forall p t q r ta t2, imports t q ta -> stmts p ta r t2 -> stmts p t (SImport q :: r) t2
| st_decl : forall p t e d r ta t2, run_ops (import_stmt_ops p (SDecl e d)) t = Ok ta ->
    stmts p ta r t2 -> stmts p t (SDecl e d :: r) t2.

Scheme imports_min := Minimality for imports Sort Prop
  with stmts_min := Minimality for stmts Sort Prop.
Combined Scheme loader_ind from imports_min, stmts_min.

Lemma run_stmts_sound : forall imp p,
  (forall t q t', imp t q = Ok t' -> imports t q t') ->
  forall l t t', run_stmts imp p l t = Ok t' -> stmts p t l t'.
Proof.
  intros imp p Himp. induction l as [|s l IH]; intros t t' H.
  - injection H as <-. constructor.
  - destruct s as [q|e d]; cbn [run_stmts] in H.
    + destruct (imp t q) as [ta|] eqn:E; [|discriminate]. econstructor; eauto.
    + destruct (run_ops (import_stmt_ops p (SDecl e d)) t) as [ta|] eqn:E; [|discriminate]. econstructor; eauto.
Qed.

Lemma handle_import_sound : forall fuel t p t', handle_import fuel pf fs t p = Ok t' -> imports t p t'.
Proof.
  induction fuel as [|f IH]; intros t p t' H; simpl in H.
  - destruct (mem p (loaded t)) eqn:M; [|discriminate]. injection H as <-. now constructor.
  - destruct (mem p (loaded t)) eqn:M.
    + injection H as <-. now constructor.
    + destruct (resolve fs p) as [m|] eqn:R; [|discriminate].
      destruct (run_stmts (handle_import f pf fs) p m (mark_loaded p t)) as [t2|] eqn:E; [|discriminate].
      eapply imp_load; eauto. eapply run_stmts_sound; eauto.
Qed.

(* a sequence of imports runs like the statements of a file that holds these import lines and nothing
   else (whatever its name): what is proved of [stmts] holds of [load] *)
Lemma load_stmts : forall fuel l t t', load fuel pf fs l t = Ok t' -> forall p, stmts p t (map SImport l) t'.
Proof.
  intros fuel l. induction l as [|a l IH]; intros t t' H p; simpl in H.
  - injection H as <-. constructor.
  - destruct (handle_import fuel pf fs t a) as [ta|] eqn:E; [|discriminate].
    exact (st_import _ _ _ _ _ _ (handle_import_sound _ _ _ _ E) (IH _ _ H p)).
Qed.
Lemma imports_only : forall p l, flat_map (import_stmt_ops p) (map SImport l) = [].
Proof. intros p l. induction l; simpl; auto. Qed.

Lemma block_resolved : forall p m, resolve fs p = Some m ->
  block pf fs p = OLoaded p :: flat_map (import_stmt_ops p) m ++ flat_map sync_ops (parser_impls pf fs m).
Proof. intros p m R. unfold block. now rewrite R. Qed.

(* a successful import is a run of registration steps, each a step of the block of a module it loaded (the
   blocks are interleaved: a module's own imports are executed where they stand) *)
Lemma loader_trace :
  (forall t p t', imports t p t' -> exists ops, run_ops ops t = Ok t' /\ mem p (loaded t') = true /\
     forall o, In o ops -> exists q, newly t t' q /\ In o (block pf fs q)) /\
  (forall p t l t', stmts p t l t' -> exists ops, run_ops ops t = Ok t' /\
     forall o, In o ops -> (exists q, newly t t' q /\ In o (block pf fs q)) \/ In o (flat_map (import_stmt_ops p) l)).
Proof.
  apply loader_ind.
  - intros t p M. exists []. split; [reflexivity|]. split; [exact M|intros o []].
  - intros t p m t2 t' M R _ [ops [Hrun Hin]] Hs.
    pose proof (run_sync_loaded _ _ _ Hs) as L'.
    assert (Hp : mem p (loaded t') = true).
    { rewrite L'. apply (ext_loaded _ _ (run_extends _ _ _ Hrun)). simpl. now rewrite String.eqb_refl. }
    assert (Hb : forall o, o = OLoaded p \/ In o (flat_map (import_stmt_ops p) m) \/
                           In o (flat_map sync_ops (parser_impls pf fs m)) -> exists q, newly t t' q /\ In o (block pf fs q)).
    { intros o H. exists p. split; [now split|]. rewrite (block_resolved p m R).
      destruct H as [<-|H]; [now left|right; now apply in_app_iff]. }
    exists (OLoaded p :: ops ++ flat_map sync_ops (parser_impls pf fs m)). split; [|split; [exact Hp|]].
    + cbn [run_ops apply_op]. fold (mark_loaded p t). now rewrite run_ops_app, Hrun.
    + intros o [<-|Ho]; [apply Hb; auto|]. apply in_app_iff in Ho. destruct Ho as [Ho|Ho]; [|apply Hb; auto].
      destruct (Hin o Ho) as [[q [[N1 N2] Hq]]|Hq]; [|apply Hb; auto].
      exists q. split; [|exact Hq]. split; [exact (ext_unloaded _ _ _ (mark_extends p t) N1)|now rewrite L'].
  - intros p t. exists []. split; [reflexivity|intros o []].
  - intros p t q r ta t2 _ [opsa [Ra [_ Ia]]] _ [opsr [Rr Ir]].
    pose proof (run_extends _ _ _ Ra) as Ea. pose proof (run_extends _ _ _ Rr) as Er.
    exists (opsa ++ opsr). split; [now rewrite run_ops_app, Ra|]. intros o Ho. apply in_app_iff in Ho.
    destruct Ho as [Ho|Ho].
    + destruct (Ia o Ho) as [x [N Hx]]. left. exists x. split; [eapply newly_seq; eauto|exact Hx].
    + destruct (Ir o Ho) as [[x [N Hx]]|Hx]; [left|right; exact Hx]. exists x. split; [eapply newly_seq; eauto|exact Hx].
  - intros p t e d r ta t2 Hr _ [ops [Rr Ir]]. pose proof (run_stmt_ops_loaded _ _ _ _ Hr) as La.
    exists (import_stmt_ops p (SDecl e d) ++ ops). split; [now rewrite run_ops_app, Hr|]. intros o Ho.
    cbn [flat_map]. rewrite in_app_iff. apply in_app_iff in Ho. destruct Ho as [Ho|Ho]; [auto|].
    destruct (Ir o Ho) as [[x [[N1 N2] Hx]]|Hx]; [left|auto].
    exists x. split; [|exact Hx]. split; [now rewrite <- La|exact N2].
Qed.

Lemma imports_extends : forall t p t', imports t p t' -> extends t t'.
Proof. intros t p t' H. destruct (proj1 loader_trace _ _ _ H) as [ops [R _]]. exact (run_extends _ _ _ R). Qed.
Lemma imports_marks : forall t p t', imports t p t' -> mem p (loaded t') = true.
Proof. intros t p t' H. now destruct (proj1 loader_trace _ _ _ H) as [ops [_ [M _]]]. Qed.
Lemma stmts_extends : forall p t l t', stmts p t l t' -> extends t t'.
Proof. intros p t l t' H. destruct (proj2 loader_trace _ _ _ _ H) as [ops [R _]]. exact (run_extends _ _ _ R). Qed.

(* a module is complete: its own imports are loaded, its exports bound *)
Definition complete (q : name) (t : tables) : Prop :=
  exists m, resolve fs q = Some m /\
    (forall r, In (SImport r) m -> mem r (loaded t) = true) /\
    (forall d g k, In (SDecl true d) m -> In (g, k) (decl_keys q d) -> tlookup g k t <> None).

Lemma complete_extends : forall q t t', extends t t' -> complete q t -> complete q t'.
Proof. intros q t t' [E1 E2] [m [R [C1 C2]]]. exists m. repeat split; eauto. Qed.
Lemma complete_imports : forall q t p t', imports t p t' -> complete q t -> complete q t'.
Proof. intros q t p t' H. apply complete_extends. now apply imports_extends in H. Qed.

Lemma newly_loaded_complete :
  (forall t p t', imports t p t' ->
     forall q, mem q (loaded t) = false -> mem q (loaded t') = true -> complete q t') /\
  (forall p t l t', stmts p t l t' ->
     (forall q, mem q (loaded t) = false -> mem q (loaded t') = true -> complete q t') /\
     (forall r, In (SImport r) l -> mem r (loaded t') = true) /\
     (forall d g k, In (SDecl true d) l -> In (g, k) (decl_keys p d) -> tlookup g k t' <> None)).
Proof.
  apply loader_ind.
  - intros t p M q H1 H2. congruence.
  - intros t p m t2 t' M R Hst [I1 [I2 I3]] Hs q H1 H2.
    rewrite (run_sync_loaded _ _ _ Hs) in H2. apply (complete_extends q t2 t' (run_extends _ _ _ Hs)).
    destruct (String.eqb_spec q p) as [->|N].
    + exists m. auto.
    + apply I1; [|exact H2]. simpl. apply String.eqb_neq in N. now rewrite N.
  - intros p t. repeat split; intros; simpl in *; try tauto. congruence.
  - intros p t q r ta t2 Hi I Hs [S1 [S2 S3]]. pose proof (stmts_extends _ _ _ _ Hs) as E. repeat split.
    + intros x H1 H2. destruct (mem x (loaded ta)) eqn:Ea; [|auto]. apply (complete_extends x ta t2 E). auto.
    + intros x [Hx|Hx]; [injection Hx as <-|auto]. apply (ext_loaded _ _ E). eapply imports_marks; eauto.
    + intros d g k [Hd|Hd]; [discriminate|]. eauto.
  - intros p t e d r ta t2 Hr Hs [S1 [S2 S3]]. repeat split.
    + intros x H1 H2. apply S1; auto. now rewrite (run_stmt_ops_loaded _ _ _ _ Hr).
    + intros x [Hx|Hx]; [discriminate|auto].
    + intros d0 g k [Hd|Hd] Hk; [|eauto]. injection Hd as -> ->.
      apply (ext_bound _ _ (stmts_extends _ _ _ _ Hs)). eapply run_defines; eauto.
Qed.

Lemma block_writes : forall q o g k, In o (block pf fs q) -> In (g, k) (op_writes o) ->
  exists m, resolve fs q = Some m /\ written_by pf fs q m g k.
Proof.
  intros q o g k Ho Hw. unfold block in Ho. destruct (resolve fs q) as [m|]; [|destruct Ho as [<-|[]]; destruct Hw].
  exists m. split; [reflexivity|]. destruct Ho as [<-|Ho]; [destruct Hw|]. apply in_app_iff in Ho. destruct Ho as [Ho|Ho].
  - left. apply in_flat_map in Ho. destruct Ho as [[x|e d] [Hs Ho]]; [destruct Ho|].
    destruct (writes_stmt_ops q e d g k) as [-> Hk]; [apply in_flat_map; eauto|eauto].
  - right. apply writes_syncs. apply in_flat_map. eauto.
Qed.

End Loader.

Lemma handle_import_again : forall fuel pf fs t p, mem p (loaded t) = true -> handle_import fuel pf fs t p = Ok t.
Proof. intros. destruct fuel; simpl; now rewrite H. Qed.

Lemma handle_import_marks : forall fuel pf fs t p t',
  handle_import fuel pf fs t p = Ok t' -> mem p (loaded t') = true.
Proof. intros. eapply imports_marks. eapply handle_import_sound; eauto. Qed.

Lemma handle_import_extends : forall fuel pf fs t p t', handle_import fuel pf fs t p = Ok t' -> extends t t'.
Proof. intros. eapply imports_extends, handle_import_sound; eauto. Qed.

Lemma load_again_gen : forall fuel pf fs p l2 l1 t,
  In p l1 \/ mem p (loaded t) = true ->
  load fuel pf fs (l1 ++ p :: l2) t = load fuel pf fs (l1 ++ l2) t.
Proof.
  intros fuel pf fs p l2. induction l1 as [|a l1 IH]; intros t H; simpl.
  - destruct H as [[]|H]. now rewrite handle_import_again.
  - destruct (handle_import fuel pf fs t a) as [t'|e] eqn:E; [|reflexivity]. apply IH.
    destruct H as [[->|H]|H]; auto.
    + right. eapply handle_import_marks; eauto.
    + right. exact (ext_loaded _ _ (handle_import_extends _ _ _ _ _ _ E) p H).
Qed.

Lemma only_exports_visible_l : forall fuel pf fs t p t' g k,
  handle_import fuel pf fs t p = Ok t' -> tlookup g k t' <> tlookup g k t ->
  exists q m, mem q (loaded t) = false /\ mem q (loaded t') = true /\ resolve fs q = Some m /\
              written_by pf fs q m g k.
Proof.
  intros fuel pf fs t p t' g k H C.
  destruct (proj1 (loader_trace pf fs) _ _ _ (handle_import_sound _ _ _ _ _ _ H)) as [ops [R [_ Hin]]].
  apply (run_changed _ _ _ _ _ R) in C. apply in_flat_map in C. destruct C as [o [Ho Hw]].
  destruct (Hin o Ho) as [q [[N1 N2] Hq]]. destruct (block_writes pf fs q o g k Hq Hw) as [m [Rq W]]. exists q, m. auto.
Qed.

Lemma loaded_modules_complete_l : forall fuel pf fs t p t' q,
  handle_import fuel pf fs t p = Ok t' -> mem q (loaded t) = false -> mem q (loaded t') = true ->
  exists m, resolve fs q = Some m /\
    (forall r, In (SImport r) m -> mem r (loaded t') = true) /\
    (forall d g k, In (SDecl true d) m -> In (g, k) (decl_keys q d) -> tlookup g k t' <> None).
Proof. intros. eapply (proj1 (newly_loaded_complete pf fs)); eauto. eapply handle_import_sound; eauto. Qed.

Lemma exports_become_visible_l : forall fuel pf fs t p m t' d g k,
  mem p (loaded t) = false -> resolve fs p = Some m -> handle_import fuel pf fs t p = Ok t' ->
  In (SDecl true d) m -> In (g, k) (decl_keys p d) -> tlookup g k t' <> None.
Proof.
  intros fuel pf fs t p m t' d g k M R H Hd Hk.
  destruct (loaded_modules_complete_l _ _ _ _ _ _ p H M (handle_import_marks _ _ _ _ _ _ H)) as [m' [R' [_ C]]].
  rewrite R in R'. injection R' as <-. eauto.
Qed.

(* the recursion bound: a result that is not "bound exhausted" is final *)
Definition no_depth (r : result) : Prop := match r with Err (EDepth _) => False | _ => True end.

Lemma run_stmts_more : forall (imp imp' : tables -> name -> result) p,
  (forall t q, no_depth (imp t q) -> imp' t q = imp t q) ->
  forall l t, no_depth (run_stmts imp p l t) -> run_stmts imp' p l t = run_stmts imp p l t.
Proof.
  intros imp imp' p H. induction l as [|s l IH]; intros t N; [reflexivity|].
  destruct s as [q|e d]; cbn [run_stmts] in *.
  - destruct (imp t q) as [ta|er] eqn:E.
    + rewrite H by (rewrite E; exact I). rewrite E. now apply IH.
    + rewrite H by (rewrite E; exact N). now rewrite E.
  - destruct (run_ops (import_stmt_ops p (SDecl e d)) t); [now apply IH|reflexivity].
Qed.

Lemma handle_import_S : forall f pf fs t p,
  handle_import (S f) pf fs t p =
  if mem p (loaded t) then Ok t
  else match resolve fs p with
       | None => Err (EOpen p (file_path_of p))
       | Some m => match run_stmts (handle_import f pf fs) p m (mark_loaded p t) with
                   | Ok t2 => run_ops (flat_map sync_ops (parser_impls pf fs m)) t2
                   | Err e => Err e
                   end
       end.
Proof. reflexivity. Qed.
