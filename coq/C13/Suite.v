(* C13 - the prefix test behind the type-name rule, and sequences of match statements packaged as functions
   (family M): Mech = Spec for one call (the argument arrives as the encoded value, then the loop refines), and a run
   over ks1 ++ ks2 as the run of ks1 followed by the run of ks2 (then_ev is associative). *)
From Coq Require Import List Bool Ascii String.
From Cb Require Import C13.Model C13.MatchLemmas C13.Transport.
Import ListNotations.

Lemma is_prefix_app : forall p s, is_prefix p s = true <-> exists t, s = p ++ t.
Proof.
  induction p as [|a p IH]; intros s; simpl.
  - split; [intros _; exists s; reflexivity|reflexivity].
  - destruct s as [|b s].
    + split; [discriminate|]. intros [t Ht]. discriminate.
    + destruct (ascii_dec a b) as [->|Hne].
      * rewrite IH. split; intros [t Ht]; exists t; [rewrite Ht; reflexivity|]. inversion Ht. reflexivity.
      * split; [discriminate|]. intros [t Ht]. inversion Ht. congruence.
Qed.

Lemma is_prefix_refl : forall s, is_prefix s s = true.
Proof. intro s. apply is_prefix_app. exists []. symmetry. apply app_nil_r. Qed.

Lemma good_cval_match : forall c, good_cval c = good_for_match (c_payload c).
Proof. reflexivity. Qed.

Lemma armres_out_refines : forall mk c arms, good_cval c = true ->
  armres_out mk (s_variant (encode c)) (mech_match (encode c) arms) = armres_out mk (c_variant c) (spec_match c arms).
Proof. intros mk c arms H. rewrite variant_encode, match_refines_l by (rewrite <- good_cval_match; exact H). reflexivity. Qed.

(* the second value is looked at only by a function with a nested match *)
Lemma once_refines : forall j f c c2 sv2, good_cval c = true ->
  (needs2 f = true -> sv2 = encode c2 /\ good_cval c2 = true) ->
  m_once j f (encode c) sv2 = s_once j f c c2.
Proof.
  intros j f c c2 sv2 Hg H2. unfold m_once, s_once. rewrite encode_flags. simpl negb. cbv iota.
  rewrite variant_encode, match_refines_l by (rewrite <- good_cval_match; exact Hg).
  destruct (snd (armres_out (EM j) (c_variant c) (spec_match c (f_arms f)))); try reflexivity.
  destruct (spec_match c (f_arms f)); try reflexivity.
  unfold needs2 in H2. destruct (eff_nest f) as [[i0 arms2]|]; [|reflexivity].
  destruct (H2 eq_refl) as [-> Hg2]. destruct (Nat.eqb i i0); [|reflexivity].
  rewrite encode_flags. simpl negb. cbv iota.
  rewrite armres_out_refines by exact Hg2. reflexivity.
Qed.

Lemma arg_safe : forall f d c, (is_inline f = true \/ (d = false /\ has_pl c = true)) -> m_arg f d c = encode c.
Proof.
  intros f d c [H|[-> H]]; unfold m_arg; [rewrite H; reflexivity|].
  destruct (is_inline f); [reflexivity|]. apply pass_encode, has_pl_payload. exact H.
Qed.

Lemma call_refines : forall fns k, safe_call fns k = true -> m_call fns k = s_call fns k.
Proof.
  intros fns k Hs. unfold safe_call in Hs. unfold m_call, s_call.
  destruct (nth_error fns (k_fn k)) as [f|]; [|discriminate].
  apply andb_true_iff in Hs. destruct Hs as [Hs Hp]. apply andb_true_iff in Hs. destruct Hs as [Hg Hg2].
  apply orb_true_iff in Hp. rewrite !andb_true_iff, negb_true_iff in Hp.
  rewrite (arg_safe f (k_direct k) (k_val k)) by tauto.
  rewrite (once_refines _ f _ (k_val2 k) _ Hg).
  - rewrite match_refines_l by (rewrite <- good_cval_match; exact Hg). reflexivity.
  - intro En. rewrite En in Hg2, Hp. simpl in Hg2, Hp. split; [apply arg_safe; tauto|exact Hg2].
Qed.

Lemma run_calls_ext : forall f g ks, (forall k, In k ks -> f k = g k) -> run_calls f ks = run_calls g ks.
Proof.
  induction ks as [|k rest IH]; intro H; simpl; [reflexivity|].
  rewrite (H k (or_introl eq_refl)). rewrite IH; [reflexivity|]. intros k' Hin. apply H. right. exact Hin.
Qed.

(* the calls before some call, without the closing "after" of run_calls *)
Fixpoint run_prefix (call : mcall -> list mev * exitc) (ks : list mcall) : list mev * exitc :=
  match ks with
  | [] => ([], XOk)
  | k :: rest => then_ev (call k) (run_prefix call rest)
  end.

Lemma then_ev_ok : forall a b, snd a = XOk -> then_ev a b = (fst a ++ fst b, snd b).
Proof. intros a b H. unfold then_ev. rewrite H. reflexivity. Qed.
Lemma then_ev_stop : forall a b, snd a <> XOk -> then_ev a b = (fst a, snd a).
Proof. intros a b H. unfold then_ev. destruct (snd a); congruence. Qed.
Lemma then_ev_assoc : forall a b c, then_ev (then_ev a b) c = then_ev a (then_ev b c).
Proof.
  intros [ea xa] [eb xb] [ec xc]. unfold then_ev. simpl.
  destruct xa; simpl; try reflexivity. destruct xb; simpl; try reflexivity. rewrite app_assoc. reflexivity.
Qed.
Lemma then_ev_nil : forall b, then_ev ([], XOk) b = b.
Proof. intros [eb xb]. reflexivity. Qed.

Lemma run_calls_app : forall call ks1 ks2,
  run_calls call (ks1 ++ ks2) = then_ev (run_prefix call ks1) (run_calls call ks2).
Proof.
  induction ks1 as [|k rest IH]; intro ks2; simpl.
  - rewrite then_ev_nil. reflexivity.
  - rewrite IH. rewrite then_ev_assoc. reflexivity.
Qed.

Definition key_arms : list pattern :=
  [PatVar (s2l "Key") BName; PatVar (s2l "KeyUp") BName; PatVar (s2l "KeyRepeat") BName; PatVar (s2l "Quit") BNo].
