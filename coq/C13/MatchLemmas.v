(* C13 - the match loop and the payload channels: the loop read at one arm (match_from_cons), on which the inductions
   over the arm list rest, and the loop on an encoded value as the property's own match. *)
From Coq Require Import List ZArith Ascii Lia.
From Cb Require Import C13.Model.
Import ListNotations.
Local Open Scope Z_scope.

Lemma str_eqb_eq : forall a b, str_eqb a b = true <-> a = b.
Proof. intros a b. unfold str_eqb. destruct (list_eq_dec ascii_dec a b); split; congruence. Qed.
Lemma str_eqb_refl : forall a, str_eqb a a = true.
Proof. intro a. apply str_eqb_eq. reflexivity. Qed.
Lemma str_eqb_neq : forall a b, str_eqb a b = false <-> a <> b.
Proof. intros a b. unfold str_eqb. destruct (list_eq_dec ascii_dec a b); split; congruence. Qed.

(* which arm the loop selected, whatever happened to its binding *)
Definition arm_index (a : armres) : option nat :=
  match a with ArmOk i _ | ArmUnbound i => Some i | NoArm => None end.

(* what the loop does at the arm it stops at; the wildcard and a named variant differ only here *)
Definition run_arm (i : nat) (sv : stored) (p : pattern) : armres :=
  match p with PatWild => ArmOk i VNo | PatVar _ b => bind_payload i sv b end.

Lemma match_from_cons : forall k sv p rest,
  mech_match_from k sv (p :: rest) =
    if arm_matches sv p then run_arm k sv p else mech_match_from (S k) sv rest.
Proof. intros k sv [v b|] rest; reflexivity. Qed.

Lemma run_arm_index : forall i sv p, arm_index (run_arm i sv p) = Some i.
Proof.
  intros i sv [v b|]; [|reflexivity]. unfold run_arm, bind_payload. destruct b; try reflexivity.
  destruct (s_has sv); [|reflexivity].
  destruct (is_empty (s_str sv)); reflexivity.
Qed.

(* the arm at list position j of a search that started counting at k has index k + j *)
Lemma match_from_first : forall arms sv k i,
  arm_index (mech_match_from k sv arms) = Some i <->
  (exists j, i = (k + j)%nat /\
     (exists p, nth_error arms j = Some p /\ arm_matches sv p = true) /\
     (forall j' p, (j' < j)%nat -> nth_error arms j' = Some p -> arm_matches sv p = false)).
Proof.
  induction arms as [|a rest IH]; intros sv k i.
  - split; [discriminate|]. intros (j & _ & (p & Hp & _) & _). destruct j; discriminate.
  - rewrite match_from_cons. destruct (arm_matches sv a) eqn:E.
    + rewrite run_arm_index. split.
      * intro H. injection H as <-. exists 0%nat. split; [lia|]. split.
        -- exists a. split; [reflexivity|exact E].
        -- intros j' p Hj. lia.
      * intros (j & Hi & _ & Hprev). destruct j; [f_equal; lia|].
        rewrite (Hprev 0%nat a (Nat.lt_0_succ j) eq_refl) in E. discriminate.
    + rewrite IH. split.
      * intros (j & Hi & Hp & Hprev). exists (S j). split; [lia|]. split; [exact Hp|].
        intros [|j'] p' Hj Hn; [injection Hn as <-; exact E|apply (Hprev j' p'); [lia|exact Hn]].
      * intros (j & Hi & (p & Hp & Hm) & Hprev). destruct j; [injection Hp as <-; congruence|].
        exists j. split; [lia|]. split; [exists p; split; assumption|].
        intros j' p' Hj Hn. apply (Hprev (S j') p'); [lia|exact Hn].
Qed.

Lemma match_from_noarm : forall arms sv k,
  mech_match_from k sv arms = NoArm <-> (forall p, In p arms -> arm_matches sv p = false).
Proof.
  induction arms as [|a rest IH]; intros sv k.
  - split; [intros _ p []|reflexivity].
  - rewrite match_from_cons. destruct (arm_matches sv a) eqn:E.
    + split.
      * intro H. pose proof (run_arm_index k sv a) as Hi. rewrite H in Hi. discriminate.
      * intro H. rewrite (H a (or_introl eq_refl)) in E. discriminate.
    + rewrite IH. split.
      * intros H p [<-|Hin]; [exact E|exact (H p Hin)].
      * intros H p Hin. exact (H p (or_intror Hin)).
Qed.

(* what a named binding receives: the payload as the consumer decodes it *)
Definition bval_of_payload (p : payload) : bval :=
  match p with PNone => VNo | PInt z => VInt z | PStr s => VStr s end.

Lemma match_from_binds : forall arms sv k i b,
  mech_match_from k sv arms = ArmOk i b ->
  forall j v, i = (k + j)%nat -> nth_error arms j = Some (PatVar v BName) ->
  b = bval_of_payload (decode_payload sv) /\ s_has sv = true.
Proof.
  induction arms as [|a rest IH]; intros sv k i b H j v Hi Hn; [discriminate|].
  assert (Hidx : arm_index (mech_match_from k sv (a :: rest)) = Some i) by (rewrite H; reflexivity).
  rewrite match_from_cons in H, Hidx. destruct (arm_matches sv a).
  - rewrite run_arm_index in Hidx. assert (j = 0%nat) by (injection Hidx; lia). subst j. injection Hn as ->.
    cbn [run_arm] in H. unfold bind_payload in H. unfold decode_payload.
    destruct (s_has sv); [|discriminate].
    destruct (is_empty (s_str sv)); injection H as _ <-; split; reflexivity.
  - destruct j; [|apply (IH sv (S k) i b H j v); [lia|exact Hn]].
    apply match_from_first in Hidx. destruct Hidx as (j' & Hj' & _). lia.
Qed.

(* the two spellings collide in storage: that is why no consumer can tell them apart *)
Lemma encode_collision : forall v, encode (mkC v (PStr [])) = encode (mkC v (PInt 0)).
Proof. reflexivity. Qed.

(* the payloads the two channels can represent: everything but the empty string *)
Definition good_for_match (p : payload) : bool :=
  match p with PNone => true | PInt _ => true | PStr s => negb (is_empty s) end.

Lemma bind_refines : forall i c b, good_for_match (c_payload c) = true ->
  bind_payload i (encode c) b = spec_bind i c b.
Proof.
  intros i [v p] b Hg. destruct b; try reflexivity.
  destruct p as [|z|[|a s]]; [reflexivity|reflexivity|discriminate Hg|reflexivity].
Qed.

Lemma variant_encode : forall c, s_variant (encode c) = c_variant c.
Proof. intros [v p]. destruct p; reflexivity. Qed.

Lemma match_from_refines : forall arms c k, good_for_match (c_payload c) = true ->
  mech_match_from k (encode c) arms = spec_match_from k c arms.
Proof.
  induction arms as [|a rest IH]; intros c k Hg; simpl; [reflexivity|].
  destruct a as [v b|]; [|reflexivity].
  rewrite variant_encode. destruct (str_eqb (c_variant c) v).
  - apply bind_refines. exact Hg.
  - apply IH. exact Hg.
Qed.

Lemma match_refines_l : forall c arms, good_for_match (c_payload c) = true ->
  mech_match (encode c) arms = spec_match c arms.
Proof. intros. apply match_from_refines. assumption. Qed.
