(* C13 - enum values through declaration, assignment, argument passing and return (family A): every admitted step keeps
   the stored value, so a conforming program reaches its consumer with the value as first encoded (m_state_safe), and
   the consumer of an encoded value prints what the Spec prints. *)
From Coq Require Import List Bool String.
From Cb Require Import C13.Model C13.MatchLemmas.
Import ListNotations.

(* steps that keep a value of the given payload shape intact in the pinned code *)
Definition step_ok (c : cval) (s : step) : bool :=
  match s with
  | StAsgCons _ => false
  | StDeclVar => true
  | StDeclCall => match c_payload c with PInt _ => true | _ => false end
  | _ => match c_payload c with PNone => false | _ => true end
  end.

Definition has_payload (c : cval) : Prop := c_payload c <> PNone.
Lemma has_pl_payload : forall c, has_pl c = true -> has_payload c.
Proof. intros [v p] H E. simpl in E. subst p. discriminate H. Qed.

Lemma encode_flags : forall c, s_enum (encode c) = true.
Proof. intros [v p]; destruct p; reflexivity. Qed.
Lemma encode_has : forall c, s_has (encode c) = match c_payload c with PNone => false | _ => true end.
Proof. intros [v p]; destruct p; reflexivity. Qed.

Lemma eval_var_encode : forall c, has_payload c -> m_eval_var (encode c) = Some (encode c).
Proof. intros [v p] H; destruct p; [contradiction H|..]; reflexivity. Qed.
Lemma pass_encode : forall c, has_payload c -> m_pass (encode c) = encode c.
Proof. intros c H. unfold m_pass. rewrite eval_var_encode; auto. Qed.
Lemma call_idf_encode : forall c, has_payload c -> m_call_idf (encode c) = RStruct (encode c).
Proof. intros c H. unfold m_call_idf. rewrite pass_encode; auto. unfold m_return_var. rewrite encode_flags. reflexivity. Qed.
Lemma decl_from_ret_int : forall v z, m_decl_from_ret (RStruct (encode (mkC v (PInt z)))) = encode (mkC v (PInt z)).
Proof. reflexivity. Qed.
Lemma decl_from_ret_none : forall v, m_decl_from_ret (RStruct (encode (mkC v PNone))) = encode (mkC v PNone).
Proof. reflexivity. Qed.

(* every admitted step copies all four fields (also of a value stored with an empty string channel) *)
Lemma step_preserves : forall c s, step_ok c s = true -> m_step (encode c) s = encode c.
Proof. intros [v p] s Hok. destruct s, p; try discriminate Hok; reflexivity. Qed.

(* a property of the state that every admitted step keeps is kept by the whole list *)
Lemma fold_left_inv : forall {A B : Type} {f : A -> B -> A} {ok : B -> bool} (P : A -> Prop) l a,
  (forall a b, P a -> ok b = true -> P (f a b)) -> P a -> forallb ok l = true -> P (fold_left f l a).
Proof.
  induction l as [|b l IH]; intros a Hstep Ha Hok; [exact Ha|].
  simpl in Hok. apply andb_true_iff in Hok. destruct Hok as [Hb Hl]. apply IH; auto.
Qed.

Lemma steps_preserve : forall steps c,
  forallb (step_ok c) steps = true -> fold_left m_step steps (encode c) = encode c.
Proof.
  intros steps c. apply (fold_left_inv (fun st => st = encode c)); [|reflexivity].
  intros st s -> Hs. apply step_preserves. exact Hs.
Qed.

(* the Spec state does not move unless a constructor is assigned *)
Lemma s_steps_id : forall steps c, existsb is_asgcons steps = false -> fold_left s_step steps c = c.
Proof.
  induction steps as [|s rest IH]; intros c H; simpl in *; [reflexivity|].
  apply orb_false_iff in H. destruct H as [H1 H2]. destruct s; simpl in *; try discriminate; apply IH; assumption.
Qed.

Lemma existsb_false : forall {A : Type} {f : A -> bool} {l x}, existsb f l = false -> In x l -> f x = false.
Proof.
  intros A f l x H Hin. destruct (f x) eqn:E; [|reflexivity].
  rewrite <- H. symmetry. apply existsb_exists. exists x. split; assumption.
Qed.

(* state of a conforming program just before the consumer: the value as first stored; safe_a admits, for each shape of
   payload, exactly a source that stores it whole and steps that are step_ok for it *)
Lemma m_state_safe : forall p, safe_a p = true -> is_direct (a_final p) = false -> m_state p = encode (a_val p).
Proof.
  intros [bi [v pl] src steps fin arms] Hs Hd. unfold safe_a in Hs. simpl in *.
  apply andb_true_iff in Hs. destruct Hs as [Hac Hs]. apply negb_true_iff in Hac.
  unfold m_state. simpl.
  assert (H : m_source bi (mkC v pl) src = encode (mkC v pl) /\
              forall s, In s steps -> step_ok (mkC v pl) s = true).
  { destruct pl as [|z|s].
    - assert (Hs' : forallb is_declvar steps = true /\
                    match src with SrcCons | SrcCallVar => true | SrcCall => bi end = true)
        by (destruct fin; try discriminate; apply andb_true_iff in Hs; exact Hs).
      destruct Hs' as [Hf Hsrc]. split; [destruct src; try reflexivity; simpl in Hsrc; subst bi; reflexivity|].
      intros s Hin. rewrite forallb_forall in Hf. specialize (Hf s Hin).
      destruct s; try discriminate; reflexivity.
    - split; [destruct src; reflexivity|]. intros s Hin.
      pose proof (existsb_false Hac Hin). destruct s; try discriminate; reflexivity.
    - apply andb_true_iff in Hs. destruct Hs as [_ Hs]. rewrite Hd in Hs. simpl in Hs.
      apply andb_true_iff in Hs. destruct Hs as [Hsrc Hdc]. apply negb_true_iff in Hdc.
      split; [destruct src; try discriminate; reflexivity|].
      intros s' Hin. pose proof (existsb_false Hac Hin). pose proof (existsb_false Hdc Hin).
      destruct s'; try discriminate; reflexivity. }
  destruct H as (-> & Hok). apply steps_preserve, forallb_forall. exact Hok.
Qed.

Lemma s_state_safe : forall p, safe_a p = true -> s_state p = a_val p.
Proof.
  intros p Hs. unfold s_state. destruct (is_direct (a_final p)); [reflexivity|].
  unfold safe_a in Hs. apply andb_true_iff in Hs. destruct Hs as [Hac _]. apply negb_true_iff in Hac.
  apply s_steps_id. exact Hac.
Qed.

Lemma of_ret_encode : forall c, of_ret (RStruct (encode c)) = inl (encode c).
Proof. intro c. unfold of_ret. rewrite encode_flags. reflexivity. Qed.
Lemma return_cons_encode : forall bi c, (c_payload c <> PNone \/ bi = true) -> m_return_cons bi c = RStruct (encode c).
Proof. intros bi [v pl] [H|H]; destruct pl; simpl in *; try congruence; subst; reflexivity. Qed.

Definition is_obs (f : final) : bool := match f with FinObs | FinVal => true | _ => false end.

Lemma good_of_safe : forall p, safe_a p = true -> is_obs (a_final p) = false ->
  good_for_match (c_payload (a_val p)) = true.
Proof.
  intros [bi [v pl] src steps fin arms] Hs Ho. unfold safe_a in Hs. simpl in *.
  apply andb_true_iff in Hs. destruct Hs as [_ Hs].
  destruct pl as [|z|s]; simpl; [reflexivity|reflexivity|].
  apply andb_true_iff in Hs. destruct Hs as [Hne _]. exact Hne.
Qed.

Lemma scrutinee_of_safe : forall p st, safe_a p = true -> is_obs (a_final p) = false ->
  (is_direct (a_final p) = false -> st = encode (a_val p)) ->
  m_scrutinee p st = inl (encode (a_val p)).
Proof.
  intros [bi [v pl] src steps fin arms] st Hs Ho Hst. unfold safe_a in Hs. simpl in *.
  apply andb_true_iff in Hs. destruct Hs as [_ Hs]. unfold m_scrutinee. simpl.
  destruct fin; simpl in *; try discriminate.
  - rewrite (Hst eq_refl). rewrite encode_flags. reflexivity.
  - rewrite (Hst eq_refl). destruct pl as [|z|s]; [discriminate| |];
      (rewrite call_idf_encode by discriminate); apply of_ret_encode.
  - rewrite return_cons_encode; [apply of_ret_encode|]. simpl.
    destruct pl as [|z|s]; [right; exact Hs|left; congruence|left; congruence].
  - unfold m_return_var. rewrite encode_flags. apply of_ret_encode.
  - destruct pl as [|z|s]; [discriminate|reflexivity|reflexivity].
Qed.

Lemma transport_refines_l : forall p, safe_a p = true -> m_run_a p = s_run_a p.
Proof.
  intros p Hs. pose proof (s_state_safe p Hs) as Hss.
  unfold m_run_a, s_run_a. rewrite Hss.
  destruct (is_obs (a_final p)) eqn:Ho.
  - assert (Hd : is_direct (a_final p) = false) by (destruct (a_final p); simpl in *; congruence).
    rewrite (m_state_safe p Hs Hd). rewrite Hd.
    destruct p as [bi [v pl] src steps fin arms]. simpl in *.
    unfold safe_a in Hs. simpl in Hs. apply andb_true_iff in Hs. destruct Hs as [_ Hs].
    destruct fin; simpl in Ho; try discriminate.
    + rewrite encode_flags, variant_encode. reflexivity.
    + rewrite encode_flags. destruct pl as [|z|s]; simpl in *; [discriminate|reflexivity|].
      apply andb_true_iff in Hs. destruct Hs as [Hne _]. destruct s; [discriminate|reflexivity].
  - rewrite (scrutinee_of_safe p (m_state p) Hs Ho (m_state_safe p Hs)).
    rewrite variant_encode. rewrite (match_refines_l _ _ (good_of_safe p Hs Ho)).
    destruct (a_final p); simpl in Ho; try discriminate; reflexivity.
Qed.

(* the enum used by the witnesses of the recorded defects *)
Definition arms_ab : list pattern := [PatVar (s2l "A") BName; PatVar (s2l "B") BName; PatVar (s2l "C") BNo].
