(* C13 - struct / enum payloads (associated_value) and statements executed again in one scope (families L, LT, LQ of
   ModelNest.v): what a built Variable looks like and reads back to, the scalar model inside the nested one, the
   transports on built values, a loop body as a function of its own value (c_iter), the match on nested values, and the
   conforming fragment of each family; the programs used as witnesses. *)
From Coq Require Import List ZArith Bool String.
From Cb Require Import C13.Model C13.ModelNest C13.MatchLemmas C13.Transport C13.Chain C13.Try.
Import ListNotations.
Local Open Scope Z_scope.

Lemma build_some_shape : forall x q, exists i s a, n_build (VE x (Some q)) = NVEnum x true i s a.
Proof. intros x q. destruct q; simpl; eauto. destruct (n_arg_of_var _); simpl; eauto. Qed.
Lemma build_enum_shape : forall x p, exists h i s a, n_build (VE x p) = NVEnum x h i s a.
Proof. intros x [q|]; [|simpl; eauto]. destruct (build_some_shape x q) as (i & s & a & E). eauto. Qed.
Lemma build_is_enum : forall x p, n_is_enum (n_build (VE x p)) = true.
Proof. intros x p. destruct (build_enum_shape x p) as (h & i & s & a & E). rewrite E. reflexivity. Qed.
Lemma build_variant : forall x p, n_variant (n_build (VE x p)) = x.
Proof. intros x p. destruct (build_enum_shape x p) as (h & i & s & a & E). rewrite E. reflexivity. Qed.
Lemma arg_of_built : forall x q, n_arg_of_var (n_build (VE x (Some q))) = TAObj (n_build (VE x (Some q))).
Proof. intros x q. destruct (build_some_shape x q) as (i & s & a & E). rewrite E. reflexivity. Qed.

(* the value the argument expression written for payload q evaluates to, as a binding sees it *)
Definition bound_of (q : nval) : bound :=
  match q with
  | VI z => BdInt z
  | VS s => BdStr s
  | VR fs => BdObj (NVRec fs)
  | VE _ _ => BdObj (n_build q)
  end.

Lemma build_fields : forall x q, good_nv q = true ->
  exists i s a, n_build (VE x (Some q)) = NVEnum x true i s a /\ n_bound i s a = bound_of q.
Proof.
  intros x q Hg. destruct q as [z|s|fs|y [q'|]]; simpl in *.
  - exists z, [], None. split; reflexivity.
  - exists 0, s, None. split; [reflexivity|]. unfold n_bound. destruct s; [discriminate|reflexivity].
  - exists 0, [], (Some (NVRec fs)). split; reflexivity.
  - pose proof (arg_of_built y q') as E. simpl in E. rewrite E.
    exists 0, [], (Some (n_build (VE y (Some q')))). split; reflexivity.
  - discriminate.
Qed.

(* round trip through the channels: every payload kind, every depth (structural recursion through the `option`) *)
Lemma decode_build_payload : forall q, good_nv q = true ->
  forall x, n_decode (n_build (VE x (Some q))) = VE x (Some q).
Proof.
  fix IH 1. intros [z|s|fs|y [q'|]] Hg x; simpl in *; try reflexivity; try discriminate.
  - destruct s; [discriminate|reflexivity].
  - pose proof (arg_of_built y q') as E. simpl in E. rewrite E. cbn [n_cons_decl n_decode].
    specialize (IH q' Hg y). simpl in IH. rewrite IH. reflexivity.
Qed.

(* the scalar model is the nested one without associated_value *)
Lemma build_lift : forall c, n_build (nval_of_cval c) = lift (encode c).
Proof. intros [v p]. destruct p; reflexivity. Qed.
Lemma flat_lift_encode : forall c, flat (lift (encode c)) = encode c.
Proof. intros [v p]. destruct p; reflexivity. Qed.

Lemma lift_decl_from_ret : forall r,
  n_decl_from_ret (match r with RStruct sv => NRObj (lift sv) | RInt => NRInt end) =
  lift (m_decl_from_ret (match r with RStruct sv => if s_enum sv then r else RInt | RInt => RInt end)).
Proof.
  intros [[e v h i s]|]; [|reflexivity]. destruct e; reflexivity.
Qed.

(* lift keeps no field of a Variable that is not an enum: it is faithful on enums and on not_enum *)
Definition canon (st : stored) : Prop := flat (lift st) = st.

(* on Variables without associated_value every transport step is the step of Model.v: each of the two is a case analysis
   on (is an enum, has a payload), so for an enum with either flag, and for not_enum, both sides compute to one Variable -
   st itself, blank, not_enum, or the encoded value an assignment started from *)
Lemma nested_conservative_step : forall st s, canon st -> n_step (lift st) s = lift (m_step st s) /\ canon (m_step st s).
Proof.
  intros [[|] v h i t] s Hc.
  - destruct s, h; (split; [reflexivity|]); try reflexivity; apply flat_lift_encode.
  - change (not_enum = mkS false v h i t) in Hc. rewrite <- Hc.
    destruct s; (split; [reflexivity|]); try reflexivity; apply flat_lift_encode.
Qed.

(* the steps that keep a value whose payload has the given shape intact *)
Definition nstep_ok (v : nval) (s : step) : bool :=
  match s with
  | StAsgCons _ => false
  | StDeclVar => true
  | StDeclCall => match n_payload v with Some (VI _) => true | _ => false end
  | _ => match n_payload v with None => false | Some _ => true end
  end.

Lemma eval_var_built : forall x q, n_eval_var (n_build (VE x (Some q))) = Some (n_build (VE x (Some q))).
Proof. intros x q. destruct (build_some_shape x q) as (i & s & a & E). rewrite E. reflexivity. Qed.
Lemma pass_built : forall x q, n_pass (n_build (VE x (Some q))) = n_build (VE x (Some q)).
Proof. intros. unfold n_pass. rewrite eval_var_built. reflexivity. Qed.
Lemma call_idf_built : forall x q, n_call_idf (n_build (VE x (Some q))) = NRObj (n_build (VE x (Some q))).
Proof. intros. unfold n_call_idf. rewrite pass_built. unfold n_return_var. rewrite build_is_enum. reflexivity. Qed.

Lemma nstep_preserves : forall x p s, nstep_ok (VE x p) s = true -> n_step (n_build (VE x p)) s = n_build (VE x p).
Proof.
  intros x p s Hok. destruct s; simpl in Hok.
  - unfold n_step, n_decl_from_var. rewrite build_is_enum. reflexivity.
  - destruct p as [[z| | |]|]; try discriminate. reflexivity.
  - destruct p as [q|]; [|discriminate]. unfold n_step, n_assign_from_var. rewrite eval_var_built. reflexivity.
  - destruct p as [q|]; [|discriminate]. unfold n_step. rewrite call_idf_built. reflexivity.
  - discriminate.
  - destruct p as [q|]; [|discriminate]. apply pass_built.
Qed.

(* without the erase the declaration refreshes the scalar fields of the Variable it finds and keeps its associated_value *)
Lemma declare_keep_l : forall old x h i s a,
  m_declare false (Some old) (NVEnum x h i s a) = NVEnum x h i s (n_assoc old).
Proof. reflexivity. Qed.

(* what one step does to (w, current variable) - no slot in sight *)
Definition c_step (wc : nvar * nvar) (s : lstep) : nvar * nvar :=
  let '(w, cur) := wc in
  match s with
  | LS x => (w, n_step cur x)
  | LOutVar => let r := n_assign_from_var w cur in (r, r)
  | LOutCall => let r := n_assign_from_ret w (n_call_idf cur) in (r, r)
  end.
Definition proj (st : lstate) : nvar * nvar := (ls_w st, ls_cur st).

Lemma l_step_proj : forall st s, proj (l_step true st s) = c_step (proj st) s.
Proof.
  intros [sl w m n cur] s. unfold proj. destruct s as [x| |]; [destruct x|..]; simpl;
    unfold l_declare, l_assign; simpl; destruct m; reflexivity.
Qed.
Lemma l_steps_proj : forall steps st, proj (fold_left (l_step true) steps st) = fold_left c_step steps (proj st).
Proof.
  induction steps as [|s rest IH]; intro st; simpl; [reflexivity|]. rewrite IH, l_step_proj. reflexivity.
Qed.

(* the value the consumer sees and the new w, as functions of the old w and this execution's own value only *)
Definition c_iter (w : nvar) (p : progL) (v : nval) : nvar * (list nev * exitc) :=
  if is_direct (pl_final p) then (w, l_consume p v NVInt)
  else let wc := fold_left c_step (pl_steps p) (w, n_source (pl_builtin p) v (pl_src p)) in
       (fst wc, l_consume p v (snd wc)).

Lemma iter_history_free_l : forall sl w p v,
  (snd (fst (l_iter true sl w p v)), snd (l_iter true sl w p v)) = c_iter w p v.
Proof.
  intros sl w p v. unfold l_iter, c_iter. destruct (is_direct (pl_final p)); [reflexivity|].
  pose proof (l_steps_proj (pl_steps p) (l_source true sl w p v)) as H.
  change (proj (l_source true sl w p v)) with (w, n_source (pl_builtin p) v (pl_src p)) in H.
  cbv zeta. rewrite <- H. reflexivity.
Qed.

Fixpoint c_loop (p : progL) (k : nat) (w : nvar) (vals : list nval) : list nev * exitc :=
  match vals with
  | [] => ([NEDone], XOk)
  | v :: rest => let '(w', o) := c_iter w p v in then_n (NEIter k :: fst o, snd o) (c_loop p (S k) w' rest)
  end.
Lemma loop_slots_irrelevant : forall p vals k sl w, l_loop true p k sl w vals = c_loop p k w vals.
Proof.
  induction vals as [|v rest IH]; intros k sl w; simpl; [reflexivity|].
  pose proof (iter_history_free_l sl w p v) as H.
  destruct (l_iter true sl w p v) as [[sl' w'] o]. simpl in H. rewrite <- H. rewrite IH. reflexivity.
Qed.

(* the statement around a nested value looks at which arm the search found and at whether it bound something, never at
   what it bound (the body reads the payload itself): arm_shape forgets the bound value *)
Definition arm_shape (a : armres) : armres :=
  match a with ArmOk k VNo => ArmOk k VNo | ArmOk k _ => ArmOk k (VInt 0) | x => x end.

Lemma match_from_shape : forall arms sv c k, s_variant sv = c_variant c ->
  s_has sv = match c_payload c with PNone => false | _ => true end ->
  arm_shape (mech_match_from k sv arms) = arm_shape (spec_match_from k c arms).
Proof.
  induction arms as [|a rest IH]; intros sv c k Hv Hh; simpl; [reflexivity|].
  destruct a as [v b|]; [|reflexivity]. rewrite Hv. destruct (str_eqb (c_variant c) v).
  - unfold bind_payload, spec_bind. rewrite Hh. destruct b; try reflexivity.
    destruct (c_payload c); try reflexivity; destruct (is_empty (s_str sv)); reflexivity.
  - apply IH; assumption.
Qed.

Lemma by_shape : forall (A : Type) (a1 a2 : armres) (x y : A) (f g : nat -> A), arm_shape a1 = arm_shape a2 ->
  match a1 with NoArm => x | ArmUnbound _ => y | ArmOk k VNo => f k | ArmOk k _ => g k end =
  match a2 with NoArm => x | ArmUnbound _ => y | ArmOk k VNo => f k | ArmOk k _ => g k end.
Proof.
  intros A a1 a2 x y f g H. destruct a1 as [k1 b1|k1|], a2 as [k2 b2|k2|]; try destruct b1; try destruct b2;
    simpl in H; try discriminate; try reflexivity; inversion H; reflexivity.
Qed.

(* the body of an arm: the binding of a built value is consumed like the value itself *)
Lemma consume_bound_of : forall t path q, good_nv q = true -> consume t path (bound_of q) = s_consume t path q.
Proof.
  induction t as [| | |a IHa|n1 a IHa n2|a IHa e IHe|n1 a IHa n2 b IHb n3 c IHc n4]; intros path q Hg.
  1-2: destruct q; reflexivity.
  1: destruct q as [z|s|fs|x p]; try reflexivity;
     cbn [bound_of consume s_consume]; destruct (build_enum_shape x p) as (h & i & s & a & E); rewrite E; reflexivity.
  (* an enum type: the binding is the built inner value; whichever arm names its variant consumes its payload *)
  all: destruct q as [z|s|fs|x [q'|]]; try reflexivity; simpl in Hg;
       destruct (build_fields x q' Hg) as (i & s & asc & E & Eb);
       cbn [bound_of consume s_consume]; rewrite E; unfold sub_arm, s_sub; rewrite Eb.
  - destruct (str_eqb x (s2l "Some")); [apply IHa; exact Hg|reflexivity].
  - destruct (str_eqb x n1); [apply IHa; exact Hg|reflexivity].
  - destruct (str_eqb x (s2l "Ok")); [apply IHa; exact Hg|].
    destruct (str_eqb x (s2l "Err")); [apply IHe; exact Hg|reflexivity].
  - destruct (str_eqb x n1); [apply IHa; exact Hg|].
    destruct (str_eqb x n2); [apply IHb; exact Hg|].
    destruct (str_eqb x n3); [apply IHc; exact Hg|reflexivity].
Qed.

(* a value without payload never reaches an arm body through a binding *)
Lemma spec_match_none : forall arms c k i b, c_payload c = PNone -> spec_match_from k c arms = ArmOk i b -> b = VNo.
Proof.
  induction arms as [|a rest IH]; intros c k i b Hc H; simpl in H; [discriminate|].
  destruct a as [v bs|]; [|injection H as _ <-; reflexivity].
  destruct (str_eqb (c_variant c) v); [|exact (IH c (S k) i b Hc H)].
  unfold spec_bind in H. rewrite Hc in H. destruct bs; try discriminate; injection H as _ <-; reflexivity.
Qed.

(* the whole match statement on a built value = the property's own match on the value: the arm search of Model.v on the
   flat fields, then the body by the declared payload type - ANY arm list, any type, any depth *)
Lemma match_run_refines : forall t v arms, good_top v = true ->
  n_match_run t (n_build v) arms = s_match_run t v arms.
Proof.
  intros t [z|s|fs|x [q|]] arms Hg; simpl in Hg; try discriminate.
  - destruct (build_fields x q Hg) as (i & s & asc & E & Eb). rewrite E.
    unfold n_match_run, s_match_run, mech_match, spec_match. cbn [n_payload n_vname flat].
    erewrite by_shape by (apply (match_from_shape arms _ (shape_cval (VE x (Some q)))); reflexivity).
    rewrite Eb. destruct (spec_match_from 0 (shape_cval (VE x (Some q))) arms) as [k b| |]; try reflexivity.
    destruct b; try reflexivity; apply consume_bound_of; exact Hg.
  - cbn [n_build n_cons_decl]. unfold n_match_run, s_match_run, mech_match, spec_match. cbn [n_payload n_vname flat].
    erewrite by_shape by (apply (match_from_shape arms _ (shape_cval (VE x None))); reflexivity).
    destruct (spec_match_from 0 (shape_cval (VE x None)) arms) as [k b| |] eqn:Em; try reflexivity.
    rewrite (spec_match_none arms (shape_cval (VE x None)) 0%nat k b eq_refl Em). reflexivity.
Qed.

Definition lstep_ok (v : nval) (s : lstep) : bool :=
  match s with
  | LS x => nstep_ok v x
  | _ => match n_payload v with None => false | Some _ => true end
  end.

Lemma c_steps_preserve : forall steps x p w, forallb (lstep_ok (VE x p)) steps = true ->
  snd (fold_left c_step steps (w, n_build (VE x p))) = n_build (VE x p).
Proof.
  intros steps x p w. apply (fold_left_inv (fun wc => snd wc = n_build (VE x p))); [|reflexivity].
  intros [w' cur] s Hcur Hs. cbn [snd] in Hcur. subst cur.
  destruct s as [s| |]; cbn [c_step lstep_ok n_payload snd] in *.
  - apply nstep_preserves. exact Hs.
  - destruct p as [q|]; [|discriminate]. unfold n_assign_from_var. rewrite eval_var_built. reflexivity.
  - destruct p as [q|]; [|discriminate]. rewrite call_idf_built. reflexivity.
Qed.

Definition is_dc_or_ac (s : lstep) : bool := ls_is is_asgcons s || ls_is is_declcall s.

(* every step but the assignment of a constructor keeps a value with a payload; the declaration from a call keeps only
   an integer payload *)
Lemma lstep_ok_some : forall x q s, ls_is is_asgcons s = false ->
  (ls_is is_declcall s = false \/ exists z, q = VI z) -> lstep_ok (VE x (Some q)) s = true.
Proof.
  intros x q [s| |] Ha Hd; try reflexivity. destruct s; try reflexivity; try discriminate.
  destruct Hd as [Hd|[z ->]]; [discriminate|reflexivity].
Qed.

(* safe_lval admits, for each shape of payload, a source that stores the value whole and steps that keep it *)
Lemma steps_ok_of_safe : forall p x pl, existsb (ls_is is_asgcons) (pl_steps p) = false ->
  safe_lval p (VE x pl) = true -> is_direct (pl_final p) = false ->
  forallb (lstep_ok (VE x pl)) (pl_steps p) = true /\ n_source (pl_builtin p) (VE x pl) (pl_src p) = n_build (VE x pl).
Proof.
  intros p x pl Hac Hs Hd. unfold safe_lval in Hs. apply andb_true_iff in Hs. destruct Hs as [_ Hs].
  cbn [n_payload] in Hs. destruct pl as [q|].
  - assert (Hq : (exists z, q = VI z) \/
                 (pl_src p = SrcCons /\ existsb (ls_is is_declcall) (pl_steps p) = false)).
    { destruct q as [z|s|fs|y q']; [left; exists z; reflexivity|right..].
      1: rewrite Hd in Hs; simpl in Hs.
      2-3: destruct (pl_final p); try discriminate Hd.
      all: apply andb_true_iff in Hs; destruct Hs as [Hsrc Hdc]; apply negb_true_iff in Hdc;
           (split; [destruct (pl_src p); try discriminate; reflexivity|exact Hdc]). }
    split.
    + apply forallb_forall. intros s Hin. apply lstep_ok_some; [exact (existsb_false Hac Hin)|].
      destruct Hq as [Hq|[_ Hdc]]; [right; exact Hq|left; exact (existsb_false Hdc Hin)].
    + destruct Hq as [[z ->]|[-> _]]; [destruct (pl_src p); reflexivity|reflexivity].
  - assert (Hs' : forallb (ls_is is_declvar) (pl_steps p) = true /\
                  match pl_src p with SrcCons | SrcCallVar => true | SrcCall => pl_builtin p end = true).
    { destruct (pl_final p); simpl in Hd; try discriminate; apply andb_true_iff in Hs; exact Hs. }
    destruct Hs' as [Hdv Hsrc]. split.
    + apply forallb_forall. intros s Hin. rewrite forallb_forall in Hdv. specialize (Hdv s Hin).
      destruct s as [s| |]; try discriminate. destruct s; try discriminate. reflexivity.
    + destruct (pl_src p); try reflexivity. simpl in Hsrc. unfold n_source, n_return_cons. simpl. rewrite Hsrc. reflexivity.
Qed.

Lemma lossy_scalar : forall x q, match q with VI _ | VS _ => True | _ => False end ->
  n_cons_lossy x (Some (n_arg q)) = n_build (VE x (Some q)).
Proof. intros x q H. destruct q; try contradiction; reflexivity. Qed.

Lemma scrutinee_of_safe_l : forall p x pl cur, safe_lval p (VE x pl) = true ->
  match pl_final p with FinObs | FinVal => False | _ => True end ->
  (is_direct (pl_final p) = false -> cur = n_build (VE x pl)) ->
  l_scrutinee p (VE x pl) cur = inl (n_build (VE x pl)).
Proof.
  intros [bi ty src steps fin arms vals wi] x pl cur Hs Hf Hcur. unfold safe_lval in Hs.
  apply andb_true_iff in Hs. destruct Hs as [Hg Hs].
  cbn [n_payload pl_final pl_builtin pl_steps pl_src] in *. unfold l_scrutinee. cbn [pl_final pl_builtin].
  destruct fin; try contradiction; cbn [is_direct] in Hcur.
  - rewrite (Hcur eq_refl), build_is_enum. reflexivity.
  - rewrite (Hcur eq_refl). destruct pl as [q|].
    + rewrite call_idf_built. unfold n_of_ret. rewrite build_is_enum. reflexivity.
    + discriminate Hs.
  - unfold n_return_cons. cbn [n_payload n_vname]. destruct pl as [q|].
    + destruct q; try discriminate Hs; reflexivity.
    + rewrite Hs. reflexivity.
  - unfold n_return_var. rewrite build_is_enum. unfold n_of_ret. rewrite build_is_enum. reflexivity.
  - cbn [n_payload n_vname]. destruct pl as [q|]; [|discriminate Hs]. destruct q; try discriminate Hs; reflexivity.
Qed.

(* the consumer of a conforming execution, looking at the built value (or at nothing, when it builds its own
   scrutinee), prints what the Spec prints for the value *)
Lemma consume_safe : forall p x pl cur, safe_lval p (VE x pl) = true ->
  match pl_final p with FinVal => false | _ => true end = true ->
  (is_direct (pl_final p) = false -> cur = n_build (VE x pl)) ->
  l_consume p (VE x pl) cur = s_iter p (VE x pl).
Proof.
  intros [bi ty src steps fin arms vals wi] x pl cur Hs Hfv Hcur.
  assert (Hg : good_top (VE x pl) = true) by (unfold safe_lval in Hs; apply andb_true_iff in Hs; tauto).
  unfold l_consume, s_iter. cbn [pl_final pl_ty pl_arms pl_steps] in *.
  destruct fin; try discriminate Hfv;
    [rewrite (scrutinee_of_safe_l _ x pl cur Hs I Hcur), match_run_refines by exact Hg; reflexivity..|].
  rewrite (Hcur eq_refl), build_is_enum, build_variant. reflexivity.
Qed.

Lemma iter_refines : forall p w v, existsb (ls_is is_asgcons) (pl_steps p) = false ->
  match pl_final p with FinVal => false | _ => true end = true -> safe_lval p v = true ->
  snd (c_iter w p v) = s_iter p v.
Proof.
  intros p w v Hac Hfv Hs. assert (Hg : good_top v = true).
  { unfold safe_lval in Hs. apply andb_true_iff in Hs. tauto. }
  destruct v as [z|s|fs|x pl]; try discriminate.
  unfold c_iter. destruct (is_direct (pl_final p)) eqn:Hd; cbn [snd].
  - apply consume_safe; [exact Hs|exact Hfv|congruence].
  - destruct (steps_ok_of_safe p x pl Hac Hs Hd) as [Hok Hsrc]. rewrite Hsrc, c_steps_preserve by exact Hok.
    apply consume_safe; [exact Hs|exact Hfv|reflexivity].
Qed.

Lemma c_loop_refines : forall p vals k w, existsb (ls_is is_asgcons) (pl_steps p) = false ->
  match pl_final p with FinVal => false | _ => true end = true -> forallb (safe_lval p) vals = true ->
  c_loop p k w vals = s_loop p k vals.
Proof.
  induction vals as [|v rest IH]; intros k w Hac Hfv Hs; simpl in *; [reflexivity|].
  apply andb_true_iff in Hs. destruct Hs as [H1 H2].
  pose proof (iter_refines p w v Hac Hfv H1) as E. destruct (c_iter w p v) as [w' o]. simpl in E. subst o.
  rewrite IH by assumption. reflexivity.
Qed.

Definition ty_u : nty := TUsr (s2l "A") TInt (s2l "P") TRec (s2l "R") (TRes TInt TStr) (s2l "N").
Definition arms_u : list pattern :=
  [PatVar (s2l "A") BName; PatVar (s2l "P") BName; PatVar (s2l "R") BName; PatVar (s2l "N") BNo].
Definition w_u : cval := mkC (s2l "A") (PInt 1).
Definition v_p (a b : Z) : nval := VE (s2l "P") (Some (VR [SInt a; SInt b])).
Definition v_r_err (s : str) : nval := VE (s2l "R") (Some (VE (s2l "Err") (Some (VS s)))).
Definition v_r_ok (z : Z) : nval := VE (s2l "R") (Some (VE (s2l "Ok") (Some (VI z)))).

(* the shape of seeded/C13-4/demo.cb: the same declaration executed with a struct, an enum, a scalar, a struct, an enum
   payload; the code (erase before emplace) prints every execution's own payload; without the erase every later execution
   shows the nested payload of the first one that had one *)
Definition loop_demo : progL :=
  mkPL false ty_u SrcCons [LS StDeclVar; LS StParam] FinVar arms_u
       [v_p 3 4; v_r_err (s2l "bad"); VE (s2l "A") (Some (VI 5)); v_p 7 8; v_r_ok 9] w_u.
Lemma loop_example_l :
  safe_l loop_demo = true /\
  m_run_l loop_demo =
    mkNR [NEIter 0; NEArm [1%nat] (LfRec [SInt 3; SInt 4]); NEAfter; NEBack 1;
          NEIter 1; NEArm [2%nat; 1%nat] (LfStr (s2l "bad")); NEAfter; NEBack 1;
          NEIter 2; NEArm [0%nat] (LfInt 5); NEAfter; NEBack 1;
          NEIter 3; NEArm [1%nat] (LfRec [SInt 7; SInt 8]); NEAfter; NEBack 1;
          NEIter 4; NEArm [2%nat; 0%nat] (LfInt 9); NEAfter; NEBack 1; NEDone] XOk.
Proof. vm_compute. split; reflexivity. Qed.
Lemma loop_without_erase_refuted_l :
  nr_events (m_run_l_with false loop_demo) =
    [NEIter 0; NEArm [1%nat] (LfRec [SInt 3; SInt 4]); NEAfter; NEBack 1;
     NEIter 1] /\ nr_exit (m_run_l_with false loop_demo) = XNotEnum /\
  m_run_l_with false loop_demo <> s_run_l loop_demo.
Proof. vm_compute. repeat split. discriminate. Qed.

Lemma good_top_cval : forall c, good_top (nval_of_cval c) = good_for_match (c_payload c).
Proof. intros [v [|z|s]]; reflexivity. Qed.

Lemma lt_loop_refines : forall p ops k slot,
  forallb (fun o => match lt_eval p o with inl (TVStr []) => false | _ => true end) ops = true ->
  lt_loop true p k slot ops = s_lt_loop p k ops.
Proof.
  induction ops as [|o rest IH]; intros k slot H; simpl in *; [reflexivity|].
  apply andb_true_iff in H. destruct H as [H1 H2].
  unfold m_declare. simpl.
  rewrite try_like_spec, <- build_lift, match_run_refines by (rewrite good_top_cval; exact (spec_try_good _ H1)).
  rewrite IH by exact H2. reflexivity.
Qed.

(* what ? reads in an execution of the loop body: the returned value itself, or the variable declared from it - the
   slot the previous execution left plays no part *)
Lemma lq_operand_eq : forall o slot sv,
  match o with
  | OpCall => (slot, sv)
  | OpVar => let r := m_declare true slot (lift (m_decl_from_ret (RStruct sv))) in (Some r, flat r)
  end = (match o with OpCall => slot | OpVar => Some (lift (q_operand OpVar sv)) end, q_operand o sv).
Proof. intros [|] slot sv; reflexivity. Qed.

(* the function holding the loop returns the stored form of what the Spec says it returns, a value the match in the
   caller reads back *)
Lemma lq_loop_refines : forall p outs k slot, safe_lq (mkLQ (lq_kind p) (lq_ctx p) (lq_opnd p) outs) = true ->
  lq_loop true p k slot outs = (fst (s_lq_loop p k outs), inl (encode (snd (s_lq_loop p k outs)))) /\
  good_for_match (c_payload (snd (s_lq_loop p k outs))) = true.
Proof.
  induction outs as [|o rest IH]; intros k slot H; [destruct (lq_kind p); split; reflexivity|].
  unfold safe_lq in H. cbn [lq_outs lq_kind lq_opnd forallb] in H. apply andb_true_iff in H. destruct H as [H1 H2].
  cbn [lq_loop s_lq_loop]. cbv zeta. rewrite lq_operand_eq. destruct o as [z|e]; cbn [lq_value].
  - (* Ok / Some: ? yields z, and every context but `return` goes on with the next execution *)
    rewrite qmark_ok_int. pose proof (proj2 (IH (S k) None H2)) as Hg.
    destruct (lq_ctx p); try (split; reflexivity);
      rewrite (proj1 (IH (S k) _ H2)); destruct (s_lq_loop p (S k) rest); exact (conj eq_refl Hg).
  - (* Err / None: ? hands the very value on *)
    destruct (lq_kind p); [|destruct (lq_opnd p); split; reflexivity].
    apply andb_true_iff in H1. destruct H1 as [Hg Ho].
    destruct (lq_opnd p); destruct e as [|z|[|c s]]; try discriminate; split; reflexivity.
Qed.
