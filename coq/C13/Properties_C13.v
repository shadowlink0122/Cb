(* C13 - the property theorems. Statements are about the Mech model of the pinned code (Model.v:
   mech_match, encode/decode, m_step, m_chain, m_qmark, classify, try_like, m_run_a/q/t) and its relation
   to the Spec (spec_match, s_step, s_chain, spec_try, s_run_a/q/t). The lemmas they rest on: MatchLemmas.v (the arm
   loop), Transport.v (family A), Chain.v (family Q), Try.v (family T), Suite.v (family M), Seq.v (ModelSeq.v: families R
   and S - state carried between evaluations), Nest.v (ModelNest.v: struct / enum payloads and statements executed again
   in one scope - families L, LT, LQ). *)
From Coq Require Import List ZArith Bool String Lia.
From Cb Require Import C13.Model C13.ModelSeq C13.ModelNest C13.MatchLemmas C13.Transport C13.Chain C13.Try C13.Suite C13.Seq C13.Nest.
Import ListNotations.
Local Open Scope Z_scope.

(* the arm the loop runs is exactly the first one whose pattern is `_` or names the stored variant -
   for every stored value and every arm list *)
Theorem match_first_arm : forall sv arms i,
  arm_index (mech_match sv arms) = Some i <->
  ((exists p, nth_error arms i = Some p /\ arm_matches sv p = true) /\
   (forall j p, (j < i)%nat -> nth_error arms j = Some p -> arm_matches sv p = false)).
Proof.
  intros sv arms i. unfold mech_match. rewrite match_from_first. split.
  - intros (j & -> & H). exact H.
  - intro H. exists i. split; [reflexivity|exact H].
Qed.
Print Assumptions match_first_arm.

(* a named binding receives the payload the channels decode to (and only a value that has a payload binds) *)
Theorem match_binds_decoded_payload : forall sv arms i b v,
  mech_match sv arms = ArmOk i b -> nth_error arms i = Some (PatVar v BName) ->
  b = bval_of_payload (decode_payload sv) /\ s_has sv = true.
Proof. intros sv arms i b v H Hn. exact (match_from_binds arms sv 0%nat i b H i v eq_refl Hn). Qed.
Print Assumptions match_binds_decoded_payload.

(* no arm applies <-> the loop reports NoArm; the program then stops with the non-exhaustive error and prints
   nothing, not even the statement after the match *)
Theorem match_no_arm_fails :
  (forall sv arms, mech_match sv arms = NoArm <-> (forall p, In p arms -> arm_matches sv p = false)) /\
  (forall p, a_final p = FinVar -> s_enum (m_state p) = true ->
     (forall q, In q (a_arms p) -> arm_matches (m_state p) q = false) ->
     m_run_a p = mkR [] (XNonExhaustive (s_variant (m_state p)))).
Proof.
  split; [intros; apply match_from_noarm|].
  intros p Hf He Hno. unfold m_run_a, m_scrutinee. rewrite Hf, He.
  unfold mech_match. rewrite (proj2 (match_from_noarm (a_arms p) (m_state p) 0%nat) Hno). reflexivity.
Qed.
Print Assumptions match_no_arm_fails.

(* on every value whose payload the channels can represent (everything but the empty string), the loop is the
   property's own match *)
Theorem match_refines_spec : forall c arms, good_for_match (c_payload c) = true ->
  mech_match (encode c) arms = spec_match c arms.
Proof. exact match_refines_l. Qed.
Print Assumptions match_refines_spec.

(* the selected arm names the stored variant EXACTLY (same length, same bytes, same case) - for every stored value,
   every arm list, whatever other names the list contains *)
Theorem match_selected_name_equal : forall sv arms i v b,
  arm_index (mech_match sv arms) = Some i -> nth_error arms i = Some (PatVar v b) -> v = s_variant sv.
Proof.
  intros sv arms i v b H Hn. apply match_first_arm in H. destruct H as [(p & Hp & Hm) _].
  rewrite Hn in Hp. injection Hp as <-. symmetry. apply str_eqb_eq. exact Hm.
Qed.
Print Assumptions match_selected_name_equal.

(* an arm whose name differs from the stored variant in any way is passed over; in particular an arm whose name is a
   proper prefix of the stored name (arm Key, value KeyUp) and one whose name extends it (arm KeyUp, value Key) *)
Theorem match_skips_other_names :
  (forall sv v b rest k, v <> s_variant sv -> mech_match_from k sv (PatVar v b :: rest) = mech_match_from (S k) sv rest) /\
  (forall sv v t b rest k, s_variant sv = v ++ t -> t <> [] ->
     mech_match_from k sv (PatVar v b :: rest) = mech_match_from (S k) sv rest) /\
  (forall sv v t b rest k, v = s_variant sv ++ t -> t <> [] ->
     mech_match_from k sv (PatVar v b :: rest) = mech_match_from (S k) sv rest).
Proof.
  assert (Hskip : forall sv v b rest k, v <> s_variant sv ->
                  mech_match_from k sv (PatVar v b :: rest) = mech_match_from (S k) sv rest).
  { intros sv v b rest k H. rewrite match_from_cons. cbn [arm_matches].
    destruct (str_eqb (s_variant sv) v) eqn:E; [|reflexivity]. apply str_eqb_eq in E. congruence. }
  assert (Hext : forall v t : str, t <> [] -> v ++ t <> v).
  { intros v t Ht E. apply Ht, (app_inv_head v). rewrite app_nil_r. exact E. }
  split; [exact Hskip|]. split; intros sv v t b rest k H Ht; apply Hskip; rewrite H.
  - intro E. exact (Hext v t Ht (eq_sym E)).
  - exact (Hext _ t Ht).
Qed.
Print Assumptions match_skips_other_names.

(* sequences of match statements packaged as functions (void / returning from inside the arm / expression-bodied arms /
   inside a loop / with a nested match / inline), any functions, any calls: on the conforming fragment Mech = Spec *)
Theorem match_suite_refines_spec_partial : forall p, safe_m p = true -> m_run_m p = s_run_m p.
Proof.
  intros [fns ks] Hs. unfold safe_m in Hs. simpl in Hs. unfold m_run_m, s_run_m. simpl.
  rewrite (run_calls_ext (m_call fns) (s_call fns) ks); [reflexivity|].
  intros k Hin. apply call_refines. rewrite forallb_forall in Hs. apply Hs. exact Hin.
Qed.
Print Assumptions match_suite_refines_spec_partial.

(* what a call prints does not depend on the calls before it (other values met by the same match code, other functions):
   it is m_call of its own function and values; and the first failing call ends the program *)
Theorem match_suite_history_free :
  (forall fns ks1 k ks2, snd (run_prefix (m_call fns) ks1) = XOk ->
     mr_events (m_run_m (mkM fns (ks1 ++ k :: ks2))) =
       fst (run_prefix (m_call fns) ks1) ++ fst (then_ev (m_call fns k) (run_calls (m_call fns) ks2))) /\
  (forall fns ks1 k ks2, snd (run_prefix (m_call fns) ks1) = XOk -> snd (m_call fns k) <> XOk ->
     m_run_m (mkM fns (ks1 ++ k :: ks2)) =
       mkMR (fst (run_prefix (m_call fns) ks1) ++ fst (m_call fns k)) (snd (m_call fns k))).
Proof.
  split; intros fns ks1 k ks2 H; [|intro Hk]; unfold m_run_m; cbn [pm_fns pm_calls]; rewrite run_calls_app; cbn [run_calls].
  - rewrite then_ev_ok by exact H. reflexivity.
  - rewrite (then_ev_stop (m_call fns k)) by exact Hk. rewrite then_ev_ok by exact H. reflexivity.
Qed.
Print Assumptions match_suite_history_free.

(* hj(T::V(p)) - the constructor expression itself as an argument - arrives as an integer (recorded finding) *)
Theorem match_suite_refuted_constructor_argument :
  let p := mkM [mkF MVoid key_arms None] [mkK 0 (mkC (s2l "Key") (PInt 5)) (mkC [] PNone) true] in
  m_run_m p = mkMR [] XNotEnum /\ s_run_m p = mkMR [EM 0 0 (VInt 5); EEnd 0; EDone] XOk.
Proof. vm_compute. split; reflexivity. Qed.
Print Assumptions match_suite_refuted_constructor_argument.

(* the struct-or-integer rule for payload-less literals is a prefix test on the type name *)
Theorem builtin_rule_is_name_prefix : forall tn,
  builtin_of_name tn = true <-> (exists t, tn = s2l "Result" ++ t) \/ (exists t, tn = s2l "Option" ++ t).
Proof. intro tn. unfold builtin_of_name. rewrite orb_true_iff, !is_prefix_app. reflexivity. Qed.
Print Assumptions builtin_rule_is_name_prefix.

(* decode (encode p) = p for PNone, every PInt and every non-empty PStr. Missing: PStr "" *)
Theorem payload_roundtrip_partial : forall v p, p <> PStr [] -> decode (encode (mkC v p)) = mkC v p.
Proof.
  intros v p Hp. destruct p as [|z|s]; try reflexivity.
  destruct s; [congruence|reflexivity].
Qed.
Print Assumptions payload_roundtrip_partial.

(* DESIGN.md section 7 #23: Err("") is stored exactly like Err(0) and read back as 0 *)
Theorem payload_roundtrip_refuted :
  exists c, decode (encode c) <> c /\ c = mkC (s2l "Err") (PStr []) /\ decode (encode c) = mkC (s2l "Err") (PInt 0).
Proof. exists (mkC (s2l "Err") (PStr [])). repeat split. discriminate. Qed.
Print Assumptions payload_roundtrip_refuted.

(* every integer payload - also outside int - is bound unchanged (was refuted before /repo b144e56) *)
Theorem match_binds_long_payload : forall v z arms,
  mech_match (encode (mkC v (PInt z))) (PatVar v BName :: arms) = ArmOk 0 (VInt z).
Proof. intros v z arms. unfold mech_match. simpl. rewrite str_eqb_refl. reflexivity. Qed.
Print Assumptions match_binds_long_payload.

(* any list of the transports that are sound for the payload's shape leaves the stored value untouched:
   declaration from a variable (all shapes); assignment from a variable or a call, argument passing (values
   with a payload); declaration from a call (integer payloads). Missing: see the _refuted theorems *)
Theorem enum_value_preserved_partial : forall steps c, c_payload c <> PStr [] ->
  forallb (step_ok c) steps = true -> fold_left m_step steps (encode c) = encode c.
Proof. intros steps c _. apply steps_preserve. Qed.
Print Assumptions enum_value_preserved_partial.

(* whole programs of the fragment (any type kind, source, step list, consumer, arm list): Mech = Spec *)
Theorem transport_refines_spec_partial : forall p, safe_a p = true -> m_run_a p = s_run_a p.
Proof. exact transport_refines_l. Qed.
Print Assumptions transport_refines_spec_partial.

Theorem enum_value_preserved_refuted_assign_constructor :
  let p := mkA false (mkC (s2l "A") (PInt 7)) SrcCons [StAsgCons (mkC (s2l "B") (PStr (s2l "s")))] FinVar arms_ab in
  r_events (m_run_a p) = [EArm 0 (VInt 7); EAfter] /\ r_events (s_run_a p) = [EArm 1 (VStr (s2l "s")); EAfter].
Proof. vm_compute. split; reflexivity. Qed.
Print Assumptions enum_value_preserved_refuted_assign_constructor.

Theorem enum_value_preserved_refuted_decl_from_call_string :
  let p := mkA false (mkC (s2l "B") (PStr (s2l "s"))) SrcCall [] FinVar arms_ab in
  r_events (m_run_a p) = [EArm 1 (VInt 0); EAfter] /\ r_events (s_run_a p) = [EArm 1 (VStr (s2l "s")); EAfter].
Proof. vm_compute. split; reflexivity. Qed.
Print Assumptions enum_value_preserved_refuted_decl_from_call_string.

Theorem enum_value_preserved_refuted_payloadless :
  let c := mkC (s2l "C") PNone in
  let d := mkC (s2l "A") (PInt 1) in
  m_run_a (mkA false c SrcCons [StParam] FinVar arms_ab) = mkR [] XNotEnum /\
  m_run_a (mkA false c SrcCall [] FinVar arms_ab) = mkR [] (XNonExhaustive []) /\
  r_events (m_run_a (mkA false c SrcCons [StAsgVar d] FinVar arms_ab)) = [EArm 0 (VInt 1); EAfter] /\
  (forall steps src, r_events (s_run_a (mkA false c src steps FinVar arms_ab)) =
                     if existsb is_asgcons steps then r_events (s_run_a (mkA false c src steps FinVar arms_ab))
                     else EArm 2 VNo :: EAfter :: backs (depth_of steps)).
Proof.
  cbv zeta. split; [|split; [|split]]. 1-3: vm_compute; reflexivity.
  intros steps src. destruct (existsb is_asgcons steps) eqn:E; [reflexivity|].
  unfold s_run_a, s_state. simpl. rewrite s_steps_id by exact E. reflexivity.
Qed.
Print Assumptions enum_value_preserved_refuted_payloadless.

(* a chain of any length in which nobody fails and no link discards the value: every `post` line shows
   exactly the payload of the innermost Ok/Some, every function is entered, and the outermost result is that
   Ok/Some. Missing: string payloads (refuted below) *)
Theorem qmark_ok_yields_payload_partial : forall ls k z sel i, ls <> [] -> existsb is_qstmt ls = false ->
  (forall d, (d < List.length ls)%nat -> sel <> (i + d)%nat) ->
  exists evs, m_chain k (PInt z) sel i ls = (evs, inl (encode (mkC (v_ok k) (PInt z)))) /\
              posts_carry z evs /\
              (forall d, (d < List.length ls)%nat -> In (EEnter (i + d)) evs).
Proof.
  intros ls k z sel i Hne Hq Hsel. eexists. split; [apply chain_ok_run; assumption|]. split.
  - intros j b H. apply in_app_or in H. destruct H as [H|H]; [|exact (ok_posts_carry z ls i j b H)].
    apply in_map_iff in H. destruct H as (n & H & _). discriminate.
  - intros d Hd. apply in_or_app. left. apply in_map, in_seq. lia.
Qed.
Print Assumptions qmark_ok_yields_payload_partial.

(* link d+1 of a chain of any length fails (any payload, also ""), whatever the contexts of the links above it
   (declaration, assignment, return operand, binary operand, expression statement) and whether they apply ? to the
   call or to a variable declared from it (side condition above_ok, discharged below): the transcript is exactly the
   d+1 `enter` lines - no statement after any ? runs - and the outermost function returns the very stored value
   the failing link built. Missing (not modelled, recorded finding): e? inside println/call arguments *)
Theorem qmark_err_returns_same_partial : forall ls k okp d i, (d < List.length ls)%nat -> above_ok k ls d ->
  m_chain k okp (i + d) i ls =
    (enters i (S d), match nth_error ls d with Some l => inl (encode (fail_cval k l)) | None => inr XUnmodelled end).
Proof.
  induction ls as [|l rest IH]; intros k okp d i Hd Hab; simpl in Hd; [lia|].
  destruct d as [|d'].
  - simpl. rewrite Nat.add_0_r, Nat.eqb_refl. reflexivity.
  - cbn [m_chain]. assert (Hne : Nat.eqb (i + S d') i = false) by (apply Nat.eqb_neq; lia).
    rewrite Hne.
    destruct rest as [|l2 rest2]; [simpl in Hd; lia|].
    replace (i + S d')%nat with (S i + d')%nat by lia.
    rewrite (IH k okp d' (S i)); [|simpl in *; lia|].
    + cbn [nth_error]. destruct (nth_error (l2 :: rest2) d') as [lf|] eqn:En.
      * (* e? on the Err/None from below rebuilds the very same stored value, in every context *)
        rewrite (qmark_fail k l lf) by (apply (Hab lf En 0%nat l); [lia|reflexivity]).
        rewrite enters_S. destruct (l_ctx l); reflexivity.
      * apply nth_error_None in En. simpl in *. lia.
    + intros lf Hlf j l' Hj Hl'. apply (Hab lf Hlf (S j) l'); [lia|exact Hl'].
Qed.
Print Assumptions qmark_err_returns_same_partial.

(* the side condition above_ok (the operand form of every link above the failing one keeps the failing value) holds
   whenever all those links apply ? to the call itself, and - for operands that are variables declared from the call -
   whenever the chain is an Option chain or the failing payload is an integer. Missing: Err(string) read through a
   variable (recorded finding C13-decl-from-call-drops-string, witness below) *)
Theorem qmark_err_side_condition :
  (forall k ls d, (forall l, In l ls -> l_opnd l = OpCall) -> above_ok k ls d) /\
  (forall k ls d, (k = KOption \/ forall lf, nth_error ls d = Some lf -> is_strp (l_err lf) = false) -> above_ok k ls d).
Proof.
  split.
  - intros k ls d H lf _ j l _ Hl. unfold opnd_ok. rewrite (H l (nth_error_In _ _ Hl)). reflexivity.
  - intros k ls d H lf Hlf j l _ _. unfold opnd_ok. destruct (l_opnd l); [reflexivity|].
    destruct H as [->|H]; [reflexivity|]. destruct k; [|reflexivity]. rewrite (H lf Hlf). reflexivity.
Qed.
Print Assumptions qmark_err_side_condition.

Theorem qmark_err_returns_same_refuted_variable_string :
  let p := mkQ KResult [mkL QDecl (PInt 1) OpVar; mkL QDecl (PStr (s2l "e2")) OpCall] (PInt 5) 2 in
  m_run_q p = mkR [EEnter 1; EEnter 2; EArm 1 (VInt 0); EAfter] XOk /\
  s_run_q p = mkR [EEnter 1; EEnter 2; EArm 1 (VStr (s2l "e2")); EAfter] XOk.
Proof. vm_compute. split; reflexivity. Qed.
Print Assumptions qmark_err_returns_same_refuted_variable_string.

(* ... and that transcript is a prefix of the transcript of the run in which nobody fails *)
Theorem qmark_err_transcript_is_prefix : forall ls k z d i sel0, (d < List.length ls)%nat -> above_ok k ls d ->
  existsb is_qstmt ls = false ->
  (forall d', (d' < List.length ls)%nat -> sel0 <> (i + d')%nat) ->
  exists rest, fst (m_chain k (PInt z) sel0 i ls) = fst (m_chain k (PInt z) (i + d) i ls) ++ rest.
Proof.
  intros ls k z d i sel0 Hd Hab Hq Hsel.
  assert (Hne : ls <> []) by (destruct ls; [simpl in Hd; lia|discriminate]).
  rewrite (chain_ok_run ls k z sel0 i Hne Hq Hsel), (qmark_err_returns_same_partial ls k (PInt z) d i Hd Hab).
  cbn [fst]. replace (List.length ls) with (S d + (List.length ls - S d))%nat by lia.
  rewrite enters_app, <- app_assoc. eexists. reflexivity.
Qed.
Print Assumptions qmark_err_transcript_is_prefix.

(* whole programs of the fragment: Mech = Spec, any number of links, failing link anywhere or nowhere *)
Theorem qmark_chain_refines_spec_partial : forall p, safe_q p = true -> m_run_q p = s_run_q p.
Proof. exact chain_refines_run. Qed.
Print Assumptions qmark_chain_refines_spec_partial.

(* DESIGN.md section 7 #24 *)
Theorem qmark_ok_yields_payload_refuted :
  let p := mkQ KResult [mkL QDecl (PStr (s2l "e")) OpCall; mkL QDecl (PStr (s2l "e")) OpCall] (PStr (s2l "abc")) 0 in
  m_run_q p = mkR [EEnter 1; EEnter 2; EEnter 2; EPost 1 (VStr []); EArm 0 (VInt 0); EAfter] XOk /\
  s_run_q p = mkR [EEnter 1; EEnter 2; EPost 1 (VStr (s2l "abc")); EArm 0 (VStr (s2l "abc")); EAfter] XOk.
Proof. vm_compute. split; reflexivity. Qed.
Print Assumptions qmark_ok_yields_payload_refuted.

(* for every core expression - integer-valued or string-valued (literals, parameters, concatenation, names[i], the same
   inside called functions) - and all operands: the built Result is Ok exactly when the evaluation yields a value; it then
   carries that value unchanged (integer or non-empty string); otherwise it is Err. Missing: the empty string (refuted below) *)
Theorem try_ok_iff_no_error : forall chk a b sa sb e,
  let r := teval a b sa sb e in
  (s_variant (try_like chk r) = s2l "Ok" <-> exists v, r = inl v) /\
  (forall v, r = inl v -> v <> TVStr [] ->
     try_like chk r = encode (mkC (s2l "Ok") (payload_of_tval v)) /\
     decode (try_like chk r) = mkC (s2l "Ok") (payload_of_tval v)) /\
  (forall k, r = inr k -> s_variant (try_like chk r) = s2l "Err").
Proof.
  intros chk a b sa sb e r. destruct r as [v|k]; simpl.
  - split; [split; [intros _; exists v; reflexivity|intros _; destruct v; reflexivity]|].
    split; [|intros k H; discriminate].
    intros w H Hne. inversion H; subst w. destruct v as [z|[|c s]]; [split; reflexivity|congruence|split; reflexivity].
  - split; [split; [discriminate|intros [v H]; discriminate]|].
    split; [intros v H; discriminate|intros k' _; reflexivity].
Qed.
Print Assumptions try_ok_iff_no_error.

(* the integer instance, stated with ceval *)
Theorem try_ok_iff_no_error_int : forall chk a b e,
  let r := teval a b [] [] (TEInt e) in
  (s_variant (try_like chk r) = s2l "Ok" <-> exists v, ceval a b e = inl v) /\
  (forall v, ceval a b e = inl v ->
     try_like chk r = encode (mkC (s2l "Ok") (PInt v)) /\ decode (try_like chk r) = mkC (s2l "Ok") (PInt v)) /\
  (forall k, ceval a b e = inr k -> s_variant (try_like chk r) = s2l "Err").
Proof.
  intros chk a b e. simpl. destruct (ceval a b e) as [v|k]; simpl.
  - split; [split; [intros _; exists v; reflexivity|reflexivity]|]. split; [|discriminate].
    intros w H. injection H as <-. split; reflexivity.
  - split; [split; [discriminate|intros [v H]; discriminate]|]. split; [discriminate|reflexivity].
Qed.
Print Assumptions try_ok_iff_no_error_int.

(* build_result_ok writes ONE payload channel of a Variable. (1) Over the fresh Variable the code uses, the Ok decodes to
   exactly the operand's value. (2) Over ANY other Variable (one kept from an earlier evaluation): every integer Ok is read
   back correctly IF AND ONLY IF the kept string channel is empty - a string left by an earlier Ok("..") would be bound
   instead of the number - while a string Ok is always read back correctly. (3) The Err of build_result_err is read back
   correctly over any Variable (its string is never empty). So freshness of the Ok Variable is exactly what the property needs *)
Theorem try_ok_needs_fresh_variable :
  (forall v, v <> TVStr [] ->
     build_ok_t v = encode (mkC (s2l "Ok") (payload_of_tval v)) /\ decode (build_ok_t v) = mkC (s2l "Ok") (payload_of_tval v)) /\
  (forall init, ((forall z, decode (build_ok_over init (TVInt z)) = mkC (s2l "Ok") (PInt z)) <-> s_str init = []) /\
                (forall c s, decode (build_ok_over init (TVStr (c :: s))) = mkC (s2l "Ok") (PStr (c :: s)))) /\
  (forall init msg chk,
     decode (build_err_over init msg chk) = mkC (s2l "Err") (PStr (classify msg chk ++ s2l ": " ++ msg)) /\
     build_err_over fresh_var msg chk = build_err msg chk).
Proof.
  split; [|split].
  - intros [z|[|c s]] H; try congruence; split; reflexivity.
  - intros [e v h i s]. simpl. split; [split|].
    + intro H. specialize (H 0). unfold decode, decode_payload in H. simpl in H.
      destruct s; [reflexivity|]. simpl in H. discriminate.
    + intros -> z. reflexivity.
    + intros c s'. reflexivity.
  - intros init msg chk. split; [|reflexivity]. unfold decode, decode_payload, build_err_over.
    cbn [s_has s_str s_int s_variant].
    (* the string channel ends in ": " ++ msg, so it is never empty and always wins *)
    remember (classify msg chk ++ s2l ": " ++ msg) as t eqn:E. destruct t as [|c t]; [|reflexivity].
    symmetry in E. apply app_eq_nil in E. destruct E as [_ E]. discriminate.
Qed.
Print Assumptions try_ok_needs_fresh_variable.

(* `try (sa + sb)` with two empty strings: Ok("") is stored like Ok(0) and bound as the integer 0 (the recorded
   empty-string defect #23 reached through try/checked) *)
Theorem try_ok_iff_no_error_refuted_empty_string :
  let p := mkT false TRet 0 0 [] [] (TEStr (SCat SSA SSB)) in
  m_run_t p = mkR [EG1; EArm 0 (VInt 0); EAfter] XOk /\ s_run_t p = mkR [EG1; EArm 0 (VStr []); EAfter] XOk.
Proof. vm_compute. split; reflexivity. Qed.
Print Assumptions try_ok_iff_no_error_refuted_empty_string.

(* Div0 and Mod0 -> DivisionByZeroError, Bounds -> IndexOutOfBoundsError, Null -> NullPointerError, a string expression
   other than a variable/literal as the argument of a string parameter -> TypeCastError, under try and under checked
   (modulo was refuted before /repo 4ea336a) *)
Theorem try_err_class : forall chk k,
  try_like chk (inr k) = encode (mkC (s2l "Err") (PStr (class_name k ++ s2l ": " ++ err_msg k))).
Proof. intros chk k. apply try_like_spec. Qed.
Print Assumptions try_err_class.

(* an if-chain is read from the top; stated over variables so that the message tests stay folded *)
Lemma if_chain_order : forall (A : Type) (d n1 n2 o1 o2 : bool) (a b c r : A),
  let chain := if d then a else if n1 || n2 then b else if o1 || o2 then c else r in
  (d = true -> chain = a) /\ (d = false -> n1 = true -> chain = b) /\
  (d = false -> n1 = false -> n2 = false -> o2 = true -> chain = c).
Proof. intros. subst chain. repeat split; intros; subst; rewrite ?orb_true_r; reflexivity. Qed.

(* classification of arbitrary message texts follows the order of the if-chain *)
Theorem classify_order : forall msg chk,
  let l := lower msg in
  let div := contains (s2l "division by zero") l || contains (s2l "modulo by zero") l ||
             (contains (s2l "divide") l && contains (s2l "zero") l) in
  (div = true -> classify msg chk = s2l "DivisionByZeroError") /\
  (div = false -> contains (s2l "null pointer") l = true -> classify msg chk = s2l "NullPointerError") /\
  (div = false -> contains (s2l "null pointer") l = false -> contains (s2l "nullptr") l = false ->
   contains (s2l "bounds") l = true -> classify msg chk = s2l "IndexOutOfBoundsError").
Proof. intros msg chk. apply if_chain_order. Qed.
Print Assumptions classify_order.

(* `return try e;` and the declaration `R r = try e;` (in a Result function, a void function or main): the
   statement completes, the next statement runs and the Result is what the property says, for every integer or string
   expression and operands whose value is not the empty string. Missing: every other position of try/checked
   (assignment: refuted below) *)
Theorem try_program_continues_partial : forall p, safe_t p = true -> m_run_t p = s_run_t p.
Proof. exact try_refines_l. Qed.
Print Assumptions try_program_continues_partial.

(* the rest of DESIGN.md section 7 #22, for EVERY expression and operands: after `r = try e;` the next statement
   never runs (the property demands it does); in main the program stops silently with exit 0 *)
Theorem try_program_continues_refuted : forall p, (t_ctx p = TAsg \/ t_ctx p = TAsgMain) ->
  ~ In EG2 (r_events (m_run_t p)) /\ In EG2 (r_events (s_run_t p)) /\
  (t_ctx p = TAsgMain -> m_run_t p = mkR [EG1] XOk) /\
  (t_ctx p = TAsg -> m_run_t p = mkR [EG1; EAfter] XOk).
Proof.
  (* only the match on the context is reduced: Mech stops before g2 whatever the Result is, the Spec prints g2 first *)
  intros p Hc. unfold m_run_t, s_run_t. destruct Hc as [Hc|Hc]; rewrite Hc; cbv zeta iota.
  - split; [intros [H|[H|[]]]; discriminate|].
    split; [destruct (snd _); right; left; reflexivity|]. split; [discriminate|reflexivity].
  - split; [intros [H|[]]; discriminate|].
    split; [destruct (snd _); right; left; reflexivity|]. split; [reflexivity|discriminate].
Qed.
Print Assumptions try_program_continues_refuted.

(* ONE variable assigned again and again: whatever it held before - any stored value, e.g. a string channel next to an
   integer channel - after `w = u;`, `w = idf(u);`, `w = mkv();`, `w = mk();` with a value that has a payload it holds exactly
   that value; a struct member takes every value (also payload-less ones) and `T x = bx.e;` reads it back *)
Theorem reassign_last_write_wins :
  (forall b w rs, has_pl (rs_val rs) = true -> rs_how rs <> RFld -> m_rassign b w rs = encode (rs_val rs)) /\
  (forall fld c, m_fld_assign fld (encode c) = encode c /\ m_decl_from_var (m_fld_assign fld (encode c)) = encode c).
Proof. exact (conj rassign_last_write_wins_l rfield_last_write_wins_l). Qed.
Print Assumptions reassign_last_write_wins.

(* a conforming assignment step, started in ANY state of the variable and of the member: it prints what the Spec prints for
   its own value (match in place or in a shared function behind a parameter) *)
Theorem reassign_history_free : forall b arms k w fld rs rest, safe_rstep rs = true ->
  m_rsteps b arms k w fld (rs :: rest) =
    then_ev (s_rlook arms k (rs_val rs)) (m_rsteps b arms (S k) (m_rassign b w rs) (m_rfield fld rs) rest).
Proof. exact reassign_step_history_free_l. Qed.
Print Assumptions reassign_history_free.

(* whole programs: any initial value, any number of assignments of changing variants and payload kinds. Missing:
   payload-less right-hand sides (refuted below) *)
Theorem reassign_refines_spec_partial : forall p, safe_r p = true -> m_run_r p = s_run_r p.
Proof.
  intros [b i steps arms] Hs. unfold safe_r in Hs. simpl in Hs. unfold m_run_r, s_run_r. simpl.
  rewrite rsteps_refine by exact Hs. reflexivity.
Qed.
Print Assumptions reassign_refines_spec_partial.

Theorem reassign_refuted_payloadless :
  let p := mkPR false (mkC (s2l "A") (PInt 1))
                [mkRS (mkC (s2l "B") (PStr (s2l "s"))) RVar false; mkRS (mkC (s2l "D") PNone) RVar false;
                 mkRS (mkC (s2l "D") PNone) RFld false] arms_abd in
  m_run_r p = mkMR [EM 0 1 (VStr (s2l "s")); EM 1 1 (VStr (s2l "s")); EM 2 2 VNo; EDone] XOk /\
  s_run_r p = mkMR [EM 0 1 (VStr (s2l "s")); EM 1 2 VNo; EM 2 2 VNo; EDone] XOk.
Proof. vm_compute. split; reflexivity. Qed.
Print Assumptions reassign_refuted_payloadless.

(* several A / Q / T programs as functions of ONE program, called in any order and any number of times (T items with the
   operands of the call, Q items with the call's failing link): on the conforming fragment Mech = Spec *)
Theorem sequence_refines_spec_partial : forall p, safe_s p = true -> m_run_s p = s_run_s p.
Proof.
  intros [items cs] Hs. unfold safe_s in Hs. simpl in Hs. unfold m_run_s, s_run_s. simpl.
  rewrite (run_seq_ext (call_with m_item items) (call_with s_item items)); [reflexivity|].
  intros c Hin. apply scall_refines. rewrite forallb_forall in Hs. apply Hs. exact Hin.
Qed.
Print Assumptions sequence_refines_spec_partial.

(* what call number n prints does not depend on the calls before it (a string-valued try before an integer-valued one, an Err
   before an Ok, another enum, the same function with other operands): "call n" and then call_with m_item - a function of its
   own item and operands; and the first call that ends in an error ends the program *)
Theorem sequence_history_free :
  (forall items cs1 c cs2, snd (seq_prefix (call_with m_item items) 0 cs1) = XOk ->
     sr_events (m_run_s (mkPS items (cs1 ++ c :: cs2))) =
       fst (seq_prefix (call_with m_item items) 0 cs1) ++
       fst (then_s (ESCall (List.length cs1) :: fst (call_with m_item items c), snd (call_with m_item items c))
                   (run_seq (call_with m_item items) (S (List.length cs1)) cs2))) /\
  (forall items cs1 c cs2, snd (seq_prefix (call_with m_item items) 0 cs1) = XOk ->
     snd (call_with m_item items c) <> XOk ->
     m_run_s (mkPS items (cs1 ++ c :: cs2)) =
       mkSR (fst (seq_prefix (call_with m_item items) 0 cs1) ++ ESCall (List.length cs1) :: fst (call_with m_item items c))
            (snd (call_with m_item items c))).
Proof.
  split; intros items cs1 c cs2 H; [|intro Hc]; unfold m_run_s; cbn [ps_items ps_calls]; rewrite run_seq_app;
    cbn [run_seq Nat.add].
  - rewrite then_s_ok by exact H. reflexivity.
  - rewrite (then_s_stop (_ :: _, _)) by exact Hc. rewrite then_s_ok by exact H. reflexivity.
Qed.
Print Assumptions sequence_history_free.

(* payload := int | long | string | none | struct of scalars | enum value: every value without an empty string (at any
   depth) and without a payload-less enum value below the top level is read back exactly as it was built - variant,
   payload kind, every struct member, the inner variant and its payload, at every depth *)
Theorem nested_payload_roundtrip_partial : forall v, good_top v = true -> n_decode (n_build v) = v.
Proof.
  intros [z|s|fs|x [q|]] Hg; try discriminate; [|reflexivity].
  apply decode_build_payload. exact Hg.
Qed.
Print Assumptions nested_payload_roundtrip_partial.

(* the nested model is the scalar model of Model.v on values without associated_value: same construction, same transport
   steps (so every theorem above speaks about the same functions) *)
Theorem nested_model_conservative : forall steps c,
  n_build (nval_of_cval c) = lift (encode c) /\
  fold_left n_step steps (lift (encode c)) = lift (fold_left m_step steps (encode c)).
Proof.
  intros steps c. split; [apply build_lift|].
  generalize (flat_lift_encode c : canon (encode c)). generalize (encode c) as st.
  induction steps as [|s rest IH]; intros st Hc; simpl; [reflexivity|].
  destruct (nested_conservative_step st s Hc) as [E Hc']. rewrite E. apply IH. exact Hc'.
Qed.
Print Assumptions nested_model_conservative.

(* any list of steps sound for the payload's shape - declaration from a variable always; assignment, argument passing
   and return for every value with a payload, also a struct / enum payload; declaration from a call only for an integer
   payload - leaves the Variable, with its whole nested payload, unchanged *)
Theorem nested_value_preserved_partial : forall steps x p,
  forallb (nstep_ok (VE x p)) steps = true -> fold_left n_step steps (n_build (VE x p)) = n_build (VE x p).
Proof.
  intros steps x p. apply (fold_left_inv (fun st => st = n_build (VE x p))); [|reflexivity].
  intros st s -> Hs. apply nstep_preserves. exact Hs.
Qed.
Print Assumptions nested_value_preserved_partial.

(* the named binding of the selected arm is the payload: the struct with every member, the inner enum value (which
   itself reads back exactly) *)
Theorem nested_match_binds_payload : forall x q, good_nv q = true ->
  exists i s a, n_build (VE x (Some q)) = NVEnum x true i s a /\ n_bound i s a = bound_of q /\
                match q with
                | VR fs => n_bound i s a = BdObj (NVRec fs)
                | VE y p => n_bound i s a = BdObj (n_build (VE y p)) /\ n_decode (n_build (VE y p)) = VE y p
                | _ => True
                end.
Proof.
  intros x q Hg. destruct (build_fields x q Hg) as (i & s & a & E & Eb). exists i, s, a. repeat split; try assumption.
  destruct q as [z|t|fs|y p]; try exact I; [exact Eb|]. split; [exact Eb|].
  apply nested_payload_roundtrip_partial. simpl in *. destruct p; [exact Hg|discriminate].
Qed.
Print Assumptions nested_match_binds_payload.

(* the whole match statement - ANY arm list for the outer match, the inner matches the declared types dictate - on a
   built value is the property's own match on the value, for every type and every depth *)
Theorem nested_match_refines_spec : forall t v arms, good_top v = true ->
  n_match_run t (n_build v) arms = s_match_run t v arms.
Proof. exact match_run_refines. Qed.
Print Assumptions nested_match_refines_spec.

(* a declaration that runs again in the same scope: with the erase the code performs, the Variable is exactly the new
   one whatever the previous execution left; without it, the new value is stored correctly IFF the kept
   associated_value is the new one - i.e. exactly the class of change "keep the scope entry" breaks the property, and
   only through struct / enum payloads *)
Theorem redeclare_needs_erase :
  (forall slot new, m_declare true slot new = new) /\
  (forall old x h i s a, m_declare false (Some old) (NVEnum x h i s a) = NVEnum x h i s a <-> n_assoc old = a).
Proof.
  split; [reflexivity|]. intros old x h i s a. rewrite declare_keep_l.
  split; [intro H; injection H as ->; reflexivity|intros ->; reflexivity].
Qed.
Print Assumptions redeclare_needs_erase.

(* one execution of a loop body - ANY program of family L, conforming or not: what it prints and the value it leaves in
   the outer variable w are functions of w and of this execution's own value; the Variables v0, v1, .. the previous
   executions left in the scope do not matter; the whole loop is the fold of that function *)
Theorem loop_history_free : forall p,
  (forall sl w v, (snd (fst (l_iter true sl w p v)), snd (l_iter true sl w p v)) = c_iter w p v) /\
  (forall vals k sl w, l_loop true p k sl w vals = c_loop p k w vals).
Proof. intro p. split; [intros; apply iter_history_free_l|apply loop_slots_irrelevant]. Qed.
Print Assumptions loop_history_free.

(* conforming loop programs (safe_l): Mech = Spec, for every type, payload kind and depth, every number of executions,
   every pipeline of declarations / assignments / parameters / the outer variable; and every single execution prints
   what the Spec prints for ITS value, from any state the earlier executions left *)
Theorem loop_refines_spec_partial :
  (forall p, safe_l p = true -> m_run_l p = s_run_l p) /\
  (forall p sl w v, safe_l p = true -> In v (pl_vals p) -> snd (l_iter true sl w p v) = s_iter p v).
Proof.
  assert (Hsafe : forall p, safe_l p = true ->
            existsb (ls_is is_asgcons) (pl_steps p) = false /\
            match pl_final p with FinVal => false | _ => true end = true /\ forallb (safe_lval p) (pl_vals p) = true).
  { intros p Hs. unfold safe_l in Hs. rewrite !andb_true_iff, negb_true_iff in Hs. tauto. }
  split.
  - intros p Hs. destruct (Hsafe p Hs) as (H1 & H2 & H3). unfold m_run_l, m_run_l_with, s_run_l.
    rewrite loop_slots_irrelevant, c_loop_refines by assumption. reflexivity.
  - intros p sl w v Hs Hin. destruct (Hsafe p Hs) as (H1 & H2 & H3). rewrite forallb_forall in H3.
    rewrite <- (iter_refines p w v H1 H2 (H3 v Hin)), <- (iter_history_free_l sl w p v). reflexivity.
Qed.
Print Assumptions loop_refines_spec_partial.

(* the class of change of seeded/C13-4 as a witness: the same program without the erase stops printing the executions' own
   payloads at the second execution *)
Theorem loop_without_erase_refuted :
  safe_l loop_demo = true /\ m_run_l loop_demo = s_run_l loop_demo /\ m_run_l_with false loop_demo <> s_run_l loop_demo.
Proof.
  split; [exact (proj1 loop_example_l)|]. split; [apply loop_refines_spec_partial; exact (proj1 loop_example_l)|].
  exact (proj2 (proj2 loop_without_erase_refuted_l)).
Qed.
Print Assumptions loop_without_erase_refuted.

(* the defects of the pinned code on nested payloads (known findings), as witnesses *)
Theorem nested_value_preserved_refuted_decl_from_call :
  let p := mkPL false ty_u SrcCallVar [] FinVar arms_u [v_p 3 4] w_u in
  m_run_l p = mkNR [NEIter 0] XNotStruct /\
  s_run_l p = mkNR [NEIter 0; NEArm [1%nat] (LfRec [SInt 3; SInt 4]); NEAfter; NEDone] XOk.
Proof. vm_compute. split; reflexivity. Qed.
Print Assumptions nested_value_preserved_refuted_decl_from_call.
Theorem nested_value_preserved_refuted_return_constructor :
  let p := mkPL false ty_u SrcCons [] FinMk arms_u [v_r_err (s2l "bad")] w_u in
  m_run_l p = mkNR [NEIter 0] XNotEnum /\
  s_run_l p = mkNR [NEIter 0; NEArm [2%nat; 1%nat] (LfStr (s2l "bad")); NEAfter; NEDone] XOk.
Proof. vm_compute. split; reflexivity. Qed.
Print Assumptions nested_value_preserved_refuted_return_constructor.
Theorem nested_payload_roundtrip_refuted_payloadless_inner :
  let t := TOpt (TOpt TInt) in
  let p := mkPL true t SrcCons [] FinVar [PatVar (s2l "Some") BName; PatVar (s2l "None") BNo]
                [VE (s2l "Some") (Some (VE (s2l "None") None))] (mkC (s2l "None") PNone) in
  m_run_l p = mkNR [NEIter 0] XNotEnum /\
  s_run_l p = mkNR [NEIter 0; NEArm [0%nat; 1%nat] LfNo; NEAfter; NEDone] XOk.
Proof. vm_compute. split; reflexivity. Qed.
Print Assumptions nested_payload_roundtrip_refuted_payloadless_inner.
Theorem loop_refuted_outer_assign_payloadless :
  let p := mkPL false ty_u SrcCons [LOutVar] FinVar arms_u [v_p 3 4; VE (s2l "N") None] w_u in
  m_run_l p = mkNR [NEIter 0; NEArm [1%nat] (LfRec [SInt 3; SInt 4]); NEAfter;
                    NEIter 1; NEArm [1%nat] (LfRec [SInt 3; SInt 4]); NEAfter; NEDone] XOk /\
  s_run_l p = mkNR [NEIter 0; NEArm [1%nat] (LfRec [SInt 3; SInt 4]); NEAfter;
                    NEIter 1; NEArm [3%nat] LfNo; NEAfter; NEDone] XOk.
Proof. vm_compute. split; reflexivity. Qed.
Print Assumptions loop_refuted_outer_assign_payloadless.

(* `R r = try e;` / `checked e` executed again and again with fresh operands: Mech = Spec for every expression and every
   operand list that never yields the empty string, and the Variable the previous execution left in r is irrelevant *)
Theorem loop_try_refines_spec_partial :
  (forall p, safe_lt p = true -> m_run_lt p = s_run_lt p) /\
  (forall p ops k slot, lt_loop true p k slot ops = lt_loop true p k None ops).
Proof.
  split.
  - intros p H. unfold m_run_lt, s_run_lt. rewrite lt_loop_refines by exact H. reflexivity.
  - intros p [|o rest] k slot; reflexivity.
Qed.
Print Assumptions loop_try_refines_spec_partial.

(* `f(i)?` executed again and again inside one function: every Ok / Some yields its own payload, the first Err / None
   ends the function with that very value and nothing after it runs - every context, both operand forms *)
Theorem loop_qmark_refines_spec_partial : forall p, safe_lq p = true -> m_run_lq p = s_run_lq p.
Proof.
  intros p H. unfold m_run_lq, s_run_lq.
  assert (H' : safe_lq (mkLQ (lq_kind p) (lq_ctx p) (lq_opnd p) (lq_outs p)) = true) by (destruct p; exact H).
  destruct (lq_loop_refines p (lq_outs p) 0%nat None H') as [E G]. rewrite E.
  destruct (s_lq_loop p 0 (lq_outs p)) as [evs c]. cbn [fst snd] in *.
  unfold lq_finish. rewrite <- build_lift, match_run_refines by (rewrite good_top_cval; exact G). reflexivity.
Qed.
Print Assumptions loop_qmark_refines_spec_partial.

(* the conforming fragments are inhabited: one conforming program of each family, with its transcript *)
Example safe_l_example :
  safe_l loop_demo = true /\
  m_run_l loop_demo =
    mkNR [NEIter 0; NEArm [1%nat] (LfRec [SInt 3; SInt 4]); NEAfter; NEBack 1;
          NEIter 1; NEArm [2%nat; 1%nat] (LfStr (s2l "bad")); NEAfter; NEBack 1;
          NEIter 2; NEArm [0%nat] (LfInt 5); NEAfter; NEBack 1;
          NEIter 3; NEArm [1%nat] (LfRec [SInt 7; SInt 8]); NEAfter; NEBack 1;
          NEIter 4; NEArm [2%nat; 0%nat] (LfInt 9); NEAfter; NEBack 1; NEDone] XOk.
Proof. exact loop_example_l. Qed.
Example safe_lq_lt_example :
  (let p := mkLQ KResult QDecl OpCall [QOOk 10; QOOk 20; QOFail (PStr (s2l "e2")); QOOk 40] in
   safe_lq p = true /\
   m_run_lq p = mkNR [NEIter 0; NEPost 0 (LfInt 10); NEIter 1; NEPost 1 (LfInt 20); NEIter 2;
                      NEArm [1%nat] (LfStr (s2l "e2")); NEAfter] XOk) /\
  (let p := mkLT true (TEStr (SIdx CA)) [mkLO 1 0 [] []; mkLO 3 0 [] []; mkLO 2 0 [] []] in
   safe_lt p = true /\
   m_run_lt p = mkNR [NEIter 0; NEArm [0%nat] (LfStr (s2l "bob"));
                      NEIter 1; NEArm [1%nat] (LfStr (s2l "IndexOutOfBoundsError: Array index out of bounds"));
                      NEIter 2; NEArm [0%nat] (LfStr (s2l "cy")); NEDone] XOk).
Proof. split; vm_compute; split; reflexivity. Qed.

Example safe_a_example :
  let p := mkA true (mkC (s2l "Err") (PStr (s2l "boom"))) SrcCons [StDeclVar; StParam; StAsgCall (mkC (s2l "Ok") (PInt 1))]
               FinCall [PatVar (s2l "Ok") BName; PatVar (s2l "Err") BName] in
  safe_a p = true /\ m_run_a p = mkR [EArm 1 (VStr (s2l "boom")); EAfter; EBack 1] XOk.
Proof. vm_compute. split; reflexivity. Qed.

Example safe_q_example :
  let p := mkQ KResult [mkL QStmt (PInt 1) OpCall; mkL QRet (PInt 2) OpVar; mkL QStmt (PInt 3) OpVar; mkL QAsg (PInt 4) OpCall] (PInt 7) 3 in
  safe_q p = true /\ m_run_q p = mkR [EEnter 1; EEnter 2; EEnter 3; EArm 1 (VInt 3); EAfter] XOk.
Proof. vm_compute. split; reflexivity. Qed.

Example safe_m_example :
  let f := mkF MRet [PatVar (s2l "Key") BName; PatWild] None in
  let p := mkM [mkF MVoid key_arms None; f]
               [mkK 0 (mkC (s2l "KeyUp") (PInt 65)) (mkC [] PNone) false; mkK 1 (mkC (s2l "KeyRepeat") (PInt 72)) (mkC [] PNone) false;
                mkK 1 (mkC (s2l "Key") (PInt 70)) (mkC [] PNone) false] in
  safe_m p = true /\
  m_run_m p = mkMR [EM 0 1 (VInt 65); EEnd 0; EM 1 1 VNo; ERetV 1 1; EM 1 0 (VInt 70); ERetV 1 0; EDone] XOk.
Proof. vm_compute. split; reflexivity. Qed.

Example safe_t_example :
  let p := mkT true TMain 7 0 [] [] (TEInt (CAdd (CMod CA CB) (CIdx (CLit 3)))) in
  safe_t p = true /\
  m_run_t p = mkR [EG1; EG2; EArm 1 (VStr (s2l "DivisionByZeroError: Modulo by zero")); EAfter] XOk.
Proof. vm_compute. split; reflexivity. Qed.

Example safe_t_string_example :
  let p1 := mkT true TMain 1 0 (s2l "foo") (s2l "bar") (TEStr (SIdx CA)) in
  let p2 := mkT false TRet 24 3 [] [] (TEInt (CDiv CA CB)) in
  let p3 := mkT false TDecl 0 0 (s2l "foo") (s2l "bar") (TEStr (SCat SSA SSB)) in
  safe_t p1 = true /\ safe_t p2 = true /\ safe_t p3 = true /\
  m_run_t p1 = mkR [EG1; EG2; EArm 0 (VStr (s2l "bob")); EAfter] XOk /\
  m_run_t p2 = mkR [EG1; EArm 0 (VInt 8); EAfter] XOk /\
  m_run_t p3 = mkR [EG1; EG2; EArm 0 (VStr (s2l "foobar")); EAfter] XOk.
Proof. vm_compute. repeat split; reflexivity. Qed.

Example safe_r_example :
  let p := mkPR false (mkC (s2l "D") PNone)
                [mkRS (mkC (s2l "B") (PStr (s2l "s"))) RVar false; mkRS (mkC (s2l "A") (PInt 7)) RCall true;
                 mkRS (mkC (s2l "B") (PStr (s2l "t"))) RFld false; mkRS (mkC (s2l "A") (PInt 8)) RFld true;
                 mkRS (mkC (s2l "A") (PInt 9)) RMkv false; mkRS (mkC (s2l "B") (PStr (s2l "u"))) RMk true] arms_abd in
  safe_r p = true /\
  m_run_r p = mkMR [EM 0 1 (VStr (s2l "s")); EM 1 0 (VInt 7); EM 2 1 (VStr (s2l "t")); EM 3 0 (VInt 8); EM 4 0 (VInt 9);
                    EM 5 1 (VStr (s2l "u")); EDone] XOk.
Proof. vm_compute. split; reflexivity. Qed.

(* the shape of seeded/C13-3/demo.cb: a string-valued checked between integer-valued tries through one function *)
Example safe_s_example :
  safe_s seq_demo = true /\
  m_run_s seq_demo =
    mkSR [ESCall 0; ESIn EG1; ESIn (EArm 0 (VInt 8)); ESIn EAfter;
          ESCall 1; ESIn EG1; ESIn EG2; ESIn (EArm 0 (VStr (s2l "bob"))); ESIn EAfter;
          ESCall 2; ESIn EG1; ESIn (EArm 0 (VInt 8)); ESIn EAfter;
          ESCall 3; ESIn EG1; ESIn (EArm 1 (VStr (s2l "DivisionByZeroError: Division by zero"))); ESIn EAfter;
          ESCall 4; ESIn (EEnter 1); ESIn (EEnter 2); ESIn (EArm 1 (VStr (s2l "e2"))); ESIn EAfter;
          ESCall 5; ESIn EG1; ESIn (EArm 0 (VInt 20)); ESIn EAfter;
          ESCall 6; ESIn (EArm 0 (VInt 7)); ESIn EAfter; ESIn (EBack 1);
          ESCall 7; ESIn (EEnter 1); ESIn (EEnter 2); ESIn (EPost 1 (VInt 5)); ESIn (EArm 0 (VInt 5)); ESIn EAfter;
          ESDone] XOk.
Proof. vm_compute. split; reflexivity. Qed.
