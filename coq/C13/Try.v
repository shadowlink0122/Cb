(* C13 - try / checked (family T): classification of the error texts and the statement contexts. *)
From Coq Require Import List ZArith Bool String.
From Cb Require Import C13.Model C13.MatchLemmas.
Import ListNotations.
Local Open Scope Z_scope.

(* the texts the evaluator raises fall in the classes the property names, under try and under checked: six closed
   strings, each run through the if-chain (chk is only looked at in the last branch, which none of them reaches) *)
Lemma classify_err_msg : forall k chk, classify (err_msg k) chk = class_name k.
Proof. intros [ | | | |[|]] chk; vm_compute; reflexivity. Qed.

Lemma classify_core_messages : forall chk,
  classify (err_msg RDiv0) chk = s2l "DivisionByZeroError" /\
  classify (err_msg RMod0) chk = s2l "DivisionByZeroError" /\
  classify (err_msg RBounds) chk = s2l "IndexOutOfBoundsError" /\
  classify (err_msg RNull) chk = s2l "NullPointerError" /\
  (forall q, classify (err_msg (RArgStr q)) chk = s2l "TypeCastError").
Proof.
  intro chk.
  exact (conj (classify_err_msg RDiv0 chk) (conj (classify_err_msg RMod0 chk) (conj (classify_err_msg RBounds chk)
        (conj (classify_err_msg RNull chk) (fun q => classify_err_msg (RArgStr q) chk))))).
Qed.

(* the Result that try / checked builds is the stored form of the one the property names - Ok("") included, which is
   stored like Ok(0) and read back wrongly: that case is excluded by spec_try_good, not here *)
Lemma try_like_spec : forall chk r, try_like chk r = encode (spec_try r).
Proof.
  intros chk [[z|s]|k]; try reflexivity.
  cbn [try_like]. unfold build_err. rewrite classify_err_msg. reflexivity.
Qed.
Lemma spec_try_good : forall r, match r with inl (TVStr []) => false | _ => true end = true ->
  good_for_match (c_payload (spec_try r)) = true.
Proof. intros [[z|[|c s]]|k] H; try reflexivity; [discriminate|]. destruct k as [ | | | |[|]]; reflexivity. Qed.

(* a % 0 (former witness #25, repaired by /repo 4ea336a): classed as division by zero under both keywords *)
Lemma try_modulo_example_l :
  let r := teval 7 0 [] [] (TEInt (CMod CA CB)) in
  decode (try_like false r) = mkC (s2l "Err") (PStr (s2l "DivisionByZeroError: Modulo by zero")) /\
  decode (try_like true r) = spec_try r.
Proof. vm_compute. split; reflexivity. Qed.

(* the return and declaration contexts hand the built Result to a match, so they meet the property *)
Lemma try_refines_l : forall p, safe_t p = true -> m_run_t p = s_run_t p.
Proof.
  intros p Hs. unfold safe_t in Hs. apply andb_true_iff in Hs. destruct Hs as [Hc Hne].
  unfold m_run_t, s_run_t, match_events.
  rewrite try_like_spec, variant_encode, (match_refines_l _ _ (spec_try_good _ Hne)).
  destruct (t_ctx p); try discriminate; reflexivity.
Qed.

(* concrete instances: the former witness (declaration in main, repaired by /repo 982c54e) and the assignment form *)
Lemma try_main_example :
  let p := mkT false TMain 1 0 [] [] (TEInt (CDiv CA CB)) in
  m_run_t p = mkR [EG1; EG2; EArm 1 (VStr (s2l "DivisionByZeroError: Division by zero")); EAfter] XOk /\
  s_run_t p = m_run_t p.
Proof. vm_compute. split; reflexivity. Qed.

Lemma try_assign_witness :
  let p := mkT false TAsgMain 1 0 [] [] (TEInt (CDiv CA CB)) in
  m_run_t p = mkR [EG1] XOk /\
  s_run_t p = mkR [EG1; EG2; EArm 1 (VStr (s2l "DivisionByZeroError: Division by zero")); EAfter] XOk.
Proof. vm_compute. split; reflexivity. Qed.
