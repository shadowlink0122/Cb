(* C13 - nothing is carried from one evaluation to the next: re-assignment of one variable / one struct member
   (family R) and sequences of A / Q / T programs inside one program (family S). *)
From Coq Require Import List ZArith Bool String Lia.
From Cb Require Import C13.Model C13.ModelSeq C13.Transport C13.Chain C13.Try C13.Suite.
Import ListNotations.
Local Open Scope Z_scope.

(* whatever the variable held before (ANY stored value: another variant, a string channel next to an integer one,
   not even an enum), after the assignment of a value with a payload it holds exactly that value - for all four
   right-hand sides *)
Lemma rassign_last_write_wins_l : forall b w rs, has_pl (rs_val rs) = true -> rs_how rs <> RFld ->
  m_rassign b w rs = encode (rs_val rs).
Proof.
  intros b w [c h fn] Hp Hh. simpl in *. apply has_pl_payload in Hp. unfold m_rassign. simpl.
  destruct h.
  - unfold m_assign_from_var. rewrite eval_var_encode by exact Hp. reflexivity.
  - rewrite call_idf_encode by exact Hp. reflexivity.
  - unfold m_return_var. rewrite encode_flags. reflexivity.
  - rewrite return_cons_encode by (left; exact Hp). reflexivity.
  - congruence.
Qed.

(* the struct member: whatever it held before, after `bx.e = u;` it holds u's value - every variant, also payload-less
   ones - and `T x = bx.e;` reads exactly that *)
Lemma rfield_last_write_wins_l : forall fld c,
  m_fld_assign fld (encode c) = encode c /\ m_decl_from_var (m_fld_assign fld (encode c)) = encode c.
Proof.
  intros fld c. assert (H : m_fld_assign fld (encode c) = encode c).
  { unfold m_fld_assign. rewrite encode_flags. destruct c as [v p]. destruct p; reflexivity. }
  split; [exact H|]. rewrite H. unfold m_decl_from_var. rewrite encode_flags. reflexivity.
Qed.

(* what the consumer of a conforming step sees *)
Lemma rseen_safe : forall b w fld rs, safe_rstep rs = true ->
  m_rseen (m_rassign b w rs) (m_rfield fld rs) rs = encode (rs_val rs).
Proof.
  intros b w fld rs Hs. unfold safe_rstep in Hs. apply andb_true_iff in Hs. destruct Hs as [_ Hs].
  unfold m_rseen, m_rfield.
  destruct (rs_how rs) eqn:Eh; [simpl in Hs; rewrite orb_false_r in Hs; apply rassign_last_write_wins_l; congruence..|].
  apply rfield_last_write_wins_l.
Qed.

Lemma rlook_refines : forall arms k fn c, good_cval c = true -> (fn = true -> has_pl c = true) ->
  m_rlook arms k fn (encode c) = s_rlook arms k c.
Proof.
  intros arms k fn c Hg Hf. unfold m_rlook, s_rlook.
  assert (Hsv : (if fn then m_pass (encode c) else encode c) = encode c).
  { destruct fn; [|reflexivity]. apply pass_encode. apply has_pl_payload. apply Hf. reflexivity. }
  rewrite Hsv, encode_flags. simpl negb. cbv iota.
  apply armres_out_refines. exact Hg.
Qed.

Lemma safe_rstep_look : forall rs, safe_rstep rs = true ->
  good_cval (rs_val rs) = true /\ (rs_fn rs = true -> has_pl (rs_val rs) = true).
Proof.
  intros rs Hs. unfold safe_rstep in Hs. apply andb_true_iff in Hs. destruct Hs as [Hg Hs]. split; [exact Hg|].
  intro Hf. apply orb_true_iff in Hs. destruct Hs as [Hs|Hs]; [exact Hs|].
  apply andb_true_iff in Hs. destruct Hs as [_ Hs]. rewrite Hf in Hs. discriminate.
Qed.

(* one conforming step, from ANY state of the variable and of the member (reachable or not): it prints what the Spec
   prints for its own value; the rest of the run goes on from the new state *)
Lemma reassign_step_history_free_l : forall b arms k w fld rs rest, safe_rstep rs = true ->
  m_rsteps b arms k w fld (rs :: rest) =
    then_ev (s_rlook arms k (rs_val rs)) (m_rsteps b arms (S k) (m_rassign b w rs) (m_rfield fld rs) rest).
Proof.
  intros b arms k w fld rs rest Hs. cbn [m_rsteps].
  rewrite rseen_safe by exact Hs. destruct (safe_rstep_look rs Hs) as [Hg Hf].
  rewrite rlook_refines by assumption. reflexivity.
Qed.

Lemma rsteps_refine : forall b arms steps k w fld, forallb safe_rstep steps = true ->
  m_rsteps b arms k w fld steps = s_rsteps arms k steps.
Proof.
  induction steps as [|rs rest IH]; intros k w fld Hs; [reflexivity|].
  simpl in Hs. apply andb_true_iff in Hs. destruct Hs as [H1 H2].
  rewrite reassign_step_history_free_l by exact H1. cbn [s_rsteps]. rewrite IH by exact H2. reflexivity.
Qed.

(* the enum used by the witnesses of family R *)
Definition arms_abd : list pattern := [PatVar (s2l "A") BName; PatVar (s2l "B") BName; PatVar (s2l "D") BNo].

Lemma item_refines : forall it, safe_item it = true -> m_item it = s_item it.
Proof.
  intros [p|p|p] H; simpl in *; [apply transport_refines_l|apply chain_refines_run|apply try_refines_l]; exact H.
Qed.

Lemma scall_refines : forall items c, safe_scall items c = true -> call_with m_item items c = call_with s_item items c.
Proof.
  intros items c H. unfold safe_scall in H. unfold call_with.
  destruct (nth_error items (sc_item c)) as [it|]; [|discriminate].
  rewrite item_refines by exact H. reflexivity.
Qed.

Lemma run_seq_ext : forall f g cs n, (forall c, In c cs -> f c = g c) -> run_seq f n cs = run_seq g n cs.
Proof.
  induction cs as [|c rest IH]; intros n H; simpl; [reflexivity|].
  rewrite (H c (or_introl eq_refl)). rewrite IH; [reflexivity|]. intros c' Hin. apply H. right. exact Hin.
Qed.

(* the calls before call number n *)
Fixpoint seq_prefix (call : scall -> list sev * exitc) (n : nat) (cs : list scall) : list sev * exitc :=
  match cs with
  | [] => ([], XOk)
  | c :: rest => then_s (ESCall n :: fst (call c), snd (call c)) (seq_prefix call (S n) rest)
  end.

Lemma then_s_ok : forall a b, snd a = XOk -> then_s a b = (fst a ++ fst b, snd b).
Proof. intros a b H. unfold then_s. rewrite H. reflexivity. Qed.
Lemma then_s_stop : forall a b, snd a <> XOk -> then_s a b = (fst a, snd a).
Proof. intros a b H. unfold then_s. destruct (snd a); congruence. Qed.
Lemma then_s_assoc : forall a b c, then_s (then_s a b) c = then_s a (then_s b c).
Proof.
  intros [ea xa] [eb xb] [ec xc]. unfold then_s. simpl.
  destruct xa; simpl; try reflexivity. destruct xb; simpl; try reflexivity. rewrite app_assoc. reflexivity.
Qed.
Lemma then_s_nil : forall b, then_s ([], XOk) b = b.
Proof. intros [eb xb]. reflexivity. Qed.

Lemma run_seq_app : forall call cs1 cs2 n,
  run_seq call n (cs1 ++ cs2) = then_s (seq_prefix call n cs1) (run_seq call (n + List.length cs1) cs2).
Proof.
  induction cs1 as [|c rest IH]; intros cs2 n; simpl.
  - rewrite then_s_nil, Nat.add_0_r. reflexivity.
  - rewrite IH, then_s_assoc. replace (S n + List.length rest)%nat with (n + S (List.length rest))%nat by lia. reflexivity.
Qed.

(* the shape of seeded/C13-3/demo.cb: try (a / b) through one function (Ok 8), checked names[a] (a string Ok), the same try
   twice more (Ok 8, Err), a `?` chain whose second link fails with a string, the integer try again, a transport program,
   the chain with nobody failing: every call prints its own value *)
Definition seq_demo : progS :=
  mkPS [IT (mkT true TMain 0 0 [] [] (TEStr (SIdx CA)));
        IT (mkT false TRet 0 0 [] [] (TEInt (CDiv CA CB)));
        IQ (mkQ KResult [mkL QDecl (PStr (s2l "e1")) OpCall; mkL QDecl (PStr (s2l "e2")) OpCall] (PInt 5) 0);
        IA (mkA false (mkC (s2l "A") (PInt 7)) SrcCons [StParam] FinVar arms_ab)]
       [mkSC 1 24 3 [] [] 0; mkSC 0 1 0 (s2l "x") (s2l "y") 0; mkSC 1 24 3 [] [] 0; mkSC 1 5 0 [] [] 0;
        mkSC 2 0 0 [] [] 2; mkSC 1 100 5 [] [] 0; mkSC 3 0 0 [] [] 0; mkSC 2 0 0 [] [] 0].
