(* C13 - chains of functions propagating with ? (family Q), any number of links: what ? does to the Ok/Some and to the
   Err/None a link returns, the exact transcript of a chain in which nobody fails, and Mech = Spec by induction over
   the links with the value that comes up from below as the invariant. *)
From Coq Require Import List ZArith Bool String Lia.
From Cb Require Import C13.Model C13.MatchLemmas.
Import ListNotations.
Local Open Scope Z_scope.

Definition enters (i n : nat) : list ev := map EEnter (seq i n).

(* e? on the Err/None a link produced: evaluate_error_propagation rebuilds exactly the same stored value *)
Lemma qmark_fail : forall k l lf, opnd_ok k l lf = true ->
  m_qmark k (q_operand (l_opnd l) (encode (fail_cval k lf))) = QThrow (encode (fail_cval k lf)).
Proof.
  intros k [c p o] [cf pf of] H. unfold opnd_ok in H. simpl in *.
  destruct o; destruct k; destruct pf; try discriminate H; reflexivity.
Qed.

Lemma qmark_ok_int : forall k o z, m_qmark k (q_operand o (encode (mkC (v_ok k) (PInt z)))) = QVal z.
Proof. intros k o z. destruct k; destruct o; reflexivity. Qed.

Lemma fail_not_ok : forall k l, str_eqb (c_variant (fail_cval k l)) (v_ok k) = false.
Proof. intros k l. destruct k; reflexivity. Qed.

Lemma enters_S : forall i n, enters i (S n) = EEnter i :: enters (S i) n.
Proof. reflexivity. Qed.
Lemma enters_app : forall i a b, enters i (a + b) = enters i a ++ enters (i + a) b.
Proof. intros. unfold enters. rewrite seq_app, map_app. reflexivity. Qed.

(* the links above the failing one read its Err/None through an operand form that keeps it *)
Definition above_ok (k : rkind) (ls : list link) (d : nat) : Prop :=
  forall lf, nth_error ls d = Some lf -> forall j l, (j < d)%nat -> nth_error ls j = Some l -> opnd_ok k l lf = true.

Definition posts_carry (z : Z) (evs : list ev) : Prop := forall j b, In (EPost j b) evs -> b = VInt z.

(* the `post` lines of a chain in which nobody fails, innermost first: every link above the last one prints the value
   it received, unless it hands it on inside `return` *)
Fixpoint ok_posts (z : Z) (i : nat) (ls : list link) : list ev :=
  match ls with
  | l :: ((_ :: _) as rest) =>
      ok_posts z (S i) rest ++ match l_ctx l with QRet => [] | _ => [EPost i (VInt z)] end
  | _ => []
  end.

Lemma ok_posts_carry : forall z ls i, posts_carry z (ok_posts z i ls).
Proof.
  intros z ls. induction ls as [|l [|l2 rest] IH]; intros i j b H; try contradiction.
  cbn [ok_posts] in H. apply in_app_or in H. destruct H as [H|H]; [exact (IH (S i) j b H)|].
  destruct (l_ctx l); simpl in H; try contradiction; destruct H as [H|[]]; injection H as _ <-; reflexivity.
Qed.

(* the whole transcript of a chain in which nobody fails and no link discards the value: all functions are entered,
   then the posts on the way back, and the outermost result is the innermost Ok/Some *)
Lemma chain_ok_run : forall ls k z sel i, ls <> [] -> existsb is_qstmt ls = false ->
  (forall d, (d < List.length ls)%nat -> sel <> (i + d)%nat) ->
  m_chain k (PInt z) sel i ls =
    (enters i (List.length ls) ++ ok_posts z i ls, inl (encode (mkC (v_ok k) (PInt z)))).
Proof.
  induction ls as [|l rest IH]; intros k z sel i Hne Hq Hsel; [congruence|].
  cbn [m_chain].
  assert (Hi : Nat.eqb sel i = false) by (apply Nat.eqb_neq; intro; apply (Hsel 0%nat); simpl; lia).
  rewrite Hi. simpl in Hq. apply orb_false_iff in Hq. destruct Hq as [Hl Hq].
  destruct rest as [|l2 rest2]; [reflexivity|].
  rewrite (IH k z sel (S i)); [|discriminate|exact Hq|intros d Hd ?; apply (Hsel (S d)); simpl in *; lia].
  rewrite qmark_ok_int. unfold is_qstmt in Hl.
  change (List.length (l :: l2 :: rest2)) with (S (List.length (l2 :: rest2))). rewrite enters_S.
  cbn [ok_posts].
  destruct (l_ctx l); try discriminate; cbn [is_strp andb app]; rewrite <- ?app_assoc, ?app_nil_r; reflexivity.
Qed.

Lemma existsb_firstn_all : forall (A : Type) (f : A -> bool) l n, existsb f l = false -> existsb f (firstn n l) = false.
Proof.
  intros A f l. induction l as [|a l IH]; intros n H; destruct n; simpl in *; try reflexivity.
  apply orb_false_iff in H. destruct H as [H1 H2]. rewrite H1. simpl. apply IH. exact H2.
Qed.

(* both models run a conforming chain to the same transcript; what comes out is an integer Ok/Some or the Err/None
   of one of the links *)
Lemma chain_refines : forall ls k z sel i, ls <> [] ->
  (forall l lf, In l ls -> In lf ls -> opnd_ok k l lf = true) ->
  exists evs c, s_chain k (PInt z) sel i ls = (evs, inl c) /\
                m_chain k (PInt z) sel i ls = (evs, inl (encode c)) /\
                ((exists z', c = mkC (v_ok k) (PInt z')) \/ (exists l, In l ls /\ c = fail_cval k l)).
Proof.
  induction ls as [|l rest IH]; intros k z sel i Hne Hop; [congruence|].
  cbn [m_chain s_chain]. destruct (Nat.eqb sel i).
  - exists [EEnter i], (fail_cval k l). repeat split. right. exists l. split; [left; reflexivity|reflexivity].
  - destruct rest as [|l2 rest2].
    + exists [EEnter i], (mkC (v_ok k) (PInt z)). repeat split. left. eexists. reflexivity.
    + destruct (IH k z sel (S i)) as (evs & c & Hs & Hm & Hsh); [discriminate|intros; apply Hop; right; assumption|].
      rewrite Hs, Hm. destruct Hsh as [[z' ->]|(lf & Hin & ->)].
      * rewrite qmark_ok_int. simpl c_variant. rewrite str_eqb_refl.
        destruct (l_ctx l); (eexists; eexists; split; [reflexivity|split; [reflexivity|left; eexists; reflexivity]]).
      * (* a link below failed: every context lets the Err/None through *)
        rewrite (qmark_fail k l lf) by (apply Hop; [left; reflexivity|right; exact Hin]). rewrite fail_not_ok.
        exists (EEnter i :: evs), (fail_cval k lf). split; [reflexivity|]. split; [destruct (l_ctx l); reflexivity|].
        right. exists lf. split; [right; exact Hin|reflexivity].
Qed.

Lemma chain_refines_run : forall p, safe_q p = true -> m_run_q p = s_run_q p.
Proof.
  intros [k ls okp sel] Hs. unfold safe_q in Hs. simpl in Hs.
  apply andb_true_iff in Hs. destruct Hs as [Hs Hopnd].
  apply andb_true_iff in Hs. destruct Hs as [Hs Hgood].
  apply andb_true_iff in Hs. destruct Hs as [Hne Hok].
  destruct okp as [|z|s]; try discriminate.
  assert (Hne' : ls <> []) by (destruct ls; [discriminate|discriminate]).
  assert (Hop : forall l lf, In l ls -> In lf ls -> opnd_ok k l lf = true).
  { intros l lf Hl Hlf. rewrite forallb_forall in Hopnd. specialize (Hopnd l Hl).
    rewrite forallb_forall in Hopnd. apply Hopnd. exact Hlf. }
  destruct (chain_refines ls k z sel 1 Hne' Hop) as (evs & c & Hsc & Hmc & Hsh).
  unfold m_run_q, s_run_q. simpl. rewrite Hsc, Hmc. rewrite variant_encode.
  assert (Hg : good_for_match (c_payload c) = true).
  { destruct Hsh as [[z' ->]|(lf & Hin & ->)]; simpl; try reflexivity.
    rewrite forallb_forall in Hgood. specialize (Hgood lf Hin).
    destruct k; simpl; [|reflexivity]. unfold good_payload in Hgood.
    destruct (l_err lf); simpl; [reflexivity|reflexivity|exact Hgood]. }
  rewrite (match_refines_l c _ Hg). reflexivity.
Qed.

(* f2(x)?; as a statement (former witness of the swallowed Err, repaired by /repo d2267e2): the Err leaves f1 *)
Lemma qmark_statement_example_l :
  let p := mkQ KResult [mkL QStmt (PInt 1) OpCall; mkL QDecl (PStr (s2l "e2")) OpCall] (PInt 5) 2 in
  m_run_q p = mkR [EEnter 1; EEnter 2; EArm 1 (VStr (s2l "e2")); EAfter] XOk /\ s_run_q p = m_run_q p.
Proof. vm_compute. split; reflexivity. Qed.
