(* C09 - finite sweeps over the check sites of the access-path machine (Paths.v, PathModel.v): one witness per site.
   For the universe of stores only well-formedness of the cases is evaluated; their verdicts are theorems. *)
From Coq Require Import List ZArith Bool.
From Cb Require Import C09.Paths C09.PathLemmas C09.PathModel.
Import ListNotations.
Local Open Scope Z_scope.

Lemma all_psites_complete : forall st, site_occurs st = true -> In st all_psites.
Proof.
  intros st H. unfold all_psites. apply filter_In. split; [|exact H].
  destruct st as [c f | c f | c | k l r].
  - apply in_or_app. left. apply in_flat_map. exists c. split; [destruct c; cbn; tauto | destruct f; cbn; tauto].
  - apply in_or_app. right. apply in_or_app. left. apply in_flat_map. exists c.
    split; [destruct c; cbn; tauto | destruct f; cbn; tauto].
  - apply in_or_app. right. apply in_or_app. right. apply in_or_app. left. destruct c; cbn; tauto.
  - apply in_or_app. right. apply in_or_app. right. apply in_or_app. right. apply in_flat_map. exists k.
    split; [destruct k; cbn; tauto|]. apply in_flat_map. exists l. split; [destruct l; cbn; tauto | destruct r; cbn; tauto].
Qed.

(* soundness of the decidable observation *)
Lemma var_changed_sound : forall a b, var_changed a b = true ->
  exists q z, get q (vtree a) = Some (TLeaf z) /\ (vconst a || cpath q (vtree a)) = true /\ get q (vtree b) <> Some (TLeaf z).
Proof.
  intros a b H. unfold var_changed in H. apply existsb_exists in H as (q & _ & H).
  destruct (get q (vtree a)) as [[x| |]|] eqn:GA; try discriminate.
  apply andb_true_iff in H as [Hp Hn]. apply negb_true_iff in Hn.
  exists q, x. repeat split; try assumption. intros E. rewrite E in Hn. now rewrite Z.eqb_refl in Hn.
Qed.
Lemma pconst_changed_sound : forall s s', pconst_changed s s' = true ->
  exists x q z, cell s x q = Some z /\ protected s x q = true /\ cell s' x q <> Some z.
Proof.
  induction s as [|a r IH]; intros s' H; [discriminate|].
  destruct s' as [|b r']; [discriminate|]. unfold pconst_changed in H. cbn in H. apply orb_true_iff in H as [H | H].
  - apply var_changed_sound in H as (q & z & G & P & N). exists 0%nat, q, z. unfold cell, protected. cbn. rewrite G.
    repeat split; try assumption. destruct (get q (vtree b)) as [[y| |]|]; congruence.
  - destruct (IH r' H) as (x & q & z & C & P & N). exists (S x), q, z. unfold cell, protected in *. cbn. tauto.
Qed.

(* necessity: with every other test in place and this one missing, the witness changes a protected cell; with all tests
   it does not; its control twin (no const anywhere) runs to the end *)
Definition nec_ok (st : psite) : bool :=
  pbreaks (pall_but st) (pwitness st) && negb (pbreaks pspec (pwitness st)) &&
  poutcome_rejected_at (snd (prun pspec (fst (pwitness st)) (snd (pwitness st)))) st &&
  poutcome_done (snd (prun pspec (fst (ptwin st)) (snd (ptwin st)))) &&
  negb (zlist_eqb (cells_of (fst (ptwin st))) (cells_of (fst (prun pspec (fst (ptwin st)) (snd (ptwin st)))))).
Lemma nec_sweep : forallb nec_ok all_psites = true.
Proof. vm_compute. reflexivity. Qed.

(* the policy of the code: a test it makes refuses its witness at that very site, a test it lacks lets the witness change
   a protected cell *)
Definition mech_ok (st : psite) : bool :=
  if pmech st then poutcome_rejected_at (snd (prun pmech (fst (pwitness st)) (snd (pwitness st)))) st &&
                   negb (pbreaks pmech (pwitness st))
  else pbreaks pmech (pwitness st).
Lemma mech_sweep : forallb mech_ok all_psites = true.
Proof. vm_compute. reflexivity. Qed.

(* every scalar store of the universe (8 graphs x const placements x every cell x =, op=, ++): refused under the
   policy with all tests exactly when the variable or a member on the path is const, otherwise carried out on that cell
   only; and the implementation's policy agrees except through a site it lacks *)
Definition set_case_ok (c : pstate * pop) : bool :=
  match c with
  | ([v], OSet e f u) =>
      let p := lpath e in
      let prot := vconst v || cpath p (vtree v) in
      match pstep pspec [v] (OSet e f u), pstep pmech [v] (OSet e f u) with
      | PRejected st, PRejected st' => prot && pmech st'
      | PRejected st, POk _ => prot && forallb (fun r => negb (pmech r)) (set_reasons v p f)
      | POk s', POk s'' => negb prot && zlist_eqb (cells_of s') (cells_of s'') &&
                           match get p (vtree v), cell s' 0 p with
                           | Some (TLeaf old), Some z => z =? pnewval f old u
                           | _, _ => false
                           end
      | _, _ => false
      end
  | _ => false
  end.
Definition universe_sets : list (pstate * pop) :=
  flat_map (fun g => flat_map (fun pl => set_cases g pl) (placements g)) all_groots.
Definition universe_subs : list (pstate * pop) :=
  flat_map (fun g => flat_map (fun pl => sub_cases g pl) (placements g)) all_groots.
Definition sub_case_ok (c : pstate * pop) : bool :=
  match c with
  | ([v], OSub e lit src) =>
      let p := lpath e in
      match get p (vtree v) with
      | Some sub =>
          let prot := vconst v || cpath p (vtree v) || has_const sub in
          match pstep pspec [v] (OSub e lit src), pstep pmech [v] (OSub e lit src) with
          | PRejected st, PRejected st' => prot && pmech st'
          | PRejected st, POk _ => prot && forallb (fun r => negb (pmech r)) (sub_reasons v p lit sub)
          | POk s', POk s'' => negb prot && zlist_eqb (cells_of s') (cells_of s'')
          | _, _ => false
          end
      | None => false
      end
  | _ => false
  end.

(* The two conditions are theorems about EVERY case that is well formed: the l-value is rooted at the one variable and
   names a scalar cell (a struct or array that the source can be grafted on).  Only that is evaluated over the universe. *)
Definition set_wf (c : pstate * pop) : bool :=
  match c with
  | ([v], OSet e _ _) => Nat.eqb (root_of e) 0 && match get (lpath e) (vtree v) with Some (TLeaf _) => true | _ => false end
  | _ => false
  end.
Definition sub_wf (c : pstate * pop) : bool :=
  match c with
  | ([v], OSub e _ src) =>
      Nat.eqb (root_of e) 0 &&
      match get (lpath e) (vtree v) with
      | Some (TLeaf _) | None => false
      | Some sub => match graft sub src with Some _ => true | None => false end
      end
  | _ => false
  end.
Lemma universe_sweep : forallb set_wf universe_sets = true /\ forallb sub_wf universe_subs = true.
Proof. split; vm_compute; reflexivity. Qed.

Lemma zlist_eqb_refl l : zlist_eqb l l = true.
Proof. induction l as [|x r IH]; cbn; [reflexivity|]. rewrite Z.eqb_refl. exact IH. Qed.

(* what the code's policy answers where the policy with every test refuses for the reasons [l] *)
Lemma pmech_on_reasons (l : list psite) :
  match find pmech l with Some st => pmech st = true | None => forallb (fun r => negb (pmech r)) l = true end.
Proof.
  destruct (find pmech l) as [st|] eqn:Ef; [exact (proj2 (find_some _ _ Ef))|].
  apply forallb_forall. intros r Hr. rewrite (find_none _ _ Ef r Hr). reflexivity.
Qed.

Lemma set_case_ok_wf c : set_wf c = true -> set_case_ok c = true.
Proof.
  destruct c as [[|v [|]] [e f u|]]; try discriminate. cbn [set_wf]. intros H. apply andb_true_iff in H as [R G].
  apply Nat.eqb_eq in R. destruct (get (lpath e) (vtree v)) as [[old| |]|] eqn:Eg; try discriminate.
  destruct (put_defined (lpath e) (TLeaf (pnewval f old u)) _ _ Eg) as [t' P].
  unfold set_case_ok. cbn [pstep]. rewrite R. cbn [nth_error]. rewrite Eg, P, find_spec.
  assert (M := pmech_on_reasons (set_reasons v (lpath e) f)).
  destruct (vconst v || cpath (lpath e) (vtree v)) eqn:Pr.
  - destruct (set_reasons v (lpath e) f) eqn:Er.
    + apply set_reasons_nil in Er. apply orb_true_iff in Pr. destruct Er as [E1 E2]. rewrite E1, E2 in Pr. destruct Pr; discriminate.
    + rewrite <- Er in *. destruct (find pmech (set_reasons v (lpath e) f)); exact M.
  - apply orb_false_iff in Pr. rewrite (proj2 (set_reasons_nil v (lpath e) f) Pr). cbn. rewrite zlist_eqb_refl. unfold cell. cbn.
    rewrite (get_put_same _ _ _ _ P). apply Z.eqb_refl.
Qed.

Lemma sub_case_ok_wf c : sub_wf c = true -> sub_case_ok c = true.
Proof.
  destruct c as [[|v [|]] [|e lit src]]; try discriminate. cbn [sub_wf]. intros H. apply andb_true_iff in H as [R G].
  apply Nat.eqb_eq in R. destruct (get (lpath e) (vtree v)) as [sub|] eqn:Eg; [|discriminate].
  assert (NL : forall z, sub <> TLeaf z) by (intros z ->; discriminate).
  destruct (graft sub src) as [n|] eqn:Egr; [|destruct sub; discriminate].
  destruct (put_defined (lpath e) n _ _ Eg) as [t' P].
  assert (M := pmech_on_reasons (sub_reasons v (lpath e) lit sub)).
  assert (N : nth_error [v] (root_of e) = Some v) by (rewrite R; reflexivity).
  unfold sub_case_ok. rewrite Eg, !(pstep_sub_node _ _ _ _ _ _ _ N Eg NL), Egr, P, find_spec.
  destruct (vconst v || cpath (lpath e) (vtree v) || has_const sub) eqn:Pr.
  - destruct (sub_reasons v (lpath e) lit sub) eqn:Er.
    + apply sub_reasons_nil in Er. destruct Er as (E1 & E2 & E3). rewrite E1, E2, E3 in Pr. discriminate.
    + rewrite <- Er in *. destruct (find pmech (sub_reasons v (lpath e) lit sub)); exact M.
  - apply orb_false_iff in Pr as [Pr E3]. apply orb_false_iff in Pr as [E1 E2].
    rewrite (proj2 (sub_reasons_nil v (lpath e) lit sub) (conj E1 (conj E2 E3))). apply zlist_eqb_refl.
Qed.

Definition rejected_at (pol : ppolicy) (c : pstate * list pop) (st : psite) : Prop :=
  exists i, snd (prun pol (fst c) (snd c)) = PRejectedAt i st.
Definition changes_protected (pol : ppolicy) (c : pstate * list pop) : Prop :=
  exists x q z, cell (fst c) x q = Some z /\ protected (fst c) x q = true /\
                cell (fst (prun pol (fst c) (snd c))) x q <> Some z.
Lemma psite_eqb_eq : forall a b, psite_eqb a b = true -> a = b.
Proof.
  intros a b. destruct a as [c f|c f|c|k l r], b as [c' f'|c' f'|c'|k' l' r']; cbn; try discriminate; intros Q.
  - apply andb_true_iff in Q as [Q1 Q2]. destruct c, c'; try discriminate; destruct f, f'; try discriminate; reflexivity.
  - apply andb_true_iff in Q as [Q1 Q2]. destruct c, c'; try discriminate; destruct f, f'; try discriminate; reflexivity.
  - destruct c, c'; try discriminate; reflexivity.
  - apply andb_true_iff in Q as [Q Q3]. apply andb_true_iff in Q as [Q1 Q2].
    destruct k, k'; try discriminate; destruct l, l'; try discriminate; destruct r, r'; try discriminate; reflexivity.
Qed.
Lemma rejected_at_of_b : forall oc st, poutcome_rejected_at oc st = true -> exists i, oc = PRejectedAt i st.
Proof.
  intros oc st H. destruct oc as [|i st'|i]; try discriminate. exists i. now rewrite (psite_eqb_eq _ _ H).
Qed.
Lemma pbreaks_sound : forall pol c, pbreaks pol c = true -> changes_protected pol c.
Proof. intros pol c H. exact (pconst_changed_sound _ _ H). Qed.

Lemma pmech_sites_l : forall st, site_occurs st = true ->
  (pmech st = true -> rejected_at pmech (pwitness st) st) /\
  (pmech st = false -> changes_protected pmech (pwitness st)).
Proof.
  intros st H. assert (F := proj1 (forallb_forall _ _) mech_sweep st (all_psites_complete st H)).
  unfold mech_ok in F. split; intros M; rewrite M in F.
  - apply andb_true_iff in F as [F _]. apply rejected_at_of_b; assumption.
  - apply pbreaks_sound; assumption.
Qed.
