(* C09 - property theorems about ACCESS PATHS into nested objects (lemmas in C09/PathLemmas.v, C09/PathSweeps.v).
   The machine C09/Paths.v: a variable is a tree (scalars, arrays, structs, arrays of structs, any depth); `const` sits on
   the variable and on struct members; a store names its target by an l-value `x`, `e.m`, `e[i]` in any mix; [pspec]
   makes every const test, [pmech] the tests of the pinned implementation (one check site per path shape and reason). *)
From Coq Require Import List ZArith Bool Arith Lia.
From Cb Require Import C09.Paths C09.PathLemmas C09.PathModel C09.PathSweeps.
Import ListNotations.
Local Open Scope Z_scope.

(* The walk that finds the variable whose const flag is tested (member_assignment.cpp nested branch: strip any mix of
   member accesses and subscripts) reaches the root of EVERY access path, and the child indices it passes are the path. *)
Theorem root_walk_finds_root : forall x p t, root_of (lv_of x p t) = x /\ lpath (lv_of x p t) = p.
Proof. intros. unfold lv_of. now rewrite root_of_lv_from, lpath_lv_from. Qed.
Print Assumptions root_walk_finds_root.

(* A walk that strips member accesses and then at most one subscript (enough for a.b.c and arr[i].b.c) finds the root
   exactly when no subscript comes after the first step: for c.items[i].v, c.in.items[i].v, m[i][j].v ... it finds
   nothing - and a test that is skipped when no root is found lets the store through. *)
Theorem narrow_walk_misses_subscript_after_first_step : forall p st x, length st = length p ->
  narrow_root (lv_from (LVar x) p st) = if existsb (fun b => b) (tl st) then None else Some x.
Proof.
  intros p. induction p as [|i p IH] using rev_ind; intros st x L.
  - destruct st; [reflexivity | discriminate].
  - destruct st as [|b st _] using rev_ind; [rewrite app_length in L; cbn in L; lia|].
    rewrite !app_length in L. cbn in L. assert (L' : length st = length p) by lia.
    rewrite lv_from_snoc by exact L'. destruct b.
    + (* a subscript as the last step: found only when it is applied to the variable itself *)
      unfold narrow_root. cbn [strip_members].
      destruct (lv_from (LVar x) p st) eqn:E.
      * apply lv_from_is_var in E as [-> E]; [|exact L']. destruct st; [|discriminate]. inversion E. reflexivity.
      * destruct st as [|c st]; [destruct p; [discriminate | discriminate]|].
        cbn [tl app]. rewrite existsb_app. cbn. now rewrite orb_true_r.
      * destruct st as [|c st]; [destruct p; [discriminate | discriminate]|].
        cbn [tl app]. rewrite existsb_app. cbn. now rewrite orb_true_r.
    + (* a member access as the last step is stripped *)
      unfold narrow_root. cbn [strip_members]. fold (narrow_root (lv_from (LVar x) p st)). rewrite (IH st x L').
      destruct st as [|c st]; [reflexivity|]. cbn [tl app]. rewrite existsb_app. cbn. now rewrite orb_false_r.
Qed.
Print Assumptions narrow_walk_misses_subscript_after_first_step.

(* Every scalar store (=, op=, ++/--) whose target is reached through a const variable or through a const member anywhere
   on the path is refused - whatever the depth and whatever mix of member accesses and subscripts the path is. *)
Theorem path_store_rejected : forall s e f u v old,
  nth_error s (root_of e) = Some v -> get (lpath e) (vtree v) = Some (TLeaf old) ->
  protected s (root_of e) (lpath e) = true -> exists st, pstep pspec s (OSet e f u) = PRejected st.
Proof.
  intros s e f u v old N G Pr. cbn. rewrite N, G, find_spec. unfold protected in Pr. rewrite N in Pr.
  destruct (set_reasons v (lpath e) f) eqn:R; [|eauto].
  apply set_reasons_nil in R as [Rc Rp]. rewrite Rc, Rp in Pr. discriminate.
Qed.
Print Assumptions path_store_rejected.

(* ... and only then: without a const on the variable or on the way the same store is carried out on that cell. *)
Theorem path_store_accepted_without_const : forall s e f u v old,
  nth_error s (root_of e) = Some v -> get (lpath e) (vtree v) = Some (TLeaf old) ->
  protected s (root_of e) (lpath e) = false ->
  exists s', pstep pspec s (OSet e f u) = POk s' /\ cell s' (root_of e) (lpath e) = Some (pnewval f old u).
Proof.
  intros s e f u v old N G Pr. cbn. rewrite N, G, find_spec. unfold protected in Pr. rewrite N in Pr.
  apply orb_false_iff in Pr as [Rc Rp].
  destruct (set_reasons v (lpath e) f) eqn:R.
  - destruct (put_defined (lpath e) (TLeaf (pnewval f old u)) _ _ G) as [t' P]. rewrite P. eexists. split; [reflexivity|]. rewrite (cell_upd_same _ _ _ _ _ N), (get_put_same _ _ _ _ P). reflexivity.
  - assert (E : set_reasons v (lpath e) f = []) by (apply set_reasons_nil; tauto). congruence.
Qed.
Print Assumptions path_store_accepted_without_const.

(* A whole-sub-object store (struct variable, struct literal, array literal assigned to x, x.m, x.a[i], x[i] or deeper) is
   refused when the variable is const, a member on the way is const, or a const member lies INSIDE the overwritten part. *)
Theorem sub_store_rejected : forall s e lit src v sub n,
  nth_error s (root_of e) = Some v -> get (lpath e) (vtree v) = Some sub -> plain sub = false \/ (exists f, sub = TArr f) ->
  graft sub src = Some n ->
  vconst v || cpath (lpath e) (vtree v) || has_const sub = true ->
  exists st, pstep pspec s (OSub e lit src) = PRejected st.
Proof.
  intros s e lit src v sub n N G NL GR Pr.
  assert (R : sub_reasons v (lpath e) lit sub <> []).
  { intros R. apply sub_reasons_nil in R as (A & B & C). rewrite A, B, C in Pr. discriminate. }
  rewrite (pstep_sub_node _ _ _ _ _ _ _ N G), GR, find_spec.
  - destruct (sub_reasons v (lpath e) lit sub); [congruence | eauto].
  - intros z ->. destruct NL as [NL | [f NL]]; discriminate.
Qed.
Print Assumptions sub_store_rejected.

(* For every script of stores over any number of variables of any shape: every scalar cell that is protected (const
   variable, or a const member on the way to it) has its initial value afterwards. *)
Theorem path_cells_immutable : forall ops s s' oc x q z,
  prun pspec s ops = (s', oc) -> cell s x q = Some z -> protected s x q = true -> cell s' x q = Some z.
Proof. intros ops s s' oc x q z. exact (prun_spec_keeps ops 0 s s' oc x q z). Qed.
Print Assumptions path_cells_immutable.

(* Whatever tests a policy makes, stores change values only: which cells are protected is the same after every script
   (no store, accepted or not, can strip or add a const). *)
Theorem path_protection_invariant : forall pol ops s s' oc x q,
  prun pol s ops = (s', oc) -> protected s' x q = protected s x q.
Proof. intros pol ops s s' oc x q H. apply same_frame_protected. exact (prun_frame pol ops 0 s s' oc H). Qed.
Print Assumptions path_protection_invariant.

(* Each of the 79 tests (one per path shape x store form x reason) is needed: with all the others in place and this one
   missing its witness changes a protected cell; with all tests the witness is refused at that very site; the control
   twin without any const runs to the end. *)
Theorem every_path_test_is_necessary : forall st, site_occurs st = true ->
  rejected_at pspec (pwitness st) st /\ changes_protected (pall_but st) (pwitness st) /\
  snd (prun pspec (fst (ptwin st)) (snd (ptwin st))) = PDone.
Proof.
  intros st H. assert (F := proj1 (forallb_forall _ _) nec_sweep st (all_psites_complete st H)).
  unfold nec_ok in F. repeat (apply andb_true_iff in F as [F ?]).
  split; [apply rejected_at_of_b; assumption|]. split; [apply pbreaks_sound; assumption|].
  destruct (snd (prun pspec (fst (ptwin st)) (snd (ptwin st)))); [reflexivity | discriminate ..].
Qed.
Print Assumptions every_path_test_is_necessary.

(* The policy of the pinned code: a test it makes refuses its witness at that site; a test it lacks lets the witness
   change a protected cell.  The 19 missing tests are listed (known findings). *)
Theorem pmech_rejects_where_checked : forall st, site_occurs st = true -> pmech st = true ->
  rejected_at pmech (pwitness st) st.
Proof. intros st H M. exact (proj1 (pmech_sites_l st H) M). Qed.
Print Assumptions pmech_rejects_where_checked.

Theorem pmech_missing_tests_refuted :
  pmech_missing =
    [PLast CRootIdx FSet; PLast CRootIdx FOp; PLast CMidIdx FSet; PLast CMidIdx FOp; PInner CChain; PInner CRootIdx; PInner CMidIdx;
     PSub SkWhole false RInStruct; PSub SkWhole false RInPlain; PSub SkWhole true RInPlain;
     PSub SkMember false RInStruct; PSub SkMember false RInPlain;
     PSub SkMemberElem false RInStruct; PSub SkMemberElem false RInPlain; PSub SkMemberElem true RInPlain;
     PSub SkRootElem false RInStruct; PSub SkRootElem false RInPlain;
     PSub SkRootElem true RInStruct; PSub SkRootElem true RInPlain] /\
  forall st, site_occurs st = true -> pmech st = false -> changes_protected pmech (pwitness st).
Proof. split; [vm_compute; reflexivity | intros st H M; exact (proj2 (pmech_sites_l st H) M)]. Qed.
Print Assumptions pmech_missing_tests_refuted.

(* The universe the tie enumerates (8 object graphs x const on nothing / the variable / one member x every scalar cell
   x =, op=, ++  and every inner node x variable / literal source): under all tests a case is refused exactly when its
   target is protected, otherwise the store lands on that cell only; the code's policy gives the same verdict and the
   same values except where every applicable reason is a test it lacks. *)
Theorem path_universe_matrix :
  (forall c, In c universe_sets -> set_case_ok c = true) /\ (forall c, In c universe_subs -> sub_case_ok c = true).
Proof.
  destruct universe_sweep as [A B]. rewrite forallb_forall in A, B.
  split; intros c H; [apply set_case_ok_wf, A|apply sub_case_ok_wf, B]; exact H.
Qed.
Print Assumptions path_universe_matrix.

Example path_hypotheses_satisfiable :
  let v := placed UO PlRoot 1 in
  let e := lv_of 0 [3; 1; 1]%nat (vtree v) in
  root_of e = 0%nat /\ get (lpath e) (vtree v) = Some (TLeaf 13) /\ protected [v] 0 (lpath e) = true /\
  narrow_root e = None /\ pstep pspec [v] (OSet e FSet 99) = PRejected (PRoot CMidIdx FSet).
Proof. vm_compute. repeat split. Qed.
