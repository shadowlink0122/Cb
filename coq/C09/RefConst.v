(* C09 - const objects of the reference interpreter (coq/Lang) are immutable.
   Object identity in Ref: an entry is created by one declaration and lives at a fixed position
   counted from the OLD end of its scope (scopes only grow at the front), in a scope counted from
   the bottom of its frame, in a frame counted from the bottom of the stack; globals and the
   statics of a function are one scope each.  The relation [cpres] says: the stack has the same
   shape, every scope kept all its old entries (names included) and every entry that was const is
   literally the same entry.  It is respected by the three state-changing primitives and by the two
   brackets, hence (Lang.Respect) by every evaluation of every expression / statement for every fuel. *)
From Coq Require Import List ZArith.
From Cb Require Import Lang.Syntax Lang.Sem Lang.Respect Lang.Theorems.
Import ListNotations.
Local Open Scope Z_scope.

Definition ent_le (a b : ident * entry) : Prop :=
  fst a = fst b /\ (econst (snd a) = true -> snd b = snd a).
Definition scope_upd (sc sc' : scope) : Prop := Forall2 ent_le sc sc'.
Definition scope_le (sc sc' : scope) : Prop := exists l sc2, sc' = l ++ sc2 /\ scope_upd sc sc2.
Definition frame_le (f f' : frame) : Prop := ffn f = ffn f' /\ Forall2 scope_le (fscopes f) (fscopes f').
Definition glob_le (s s' : state) : Prop :=
  match sframes s with [] => scope_le (sglob s) (sglob s') | _ => scope_upd (sglob s) (sglob s') end.
Definition cpres (s s' : state) : Prop :=
  glob_le s s' /\ (forall f, scope_le (statics_of f s) (statics_of f s')) /\ Forall2 frame_le (sframes s) (sframes s').

Lemma ent_le_refl a : ent_le a a. Proof. split; auto. Qed.
Lemma ent_le_trans a b c : ent_le a b -> ent_le b c -> ent_le a c.
Proof.
  intros [H1 H2] [H3 H4]. split; [congruence|]. intros Hc. specialize (H2 Hc).
  rewrite H2 in H4. rewrite H4; auto.
Qed.
Lemma Forall2_refl {A} (P : A -> A -> Prop) : (forall a, P a a) -> forall l, Forall2 P l l.
Proof. intros H l; induction l; constructor; auto. Qed.
Lemma Forall2_trans {A} (P : A -> A -> Prop) : (forall a b c, P a b -> P b c -> P a c) ->
  forall l1 l2 l3, Forall2 P l1 l2 -> Forall2 P l2 l3 -> Forall2 P l1 l3.
Proof.
  intros H l1 l2 l3 H12; revert l3; induction H12; intros l3 H23; inversion H23; subst; constructor; eauto.
Qed.
Lemma scope_upd_refl sc : scope_upd sc sc. Proof. apply Forall2_refl, ent_le_refl. Qed.
Lemma scope_upd_trans a b c : scope_upd a b -> scope_upd b c -> scope_upd a c.
Proof. apply Forall2_trans, ent_le_trans. Qed.
Lemma scope_upd_le a b : scope_upd a b -> scope_le a b.
Proof. intros H. exists [], b. split; auto. Qed.
Lemma scope_le_refl sc : scope_le sc sc. Proof. apply scope_upd_le, scope_upd_refl. Qed.
Lemma scope_le_trans a b c : scope_le a b -> scope_le b c -> scope_le a c.
Proof.
  intros (l1 & b2 & -> & H1) (l2 & c2 & -> & H2). unfold scope_upd in H2.
  apply Forall2_app_inv_l in H2 as (x & y & Hx & Hy & ->).
  exists (l2 ++ x), y. split; [rewrite app_assoc; reflexivity|]. eapply scope_upd_trans; eauto.
Qed.
Lemma frame_le_refl f : frame_le f f.
Proof. split; auto. apply Forall2_refl, scope_le_refl. Qed.
Lemma frame_le_trans a b c : frame_le a b -> frame_le b c -> frame_le a c.
Proof. intros [H1 H2] [H3 H4]. split; [congruence|]. eapply Forall2_trans; eauto. apply scope_le_trans. Qed.

Lemma cpres_refl s : cpres s s.
Proof.
  repeat split.
  - unfold glob_le. destruct (sframes s); [apply scope_le_refl|apply scope_upd_refl].
  - intros f. apply scope_le_refl.
  - apply Forall2_refl, frame_le_refl.
Qed.
Lemma cpres_trans a b c : cpres a b -> cpres b c -> cpres a c.
Proof.
  intros (G1 & S1 & F1) (G2 & S2 & F2). repeat split.
  - unfold glob_le in *. destruct (sframes a) as [|fa ra] eqn:Ea; destruct (sframes b) as [|fb rb] eqn:Eb;
      try (inversion F1; fail).
    + eapply scope_le_trans; eauto.
    + eapply scope_upd_trans; eauto.
  - intros f. eapply scope_le_trans; eauto.
  - eapply Forall2_trans; eauto. apply frame_le_trans.
Qed.

Lemma assoc_set_upd x e e' (sc : scope) :
  assoc x sc = Some e -> econst e = false -> scope_upd sc (assoc_set x e' sc).
Proof.
  induction sc as [|[y b] r IH]; cbn [assoc assoc_set]; [discriminate|].
  destruct (Nat.eqb x y) eqn:E.
  - intros [= ->] Hc. constructor; [|apply scope_upd_refl]. split; [reflexivity|]. cbn. congruence.
  - intros H Hc. constructor; [apply ent_le_refl|apply IH; assumption].
Qed.

Lemma scopes_set_le x e e' ss :
  scopes_get x ss = Some e -> econst e = false -> Forall2 scope_le ss (scopes_set x e' ss).
Proof.
  induction ss as [|sc r IH]; cbn [scopes_get scopes_set]; [discriminate|].
  destruct (assoc x sc) as [e0|] eqn:E.
  - intros [= ->] Hc. constructor; [|apply Forall2_refl, scope_le_refl].
    apply scope_upd_le. eapply assoc_set_upd; eauto.
  - intros H Hc. constructor; [apply scope_le_refl|apply IH; assumption].
Qed.

Lemma statics_set_same f sc s l :
  statics_of f {| sglob := sglob s; sframes := l; sstat := set_stat f sc (sstat s); sout := sout s |} = sc.
Proof.
  unfold statics_of, set_stat. cbn [sstat].
  destruct (assoc f (sstat s)) eqn:E.
  - rewrite (assoc_set_same _ _ _ _ E). reflexivity.
  - cbn [assoc]. rewrite Nat.eqb_refl. reflexivity.
Qed.
Lemma statics_set_other f g sc s l : f <> g ->
  statics_of g {| sglob := sglob s; sframes := l; sstat := set_stat f sc (sstat s); sout := sout s |} = statics_of g s.
Proof.
  intros Hn. unfold statics_of, set_stat. cbn [sstat].
  destruct (assoc f (sstat s)) eqn:E.
  - rewrite (assoc_set_other _ _ _ _ Hn). reflexivity.
  - cbn [assoc]. destruct (Nat.eqb g f) eqn:E2; [apply Nat.eqb_eq in E2; congruence|reflexivity].
Qed.

(* a primitive changes one component of the state: the globals (or only the output), the statics of one function, or
   the scopes of the top frame *)
Lemma cpres_glob s g fr o : fr = sframes s ->
  match fr with [] => scope_le (sglob s) g | _ => scope_upd (sglob s) g end ->
  cpres s {| sglob := g; sframes := fr; sstat := sstat s; sout := o |}.
Proof.
  intros -> H. repeat split; cbn.
  - exact H.
  - intros f. apply scope_le_refl.
  - apply Forall2_refl, frame_le_refl.
Qed.
Lemma cpres_stat s f sc : scope_le (statics_of f s) sc ->
  cpres s {| sglob := sglob s; sframes := sframes s; sstat := set_stat f sc (sstat s); sout := sout s |}.
Proof.
  intros H. repeat split; cbn.
  - unfold glob_le. cbn. destruct (sframes s); [apply scope_le_refl|apply scope_upd_refl].
  - intros g. destruct (Nat.eq_dec f g) as [<-|Hn].
    + rewrite statics_set_same. exact H.
    + rewrite statics_set_other by exact Hn. apply scope_le_refl.
  - apply Forall2_refl, frame_le_refl.
Qed.
Lemma cpres_top s f fr scs : sframes s = f :: fr -> Forall2 scope_le (fscopes f) scs ->
  cpres s {| sglob := sglob s; sframes := {| ffn := ffn f; fscopes := scs |} :: fr; sstat := sstat s; sout := sout s |}.
Proof.
  intros Ef H. repeat split; cbn.
  - unfold glob_le. rewrite Ef. apply scope_upd_refl.
  - intros g. apply scope_le_refl.
  - rewrite Ef. constructor; [split; [reflexivity|exact H]|apply Forall2_refl, frame_le_refl].
Qed.

Lemma put_entry_cpres x e e' s : get_entry x s = Some e -> econst e = false -> cpres s (put_entry x e' s).
Proof.
  unfold get_entry, put_entry. destruct (sframes s) as [|f fr] eqn:Ef.
  - intros H Hc. apply cpres_glob; [auto|]. apply scope_upd_le. eapply assoc_set_upd; eauto.
  - destruct (scopes_get x (fscopes f)) as [e0|] eqn:Es.
    + intros [= ->] Hc. apply cpres_top; [exact Ef|]. eapply scopes_set_le; eauto.
    + destruct (assoc x (statics_of (ffn f) s)) as [e0|] eqn:Et.
      * intros [= ->] Hc. rewrite <- Ef. apply cpres_stat. apply scope_upd_le. eapply assoc_set_upd; eauto.
      * intros H Hc. rewrite <- Ef. apply cpres_glob; [reflexivity|]. rewrite Ef. eapply assoc_set_upd; eauto.
Qed.

Lemma write_cpres x i v : respects cpres (m_write x i v).
Proof.
  intros s. unfold m_write. destruct (get_entry x s) as [e|] eqn:E; [|apply cpres_refl].
  destruct (econst e) eqn:Ec; [apply cpres_refl|].
  destruct (flat_index _ _ _); [|apply cpres_refl].
  destruct (coerce _ _); try apply cpres_refl. cbn [snd]. eapply put_entry_cpres; eauto.
Qed.

Lemma scope_le_cons a sc : scope_le sc (a :: sc).
Proof. exists [a], sc. split; [reflexivity|apply scope_upd_refl]. Qed.

Lemma declare_cpres sta cst t x d vs : respects cpres (m_declare sta cst t x d vs).
Proof.
  intros s. unfold m_declare. destruct (coerce_all t vs); try apply cpres_refl.
  destruct (sframes s) as [|f fr] eqn:Ef.
  - cbn [snd]. apply cpres_glob; [auto|]. apply scope_le_cons.
  - destruct sta.
    + cbn [snd]. rewrite <- Ef. apply cpres_stat, scope_le_cons.
    + destruct (fscopes f) as [|sc scs] eqn:Esc; [apply cpres_refl|].
      cbn [snd]. apply cpres_top; [exact Ef|]. rewrite Esc. constructor; [apply scope_le_cons|apply Forall2_refl, scope_le_refl].
Qed.

Lemma out_cpres o : respects cpres (m_out o).
Proof.
  intros s. cbn. apply cpres_glob; [reflexivity|]. destruct (sframes s); [apply scope_le_refl|apply scope_upd_refl].
Qed.

(* the brackets: inside, the stack is one scope / one frame higher; the exit removes exactly that *)
Lemma block_cpres A (m : M A) : respects cpres m -> respects cpres (m_push_scope ;;; finally m pop_scope_st).
Proof.
  intros Hm s. unfold bind, m_push_scope, finally.
  destruct (sframes s) as [|f fr] eqn:Ef; [apply cpres_refl|].
  set (s1 := {| sglob := sglob s; sframes := {| ffn := ffn f; fscopes := [] :: fscopes f |} :: fr; sstat := sstat s; sout := sout s |}).
  specialize (Hm s1). destruct (m s1) as [c s2]. cbn [snd] in *.
  destruct Hm as (G & S & F). cbn [sframes s1] in F.
  inversion F as [|? f2 ? fr2 [Hfn Hsc] Hfr E1 E2]; subst.
  cbn [fscopes] in Hsc. inversion Hsc as [|? sc0 ? rest H0 Hrest E3 E4]; subst.
  assert (Hst : forall g, statics_of g s1 = statics_of g s) by reflexivity.
  unfold pop_scope_st. rewrite <- E2. repeat split; cbn.
  - unfold glob_le in *. rewrite Ef. cbn [s1 sframes sglob] in G. exact G.
  - intros g. rewrite <- Hst. exact (S g).
  - rewrite Ef. constructor; [|exact Hfr]. split; [exact Hfn|]. cbn. rewrite <- E4. exact Hrest.
Qed.

Lemma frame_cpres A fn (m : M A) : respects cpres m -> respects cpres (m_push_frame fn ;;; finally m pop_frame_st).
Proof.
  intros Hm s. unfold bind, m_push_frame, finally.
  set (s1 := {| sglob := sglob s; sframes := {| ffn := fn; fscopes := [[]] |} :: sframes s; sstat := sstat s; sout := sout s |}).
  specialize (Hm s1). destruct (m s1) as [c s2]. cbn [snd] in *.
  destruct Hm as (G & S & F). cbn [sframes s1] in F.
  inversion F as [|? f2 ? fr2 Hf Hfr E1 E2]; subst.
  unfold pop_frame_st. rewrite <- E2. repeat split; cbn.
  - unfold glob_le in *. cbn [s1 sframes sglob] in G. destruct (sframes s); [apply scope_upd_le|]; exact G.
  - intros g. exact (S g).
  - exact Hfr.
Qed.

Lemma cpres_run_l funcs n :
  (forall e, respects cpres (eval funcs n e)) /\ (forall st, respects cpres (exec funcs n st)).
Proof.
  apply eval_exec_respect.
  - exact cpres_refl.
  - exact cpres_trans.
  - exact write_cpres.
  - exact declare_cpres.
  - exact out_cpres.
  - exact block_cpres.
  - exact frame_cpres.
Qed.

Lemma cpres_exec_list funcs n ss s : cpres s (snd (exec_list (exec funcs n) ss s)).
Proof.
  apply (r_exec_list cpres cpres_refl cpres_trans (exec funcs n)). apply (proj2 (cpres_run_l funcs n)).
Qed.

(* what [cpres] means for a const object: by name, for globals while a function is running (no global is declared
   then) *)
Lemma scope_upd_assoc sc sc' x e : scope_upd sc sc' -> assoc x sc = Some e -> econst e = true -> assoc x sc' = Some e.
Proof.
  induction 1 as [|[y a] [z b] r r' [Hn Hc] Hr IH]; cbn [assoc]; [discriminate|].
  cbn in Hn, Hc. subst z. destruct (Nat.eqb x y).
  - intros [= ->] Hk. rewrite (Hc Hk). reflexivity.
  - auto.
Qed.

(* by position (object identity) for every scope: the k-th oldest entry of a scope, if const, is
   still the k-th oldest entry of that scope *)
Definition nth_old {A} (l : list A) (k : nat) : option A := nth_error (rev l) k.

Lemma scope_upd_nth sc sc' k x e :
  scope_upd sc sc' -> nth_error sc k = Some (x, e) -> econst e = true -> nth_error sc' k = Some (x, e).
Proof.
  intros H; revert k; induction H as [|a b r r' [Hn Hc] Hr IH]; intros k; destruct k; cbn; try discriminate.
  - intros [= ->] Hk. destruct b as [z b]. cbn in Hc, Hn. subst z. rewrite (Hc Hk). reflexivity.
  - apply IH.
Qed.
Lemma Forall2_rev {A B} (P : A -> B -> Prop) l l' : Forall2 P l l' -> Forall2 P (rev l) (rev l').
Proof.
  induction 1; cbn; [constructor|]. apply Forall2_app; [assumption|]. constructor; [assumption|constructor].
Qed.
Lemma Forall2_len {A B} (P : A -> B -> Prop) l l' : Forall2 P l l' -> List.length l = List.length l'.
Proof. induction 1; cbn; congruence. Qed.
Lemma scope_le_nth_old sc sc' k x e :
  scope_le sc sc' -> nth_old sc k = Some (x, e) -> econst e = true -> nth_old sc' k = Some (x, e).
Proof.
  intros (l & sc2 & -> & H) Hk Hc. unfold nth_old in *. rewrite rev_app_distr.
  rewrite nth_error_app1.
  - eapply scope_upd_nth; eauto. apply Forall2_rev. exact H.
  - apply Forall2_rev in H. apply Forall2_len in H. rewrite <- H. apply nth_error_Some. congruence.
Qed.

(* position of a local object: frame [fi] from the bottom of the stack, scope [si] from the bottom of
   that frame, entry [ei] from the old end of that scope *)
Definition local_at (s : state) (fi si ei : nat) : option (ident * entry) :=
  match nth_old (sframes s) fi with
  | Some f => match nth_old (fscopes f) si with Some sc => nth_old sc ei | None => None end
  | None => None
  end.

Lemma Forall2_nth_old {A B} (P : A -> B -> Prop) l l' k a :
  Forall2 P l l' -> nth_old l k = Some a -> exists b, nth_old l' k = Some b /\ P a b.
Proof.
  intros H. apply Forall2_rev in H. unfold nth_old. revert k. induction H; intros k; destruct k; cbn; try discriminate.
  - intros [= ->]. eauto.
  - apply IHForall2.
Qed.

(* the stack has the same shape after any statement / expression: same number of frames, each with
   the same function and the same number of scopes *)
Lemma cpres_shape s s' : cpres s s' ->
  Forall2 (fun f f' => ffn f = ffn f' /\ List.length (fscopes f) = List.length (fscopes f')) (sframes s) (sframes s').
Proof.
  intros (_ & _ & F). induction F as [|f f' r r' [Hn Hs] Hr IH]; constructor; auto.
  split; [exact Hn|]. eapply Forall2_len; eauto.
Qed.

Lemma const_write_rejected_l x idx v s e :
  get_entry x s = Some e -> econst e = true -> m_write x idx v s = (Fail EConst, s).
Proof. intros H Hc. unfold m_write. rewrite H, Hc. reflexivity. Qed.

(* the mutation forms of CbCore; operands are literals (other right-hand sides: [plain_store_rejected],
   [compound_rejected] below) *)
Inductive mutation :=
| MAssign (x : ident) (v : Z)
| MCompound (x : ident) (o : binop) (v : Z)
| MIncDec (pre inc : bool) (x : ident)
| MElemAssign (a : ident) (idx : list Z) (v : Z)
| MElemCompound (a : ident) (idx : list Z) (o : binop) (v : Z)
| MElemIncDec (pre inc : bool) (a : ident) (idx : list Z).

Definition mut_target (m : mutation) : ident :=
  match m with
  | MAssign x _ | MCompound x _ _ | MIncDec _ _ x => x
  | MElemAssign a _ _ | MElemCompound a _ _ _ | MElemIncDec _ _ a _ => a
  end.
Definition mut_stmt (m : mutation) : stmt :=
  match m with
  | MAssign x v => SAssign (LVar x) None (ENum v)
  | MCompound x o v => SAssign (LVar x) (Some o) (ENum v)
  | MIncDec pre inc x => SIncDec pre inc (LVar x)
  | MElemAssign a idx v => SAssign (LIdx a (map ENum idx)) None (ENum v)
  | MElemCompound a idx o v => SAssign (LIdx a (map ENum idx)) (Some o) (ENum v)
  | MElemIncDec pre inc a idx => SIncDec pre inc (LIdx a (map ENum idx))
  end.
(* plain stores fail with the const error whatever the index; read-modify-write forms read first, so
   an out-of-bounds index or an undefined / zero-division operand is reported instead *)
Definition mut_plain (m : mutation) : bool :=
  match m with MAssign _ _ | MElemAssign _ _ _ => true | _ => false end.

Lemma eval_list_nums funcs k idx s : eval_list (eval funcs (S k)) (map ENum idx) s = (Val idx, s).
Proof.
  induction idx as [|i r IH]; cbn [map eval_list]; [reflexivity|].
  unfold bind at 1. rewrite eval_S_num. unfold ret at 1. unfold bind at 1. rewrite IH. reflexivity.
Qed.

Lemma read_keeps x idx s : exists c, m_read x idx s = (c, s).
Proof.
  unfold m_read. destruct (get_entry x s); [|eauto]. destruct (flat_index _ _ _); eauto.
Qed.

Lemma target_var ev x s : lval_target ev (LVar x) s = (Val (x, []), s).
Proof. reflexivity. Qed.
Lemma target_idx funcs k a idx s : lval_target (eval funcs (S k)) (LIdx a (map ENum idx)) s = (Val (a, idx), s).
Proof. cbn [lval_target]. unfold bind. rewrite eval_list_nums. reflexivity. Qed.

(* read-modify-write on a const target: the read may fail, the arithmetic may fail, otherwise the
   write is refused; the state is the same in every case *)
Lemma rmw_rejected x idx o (rhs : M Z) s e :
  get_entry x s = Some e -> econst e = true -> (exists v, rhs s = (Val v, s)) ->
  exists er, (old <- m_read x idx ;; v <- rhs ;; r <- lift (arith o old v) ;; m_write x idx r) s = (Fail er, s).
Proof.
  intros H Hc [v Hv]. unfold bind. unfold m_read. rewrite H.
  destruct (flat_index (edims e) idx 0) as [z|]; [|eauto].
  rewrite Hv. unfold lift.
  match goal with |- context [arith ?oo ?aa ?bb] => destruct (arith_val_or_fail oo aa bb) as [[r ->]|[er ->]] end; [|eauto].
  rewrite (const_write_rejected_l x idx r s e H Hc). eauto.
Qed.

(* The three statement forms on any l-value whose target [x] is a const entry (naming the target leaves the state as
   it is): a plain store, whatever its right-hand side computes and does, is refused with the const error; the
   read-modify-write forms (op= with a right-hand side that leaves the state as it is) end in some error. *)
Lemma plain_store_rejected funcs k lv rhs s v s1 x idx e :
  eval funcs k rhs s = (Val v, s1) -> lval_target (eval funcs k) lv s1 = (Val (x, idx), s1) ->
  get_entry x s1 = Some e -> econst e = true -> exec funcs (S k) (SAssign lv None rhs) s = (Fail EConst, s1).
Proof.
  intros He Ht H Hc. rewrite exec_S_assign, (bind_val _ _ _ _ _ He), (bind_val _ _ _ _ _ Ht). cbn [fst snd].
  apply const_write_rejected_l with (e := e); assumption.
Qed.
Lemma compound_rejected funcs k lv o rhs v s x idx e :
  lval_target (eval funcs k) lv s = (Val (x, idx), s) -> eval funcs k rhs s = (Val v, s) ->
  get_entry x s = Some e -> econst e = true -> exists er, exec funcs (S k) (SAssign lv (Some o) rhs) s = (Fail er, s).
Proof.
  intros Ht He H Hc. rewrite exec_S_compound, (bind_val _ _ _ _ _ Ht). cbn [fst snd].
  apply rmw_rejected with (e := e); eauto.
Qed.
Lemma incdec_rejected funcs k lv pre inc s x idx e :
  lval_target (eval funcs k) lv s = (Val (x, idx), s) -> get_entry x s = Some e -> econst e = true ->
  exists er, exec funcs (S k) (SIncDec pre inc lv) s = (Fail er, s).
Proof.
  intros Ht H Hc. rewrite exec_S_incdec, (bind_val _ _ _ _ _ Ht). cbn [fst snd].
  destruct (rmw_rejected x idx (if inc then Add else Sub) (ret 1) s e H Hc) as [er Her]; [exists 1; reflexivity|].
  exists er. rewrite <- Her. reflexivity.
Qed.
