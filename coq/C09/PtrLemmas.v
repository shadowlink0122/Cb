(* C09 - proofs about the pointer / reference machine (ConstPtr.v).  One case analysis of [step] says what an
   accepted step does ([effect]); read off it, under a policy that makes every test: the pointer discipline is
   an invariant, protected slots keep their value for every script, const pointers keep their target, no store
   goes through a const view.  A second one says that a policy with fewer tests answers like [spec] up to the
   first test it lacks ([follows]).  Last, the rules for single operations on something const. *)
From Coq Require Import List ZArith Bool.
From Cb Require Import C09.ConstPtr.
Import ListNotations.
Local Open Scope Z_scope.

Definition all_checked (pol : policy) : Prop := forall st, chk pol st = true.

(* a handle that permits writes (declared non-const) was not derived from anything const (pointers, references) and,
   when nothing up its chain is const, does not point at something protected *)
Definition Inv (s : state) : Prop :=
  forall p pt, nth_error (ptrs s) p = Some pt -> ppc pt = false ->
    (is_alias pt = false -> pp1 pt = false /\ ppd pt = false) /\
    (pp1 pt = false -> ppd pt = false -> forall t, ptgt pt = Some t -> tgt_prot s t = false).

Lemma inv_b_sound s : inv_b s = true -> Inv s.
Proof.
  unfold inv_b, Inv. intros H p pt Hp Hc. rewrite forallb_forall in H.
  specialize (H pt (nth_error_In _ _ Hp)). unfold ptr_ok, unprot in H. rewrite Hc in H. cbn [orb] in H.
  destruct (is_alias pt); split.
  - discriminate.
  - intros H1 H2 t Ht. rewrite H1, H2, Ht in H. cbn in H. destruct (tgt_prot s t); [discriminate|reflexivity].
  - intros _. apply andb_true_iff in H as [H _]. destruct (pp1 pt), (ppd pt); try discriminate; auto.
  - intros _ _ t Ht. apply andb_true_iff in H as [_ H]. rewrite Ht in H. destruct (tgt_prot s t); [discriminate|reflexivity].
Qed.

Lemma Inv_writable s p pt : Inv s -> nth_error (ptrs s) p = Some pt -> ppc pt = false -> is_alias pt = false ->
  hconst pt = false /\ forall t, ptgt pt = Some t -> tgt_prot s t = false.
Proof.
  intros HI Hp Hc Ha. destruct (HI p pt Hp Hc) as [H1 H2]. destruct (H1 Ha) as [E1 E2].
  split; [unfold hconst; rewrite Hc, E1, E2; reflexivity|auto].
Qed.
Lemma is_ptr_not_alias pt : is_ptr pt = true -> is_alias pt = false.
Proof. unfold is_ptr, is_alias. destruct (pkind pt); congruence. Qed.

Lemma upd_nth_length {A} n (f : A -> A) l : length (upd_nth n f l) = length l.
Proof. revert n; induction l as [|x r IH]; intros [|n]; cbn; auto. Qed.
Lemma nth_error_upd_same {A} n (f : A -> A) l : nth_error (upd_nth n f l) n = option_map f (nth_error l n).
Proof. revert n; induction l as [|x r IH]; intros [|n]; cbn; auto. Qed.
Lemma nth_error_upd_other {A} n m (f : A -> A) l : n <> m -> nth_error (upd_nth n f l) m = nth_error l m.
Proof. revert n m; induction l as [|x r IH]; intros [|n] [|m] H; cbn; auto; congruence. Qed.
Lemma map_upd_nth {A B} (g : A -> B) (f : A -> A) n l : (forall a, g (f a) = g a) -> map g (upd_nth n f l) = map g l.
Proof. intros H. revert n; induction l as [|x r IH]; intros [|n]; cbn; auto; congruence. Qed.
Lemma nth_error_snoc {A} (l : list A) a p x : nth_error (l ++ [a]) p = Some x -> nth_error l p = Some x \/ x = a.
Proof.
  intros H. destruct (Nat.lt_ge_cases p (length l)) as [Hl|Hl].
  - rewrite nth_error_app1 in H by exact Hl. auto.
  - rewrite nth_error_app2 in H by exact Hl. destruct (p - length l)%nat as [|[|k]]; cbn in H; try discriminate.
    injection H as <-. auto.
Qed.

Definition osig (ob : obj) := (oshape ob, oconst ob, omconst ob, length (ovals ob)).
Definition sig (s : state) := map osig (objs s).

Lemma sig_write s o k v : sig (write_slot s o k v) = sig s.
Proof.
  unfold sig, write_slot; cbn. apply map_upd_nth. intros a. unfold osig, set_vals; cbn.
  rewrite upd_nth_length. reflexivity.
Qed.
Lemma sig_store pol st s o k v : sig (store pol st s o k v) = sig s.
Proof. unfold store. destruct (eff pol st); [apply sig_write|reflexivity]. Qed.

Lemma sig_nth_eq s s' o : sig s' = sig s -> option_map osig (nth_error (objs s') o) = option_map osig (nth_error (objs s) o).
Proof. intros H. rewrite <- !nth_error_map. fold (sig s') (sig s). rewrite H. reflexivity. Qed.
Lemma sig_nth s s' o ob : sig s' = sig s -> nth_error (objs s) o = Some ob ->
  exists ob', nth_error (objs s') o = Some ob' /\ osig ob' = osig ob.
Proof.
  intros H Ho. assert (E := sig_nth_eq s s' o H). rewrite Ho in E.
  destruct (nth_error (objs s') o) as [ob'|]; cbn in E; [|discriminate]. exists ob'. split; congruence.
Qed.
Lemma slot_prot_sig a b k : osig a = osig b -> slot_prot a k = slot_prot b k.
Proof. unfold osig, slot_prot. intros [= _ -> -> _]. reflexivity. Qed.
Lemma tgt_prot_sig s s' t : sig s' = sig s -> tgt_prot s' t = tgt_prot s t.
Proof.
  intros H. destruct t as [o|o k]; cbn; assert (E := sig_nth_eq s s' o H);
    destruct (nth_error (objs s') o) as [a|], (nth_error (objs s) o) as [b|]; cbn in E; try discriminate; auto.
  - unfold osig in E. congruence.
  - apply slot_prot_sig. congruence.
Qed.

Lemma no_cmember_nth ob k : has_cmember ob = false -> nth k (omconst ob) false = false.
Proof.
  unfold has_cmember. generalize (omconst ob). intros l; revert k; induction l as [|b r IH]; intros [|k]; cbn; auto.
  - intros H. apply orb_false_iff in H. tauto.
  - intros H. apply orb_false_iff in H. apply IH. tauto.
Qed.

Lemma sig_mark b s : sig (mark b s) = sig s. Proof. reflexivity. Qed.
Lemma sig_add s h : sig (add_handle s h) = sig s. Proof. reflexivity. Qed.
Lemma sig_set_ptrs s ps : sig (set_ptrs s ps) = sig s. Proof. reflexivity. Qed.
Lemma sig_whole s o ob vs g : nth_error (objs s) o = Some ob -> length vs = length (ovals ob) ->
  sig {| objs := upd_nth o (set_vals vs) (objs s); ptrs := ptrs s; gbad := g |} = sig s.
Proof.
  intros Eo El. unfold sig; cbn.
  revert o Eo. generalize (objs s). intros l; induction l as [|a r IH]; intros [|o]; cbn; auto.
  - intros [= ->]. unfold osig, set_vals; cbn. rewrite El. reflexivity.
  - intros H. rewrite (IH o H). reflexivity.
Qed.

(* what [Inv] says about one handle *)
Definition hok (s : state) (pt : ptr) : Prop :=
  ppc pt = false ->
    (is_alias pt = false -> pp1 pt = false /\ ppd pt = false) /\
    (pp1 pt = false -> ppd pt = false -> forall t, ptgt pt = Some t -> tgt_prot s t = false).
Lemma hok_sig s s' pt : sig s' = sig s -> hok s pt -> hok s' pt.
Proof.
  intros Hs H Hc. destruct (H Hc) as [H1 H2]. split; [exact H1|]. intros E1 E2 t Ht. rewrite (tgt_prot_sig _ _ _ Hs). eauto.
Qed.

(* [Inv s] says [hok s] of every handle of s *)
Lemma Inv_transfer s s' : sig s' = sig s -> ptrs s' = ptrs s -> Inv s -> Inv s'.
Proof. intros Hs Hp HI p pt Hn. rewrite Hp in Hn. exact (hok_sig s s' pt Hs (HI p pt Hn)). Qed.

Lemma Inv_add s h : Inv s -> hok s h -> Inv (add_handle s h).
Proof.
  intros HI Hh p pt Hn. cbn [ptrs add_handle] in Hn. apply (hok_sig s); [reflexivity|].
  apply nth_error_snoc in Hn as [Hn| ->]; [exact (HI p pt Hn)|exact Hh].
Qed.

Lemma Inv_upd s p pt f : Inv s -> nth_error (ptrs s) p = Some pt -> hok s (f pt) -> Inv (set_ptrs s (upd_nth p f (ptrs s))).
Proof.
  intros HI Hp Hf q pq Hn. cbn [ptrs set_ptrs] in Hn. apply (hok_sig s); [reflexivity|].
  destruct (Nat.eq_dec p q) as [<-|Hne].
  - rewrite nth_error_upd_same, Hp in Hn. injection Hn as <-. exact Hf.
  - rewrite nth_error_upd_other in Hn by exact Hne. exact (HI q pq Hn).
Qed.

Lemma acq_ok pol s md pc src : all_checked pol -> acq_check pol s md pc src = None -> pc = false -> src_const s src = false.
Proof.
  intros Ha. unfold acq_check. rewrite Ha. intros H ->. cbn in H. destruct (src_const s src); [discriminate|reflexivity].
Qed.

(* a source that is not const gives a clean value: not derived from anything const, not pointing at anything protected *)
Lemma src_clean s src tg : Inv s -> src_target s src = Some tg -> src_const s src = false ->
  src_taint s src = false /\ forall t, tg = Some t -> tgt_prot s t = false.
Proof.
  intros HI. destruct src as [t0|q]; cbn.
  - destruct (valid_tgt s t0); [|discriminate]. intros [= <-] H. split; [exact H|]. intros t [= <-]. exact H.
  - destruct (nth_error (ptrs s) q) as [pq|] eqn:Eq; [|discriminate]. destruct (is_ptr pq) eqn:Ek; [|discriminate].
    intros [= <-] Hc. destruct (Inv_writable s q pq HI Eq Hc (is_ptr_not_alias _ Ek)) as [H1 H2]. split; auto.
Qed.

(* a pointer that has just taken its value from an accepted source *)
Lemma hok_acquired pol s md src tg h : all_checked pol -> Inv s -> src_target s src = Some tg ->
  acq_check pol s md (ppc h) src = None -> ptgt h = tg -> pp1 h = src_taint s src -> ppd h = false -> hok s h.
Proof.
  intros Ha HI Et Ea E1 E2 E3 Hc. destruct (src_clean s src tg HI Et (acq_ok _ _ _ _ _ Ha Ea Hc)) as [H1 H2].
  rewrite E1, E2, E3, H1. repeat split; auto.
Qed.

Lemma ref_store_check_none t ob hp : ref_store_check t ob hp = None -> ppc hp = false.
Proof. unfold ref_store_check. destruct t; [destruct (oconst ob); [discriminate|]|]; destruct (ppc hp); congruence. Qed.
Lemma ref_store_check_const t ob hp : ppc hp = true -> exists st, ref_store_check t ob hp = Some st.
Proof. intros Hc. unfold ref_store_check. rewrite Hc. destruct t; [destruct (oconst ob)|]; eauto. Qed.
Lemma alias_site_none w f hp : alias_site w f hp = None -> ppc hp = false /\ pp1 hp = false /\ ppd hp = false.
Proof. unfold alias_site. destruct (ppc hp), (pp1 hp), (ppd hp); try discriminate; auto. Qed.
Lemma alias_site_const w f hp : hconst hp = true -> exists st, alias_site w f hp = Some st.
Proof. unfold alias_site, hconst. destruct (ppc hp), (pp1 hp), (ppd hp); try discriminate; eauto. Qed.
(* an array parameter bound through one that has a const up its chain has one too *)
Lemma hconst_mk_alias t rc hp : hconst hp = true -> hconst (mk_alias t rc (ppc hp) (pp1 hp || ppd hp)) = true.
Proof. unfold hconst. cbn. destruct rc, (ppc hp), (pp1 hp), (ppd hp); auto. Qed.
Lemma store_cases pol st s o k v : store pol st s o k v = s \/ store pol st s o k v = write_slot s o k v.
Proof. unfold store. destruct (eff pol st); auto. Qed.
Lemma mark_false s : mark false s = s.
Proof. destruct s. unfold mark. cbn. rewrite orb_false_r. reflexivity. Qed.

(* a const pointer / a reference / an array parameter still refers to the same thing *)
Definition same_handle (a b : ptr) : Prop := ptgt b = ptgt a /\ pcc b = true /\ ppc b = ppc a /\ pkind b = pkind a.
Lemma same_handle_refl a : pcc a = true -> same_handle a a. Proof. unfold same_handle; auto. Qed.

(* Whatever tests are made, an accepted step does one of four things: it writes one slot (or, under a policy whose
   executor does not write, nothing), gives one whole object new values, declares a handle, or changes one handle; a
   store may set the ghost flag.  Each case carries what a policy that makes every test guarantees of it: in a state
   that respects the discipline the slot written is not protected and the ghost flag is not set, the new or changed
   handle respects the discipline, and a handle that cannot be re-seated stays the same handle. *)
Inductive effect (pol : policy) (s : state) : state -> Prop :=
| EWrite o k v b ob w :
    nth_error (objs s) o = Some ob -> w = s \/ w = write_slot s o k v ->
    (all_checked pol -> Inv s -> slot_prot ob k = false /\ b = false) ->
    effect pol s (mark b w)
| EWhole o vs b ob :
    nth_error (objs s) o = Some ob -> length vs = length (ovals ob) ->
    (all_checked pol -> Inv s -> oconst ob = false /\ has_cmember ob = false /\ b = false) ->
    effect pol s (mark b {| objs := upd_nth o (set_vals vs) (objs s); ptrs := ptrs s; gbad := gbad s |})
| EAdd h : (all_checked pol -> Inv s -> hok s h) -> effect pol s (add_handle s h)
| EUpd p pt f :
    nth_error (ptrs s) p = Some pt -> (all_checked pol -> pcc pt = true -> same_handle pt (f pt)) ->
    (all_checked pol -> Inv s -> hok s (f pt)) ->
    effect pol s (set_ptrs s (upd_nth p f (ptrs s))).

(* stores that leave the ghost flag alone *)
Lemma EWrite0 pol s o k v ob w : nth_error (objs s) o = Some ob -> w = s \/ w = write_slot s o k v ->
  (all_checked pol -> Inv s -> slot_prot ob k = false) -> effect pol s w.
Proof. intros Ho Hw L. rewrite <- (mark_false w). apply EWrite with o k v ob; auto. Qed.
Lemma EWhole0 pol s o vs ob : nth_error (objs s) o = Some ob -> length vs = length (ovals ob) ->
  (all_checked pol -> Inv s -> oconst ob = false /\ has_cmember ob = false) ->
  effect pol s {| objs := upd_nth o (set_vals vs) (objs s); ptrs := ptrs s; gbad := gbad s |}.
Proof.
  intros Ho Hl L. rewrite <- (mark_false {| objs := _; ptrs := _; gbad := _ |}). apply EWhole with ob; [exact Ho|exact Hl|].
  intros Ha HI. destruct (L Ha HI). auto.
Qed.

Lemma step_effect pol s x s' : step pol s x = Ok s' -> effect pol s s'.
Proof.
  intros Hs.
  destruct x as [f o k u|o vs|pc cc [src|]|p src|f p m u|param rc o k u|src u|f p d|par rc [o|h]|f h m u|h vs|pc src|h];
    cbn [step] in Hs.
  - destruct (nth_error (objs s) o) as [ob|] eqn:Eo; [|discriminate]. destruct (nth_error (ovals ob) k); [|discriminate].
    destruct (chk pol _ && slot_prot ob k) eqn:Ec; [discriminate|]. injection Hs as <-.
    eapply EWrite0; [exact Eo|apply store_cases|]. intros Ha _. rewrite Ha in Ec. exact Ec.
  - destruct (nth_error (objs s) o) as [ob|] eqn:Eo; [|discriminate].
    destruct (Nat.eqb (length vs) (length (ovals ob))) eqn:El; [|discriminate]. cbn [negb] in Hs.
    destruct (chk pol SWholeConst && oconst ob) eqn:E1; [discriminate|].
    destruct (chk pol SWholeMemberConst && has_cmember ob) eqn:E2; [discriminate|]. injection Hs as <-.
    eapply EWhole0; [exact Eo|apply Nat.eqb_eq; exact El|]. intros Ha _. rewrite Ha in E1, E2. auto.
  - destruct (src_target s src) as [tg|] eqn:Et; [|discriminate].
    destruct (acq_check pol s ADecl pc src) eqn:Ea; [discriminate|]. injection Hs as <-.
    apply EAdd. intros Ha HI. apply (hok_acquired pol s ADecl src tg); auto.
  - injection Hs as <-. apply EAdd. intros _ _ _. cbn. repeat split; auto. discriminate.
  - destruct (nth_error (ptrs s) p) as [pt0|] eqn:Ep; [|discriminate]. destruct (src_target s src) as [tg|] eqn:Et; [|discriminate].
    destruct (negb (is_ptr pt0)); [discriminate|]. destruct (chk pol SReseatAssign && pcc pt0) eqn:Ec; [discriminate|].
    destruct (acq_check pol s AAssign (ppc pt0) src) eqn:Ea; [discriminate|]. injection Hs as <-.
    apply EUpd with pt0; [exact Ep| |].
    + intros Ha Hcc. rewrite Ha, Hcc in Ec. discriminate.
    + intros Ha HI. apply (hok_acquired pol s AAssign src tg); auto.
  - destruct (nth_error (ptrs s) p) as [pt|] eqn:Ep; [|discriminate]. destruct (is_ptr pt) eqn:Ek; [|discriminate]. cbn [negb] in Hs.
    destruct (store_slot (ptgt pt) (pform_member f) m) as [[o k2]|] eqn:Ess; [|discriminate].
    destruct (nth_error (objs s) o) as [ob|] eqn:Eo; [|discriminate]. destruct (nth_error (ovals ob) k2); [|discriminate].
    destruct (chk pol _ && ppc pt) eqn:E1; [discriminate|]. destruct (pform_member f && _ && _) eqn:E2; [discriminate|]. injection Hs as <-.
    eapply EWrite; [exact Eo|apply store_cases|]. intros Ha HI. rewrite Ha in E1, E2.
    destruct (Inv_writable s p pt HI Ep E1 (is_ptr_not_alias _ Ek)) as [Hh HT]. split; [|exact Hh].
    (* the slot is a member of an unprotected struct that is not a const member, or the unprotected slot pointed at *)
    unfold store_slot in Ess. destruct (ptgt pt) as [[o0|o0 k0]|]; try discriminate; destruct (pform_member f); try discriminate;
      injection Ess as <- <-; specialize (HT _ eq_refl); cbn in HT; rewrite Eo in HT.
    + unfold slot_prot. rewrite HT. exact E2.
    + exact HT.
  - destruct (nth_error (objs s) o) as [ob|] eqn:Eo; [|discriminate]. destruct (nth_error (ovals ob) k); [|discriminate].
    destruct (chk pol _ && slot_prot ob k && negb rc) eqn:E1; [discriminate|].
    destruct (chk pol SConstRefStore && rc) eqn:E2; [discriminate|]. injection Hs as <-.
    eapply EWrite; [exact Eo|right; reflexivity|]. intros Ha _. rewrite Ha in E1, E2. cbn [andb] in E1, E2. subst rc.
    rewrite andb_true_r in E1. auto.
  - destruct (src_target s src) as [[[o|o k]|]|] eqn:Et; try discriminate.
    destruct (read_slot s o k) eqn:Er; [|discriminate]. destruct (acq_check pol s AArg false src) eqn:Ea; [discriminate|]. injection Hs as <-.
    unfold read_slot in Er. destruct (nth_error (objs s) o) as [ob|] eqn:Eo; [|discriminate].
    eapply EWrite; [exact Eo|right; reflexivity|]. intros Ha HI.
    destruct (src_clean s src _ HI Et (acq_ok _ _ _ _ _ Ha Ea eq_refl)) as [HT Hun]. specialize (Hun _ eq_refl). cbn in Hun. rewrite Eo in Hun. auto.
  - destruct (nth_error (ptrs s) p) as [pt0|] eqn:Ep; [|discriminate]. destruct (is_ptr pt0) eqn:Ek; [|discriminate]. cbn [negb] in Hs.
    destruct (ptgt pt0) as [[o|o k]|] eqn:Et0; try discriminate.
    destruct (nth_error (objs s) o) as [ob|] eqn:Eo; [|discriminate]. destruct (oshape ob); try discriminate.
    destruct (has_cmember ob) eqn:Ecm; [discriminate|]. cbn [orb] in Hs. destruct (negb _); [discriminate|].
    destruct (chk pol (move_site f) && pcc pt0) eqn:Ec; [discriminate|]. injection Hs as <-.
    apply EUpd with pt0; [exact Ep| |].
    + intros Ha Hcc. rewrite Ha, Hcc in Ec. discriminate.
    + (* the pointer stays inside an array without const members, so the new element is as unprotected as the old *)
      intros Ha HI Hc. cbn in Hc. destruct (Inv_writable s p pt0 HI Ep Hc (is_ptr_not_alias _ Ek)) as [H1 H2].
      unfold hconst in H1. rewrite Hc in H1. cbn in H1. apply orb_false_iff in H1 as [E1 E2].
      cbn. rewrite E1. repeat split; auto. intros _ _ t [= <-].
      specialize (H2 _ Et0). cbn in H2 |- *. rewrite Eo in *. unfold slot_prot in *.
      apply orb_false_iff in H2 as [-> _]. apply no_cmember_nth. exact Ecm.
  - (* a reference / an array parameter bound to a bare variable *)
    destruct (nth_error (objs s) o) as [ob|] eqn:Eo; [|discriminate]. destruct (oshape ob) eqn:Esh.
    2: { destruct (negb par); [discriminate|]. injection Hs as <-. apply EAdd. intros _ _ Hc. cbn.
         split; [discriminate|]. intros E1 _ t [= <-]. cbn. rewrite Eo. exact E1. }
    all: destruct (negb (valid_tgt s (ref_tgt ob o))); [discriminate|].
    all: destruct (chk pol _ && tgt_prot s (ref_tgt ob o) && negb rc) eqn:Ec; [discriminate|]. all: injection Hs as <-.
    all: apply EAdd. all: intros Ha _ Hc. all: cbn in Hc. all: subst rc. all: rewrite Ha in Ec. all: cbn [andb negb] in Ec. all: rewrite andb_true_r in Ec.
    all: cbn. all: rewrite Ec. all: repeat split; auto. all: intros _ _ t [= <-]. all: exact Ec.
  - (* ... through a reference / an array parameter *)
    destruct (nth_error (ptrs s) h) as [hp|] eqn:Eh; [|discriminate].
    destruct (pkind hp) eqn:Ek; try discriminate; destruct (ptgt hp) as [t|] eqn:Et; try discriminate.
    + destruct (chk pol _ && (ppc hp || tgt_prot s t) && negb rc) eqn:Ec; [discriminate|]. injection Hs as <-.
      apply EAdd. intros Ha HI Hc. cbn in Hc. subst rc. rewrite Ha in Ec. cbn [andb negb] in Ec. rewrite andb_true_r in Ec. apply orb_false_iff in Ec as [Ec1 Ec2].
      assert (Hal : is_alias hp = false) by (unfold is_alias; rewrite Ek; reflexivity).
      destruct (Inv_writable s h hp HI Eh Ec1 Hal) as [H1 H2]. cbn. rewrite H1, Ec2. repeat split; auto.
      intros _ _ t' [= <-]. exact Ec2.
    + destruct (negb par); [discriminate|]. injection Hs as <-. apply EAdd. intros _ HI Hc. cbn.
      split; [discriminate|]. intros E1 E2 t' [= <-]. apply orb_false_iff in E2 as [E2 E3].
      destruct (HI h hp Eh E1) as [_ H2]. auto.
  - (* a store through a reference / an array parameter *)
    destruct (nth_error (ptrs s) h) as [hp|] eqn:Eh; [|discriminate].
    destruct (pkind hp) eqn:Ek; try discriminate; destruct (ptgt hp) as [t|] eqn:Et; try discriminate.
    + destruct f; try discriminate.
      all: destruct (nth_error (objs s) (tgt_obj t)) as [ob|] eqn:Eo; [|discriminate].
      all: destruct (nth_error (ovals ob) _) eqn:Ev; [|discriminate].
      all: destruct (chk pol SRefMemberConst && nth _ (omconst ob) false) eqn:Emc; [discriminate|].
      all: destruct (ref_store_check t ob hp) as [st|] eqn:Erc;
        [destruct (chk pol st) eqn:Ec; [discriminate|]|]; injection Hs as <-; (eapply EWrite; [exact Eo|right; reflexivity|]).
      1,3: intros Ha. 1,2: rewrite Ha in Ec. 1,2: discriminate.
      all: intros Ha HI. all: rewrite Ha in Emc.
      all: assert (Hal : is_alias hp = false) by (unfold is_alias; rewrite Ek; reflexivity).
      all: destruct (Inv_writable s h hp HI Eh (ref_store_check_none _ _ _ Erc) Hal) as [Hh HT].
      all: split; [|exact Hh]. all: specialize (HT _ Et).
      all: destruct t as [o0|o0 k0]; cbn in HT, Eo |- *; rewrite Eo in HT; [unfold slot_prot; rewrite HT; exact Emc|exact HT].
    + destruct t as [o|o k]; [|discriminate]. destruct (nth_error (objs s) o) as [ob|] eqn:Eo; [|discriminate].
      destruct (nth_error (ovals ob) m); [|discriminate]. destruct (alias_site false f hp) as [st|] eqn:Eas.
      * destruct (chk pol st) eqn:Ec; [discriminate|]. injection Hs as <-.
        eapply EWrite; [exact Eo|right; reflexivity|]. intros Ha. rewrite Ha in Ec. discriminate.
      * destruct (chk pol SRefMemberConst && nth m (omconst ob) false) eqn:Emc; [discriminate|]. injection Hs as <-.
        eapply EWrite0; [exact Eo|right; reflexivity|]. intros Ha HI. rewrite Ha in Emc.
        destruct (alias_site_none _ _ _ Eas) as (E0 & E1 & E2). destruct (HI h hp Eh E0) as [_ HT].
        specialize (HT E1 E2 _ Et). cbn in HT. rewrite Eo in HT. unfold slot_prot. rewrite HT. exact Emc.
  - destruct (nth_error (ptrs s) h) as [hp|] eqn:Eh; [|discriminate].
    destruct (pkind hp); try discriminate. destruct (ptgt hp) as [[o|o k]|] eqn:Et; try discriminate.
    destruct (nth_error (objs s) o) as [ob|] eqn:Eo; [|discriminate].
    destruct (Nat.eqb (length vs) (length (ovals ob))) eqn:El; [|discriminate]. apply Nat.eqb_eq in El. cbn [negb orb] in Hs.
    destruct (has_cmember ob) eqn:Ecm; [discriminate|]. destruct (alias_site true FAssign hp) as [st|] eqn:Eas.
    + destruct (chk pol st) eqn:Ec; [discriminate|]. injection Hs as <-.
      eapply EWhole; [exact Eo|exact El|]. intros Ha. rewrite Ha in Ec. discriminate.
    + injection Hs as <-. eapply EWhole0; [exact Eo|exact El|]. intros _ HI.
      destruct (alias_site_none _ _ _ Eas) as (E0 & E1 & E2). destruct (HI h hp Eh E0) as [_ HT].
      specialize (HT E1 E2 _ Et). cbn in HT. rewrite Eo in HT. auto.
  - destruct (src_target s src) as [tg|] eqn:Et; [|discriminate].
    destruct (acq_check pol s AArg pc src) eqn:Ea; [discriminate|]. injection Hs as <-.
    apply EAdd. intros Ha HI. apply (hok_acquired pol s AArg src tg); auto.
  - destruct (nth_error (ptrs s) h) as [hp|] eqn:Eh; [|discriminate].
    destruct (pkind hp); try discriminate. destruct (ptgt hp) as [[o|o k]|]; try discriminate. injection Hs as <-.
    apply EUpd with hp; [exact Eh| |].
    + intros _ Hc. unfold same_handle. cbn. auto.
    + intros _ HI Hc. exact (HI h hp Eh Hc).
Qed.

Lemma effect_sig pol s s' : effect pol s s' -> sig s' = sig s.
Proof.
  intros [o k v b ob w _ [-> | ->] _|o vs b ob Ho Hl _|h _|p pt f _ _ _]; try reflexivity.
  - apply sig_write.
  - apply (sig_whole s o ob vs (gbad s) Ho Hl).
Qed.
Lemma step_sig pol s x s' : step pol s x = Ok s' -> sig s' = sig s.
Proof. intros Hs. exact (effect_sig _ _ _ (step_effect _ _ _ _ Hs)). Qed.

Lemma effect_inv pol s s' : all_checked pol -> Inv s -> effect pol s s' -> Inv s'.
Proof.
  intros Ha HI Ef. assert (Hs := effect_sig _ _ _ Ef). destruct Ef as [o k v b ob w _ Hw _|o vs b ob _ _ _|h L|p pt f Hp _ L].
  - apply (Inv_transfer s); [exact Hs| |exact HI]. destruct Hw as [-> | ->]; reflexivity.
  - apply (Inv_transfer s); [exact Hs|reflexivity|exact HI].
  - apply Inv_add; auto.
  - apply Inv_upd with pt; auto.
Qed.

Lemma read_write_other s o k v o' k' : (o, k) <> (o', k') -> read_slot (write_slot s o k v) o' k' = read_slot s o' k'.
Proof.
  intros Hne. unfold read_slot, write_slot; cbn. destruct (Nat.eq_dec o o') as [<-|Ho].
  - rewrite nth_error_upd_same. destruct (nth_error (objs s) o) as [ob|]; cbn; [|reflexivity].
    apply nth_error_upd_other. congruence.
  - rewrite nth_error_upd_other by exact Ho. reflexivity.
Qed.

(* a protected slot is not one that a policy making every test lets a step write *)
Lemma effect_prot pol s s' o' k' ob' : all_checked pol -> Inv s -> effect pol s s' ->
  nth_error (objs s) o' = Some ob' -> slot_prot ob' k' = true -> read_slot s' o' k' = read_slot s o' k'.
Proof.
  intros Ha HI Ef Ho' Hp'. destruct Ef as [o k v b ob w Ho Hw L|o vs b ob Ho _ L| |]; try reflexivity.
  - destruct (L Ha HI) as [Hp _]. destruct Hw as [-> | ->]; [reflexivity|].
    apply read_write_other. intros [= -> ->]. congruence.
  - destruct (L Ha HI) as (Hc & Hcm & _). unfold read_slot; cbn. destruct (Nat.eq_dec o o') as [<-|Hne].
    + exfalso. rewrite Ho in Ho'. injection Ho' as <-. unfold slot_prot in Hp'. rewrite Hc, no_cmember_nth in Hp' by exact Hcm. discriminate.
    + rewrite nth_error_upd_other by exact Hne. reflexivity.
Qed.

Lemma nth_error_add {A} (l : list A) a p x : nth_error l p = Some x -> nth_error (l ++ [a]) p = Some x.
Proof. intros H. rewrite nth_error_app1; [exact H|]. apply nth_error_Some. congruence. Qed.

Lemma effect_cptr pol s s' p pt : all_checked pol -> effect pol s s' ->
  nth_error (ptrs s) p = Some pt -> pcc pt = true -> exists pt', nth_error (ptrs s') p = Some pt' /\ same_handle pt pt'.
Proof.
  intros Ha Ef Hp Hc. assert (R := same_handle_refl pt Hc). destruct Ef as [o k v b ob w _ Hw _|o vs b ob _ _ _|h _|q pq f Hq L _].
  - exists pt. split; [destruct Hw as [-> | ->]; exact Hp|exact R].
  - exists pt. split; [exact Hp|exact R].
  - exists pt. split; [apply nth_error_add; exact Hp|exact R].
  - cbn [ptrs set_ptrs]. destruct (Nat.eq_dec q p) as [->|Hne].
    + rewrite nth_error_upd_same, Hp. rewrite Hq in Hp. injection Hp as ->. eexists. split; [reflexivity|auto].
    + rewrite nth_error_upd_other by exact Hne. exists pt. auto.
Qed.

Lemma effect_gbad pol s s' : all_checked pol -> Inv s -> effect pol s s' -> gbad s' = gbad s.
Proof.
  intros Ha HI [o k v b ob w _ Hw L|o vs b ob _ _ L| |]; try reflexivity.
  - destruct (L Ha HI) as [_ ->]. destruct Hw as [-> | ->]; apply orb_false_r.
  - destruct (L Ha HI) as (_ & _ & ->). apply orb_false_r.
Qed.

Lemma const_slots_immutable_l pol : all_checked pol -> forall ops i s o k ob,
  Inv s -> nth_error (objs s) o = Some ob -> slot_prot ob k = true ->
  read_slot (fst (run_from pol i s ops)) o k = read_slot s o k.
Proof.
  intros Ha. induction ops as [|x r IH]; intros i s o k ob HI Ho Hp; cbn [run_from]; [reflexivity|].
  destruct (step pol s x) as [s'| |] eqn:Es; [|reflexivity|reflexivity]. apply step_effect in Es.
  destruct (sig_nth s s' o ob (effect_sig _ _ _ Es) Ho) as (ob' & Ho' & Hsg).
  rewrite (IH (S i) s' o k ob'); [exact (effect_prot _ _ _ _ _ _ Ha HI Es Ho Hp)|exact (effect_inv _ _ _ Ha HI Es)|exact Ho'|].
  rewrite (slot_prot_sig _ _ _ Hsg). exact Hp.
Qed.

Lemma const_ptr_not_reseated_l pol : all_checked pol -> forall ops i s p pt,
  nth_error (ptrs s) p = Some pt -> pcc pt = true ->
  exists pt', nth_error (ptrs (fst (run_from pol i s ops))) p = Some pt' /\ same_handle pt pt'.
Proof.
  intros Ha. induction ops as [|x r IH]; intros i s p pt Hp Hc; cbn [run_from]; [exists pt; split; auto using same_handle_refl|].
  destruct (step pol s x) as [s'| |] eqn:Es; [|exists pt; split; auto using same_handle_refl|exists pt; split; auto using same_handle_refl].
  destruct (effect_cptr _ _ _ _ _ Ha (step_effect _ _ _ _ Es) Hp Hc) as (pt1 & H1 & (E1 & E2 & E3 & E4)).
  destruct (IH (S i) s' p pt1 H1 E2) as (pt2 & H2 & (F1 & F2 & F3 & F4)).
  exists pt2. split; [exact H2|]. unfold same_handle. repeat split; congruence.
Qed.

Lemma no_store_through_const_view_l pol : all_checked pol -> forall ops i s, Inv s -> gbad (fst (run_from pol i s ops)) = gbad s.
Proof.
  intros Ha. induction ops as [|x r IH]; intros i s HI; cbn [run_from]; [reflexivity|].
  destruct (step pol s x) as [s'| |] eqn:Es; [|reflexivity|reflexivity].
  apply step_effect in Es. rewrite IH by exact (effect_inv _ _ _ Ha HI Es). exact (effect_gbad _ _ _ Ha HI Es).
Qed.

(* [r] is the answer of the policy with every test, [r'] that of a policy [pol] with fewer (both executors write):
   they are the same unless [r] is a refusal by a test that [pol] lacks.  Each test is `chk pol st && condition`, tried
   in a fixed order, so [pol] passes every test that [spec] passes and stops at the first one [spec] stops at if it
   makes it. *)
Definition follows (pol : policy) (r r' : res) : Prop :=
  match r with Rejected st => chk pol st = true -> r' = r | _ => r' = r end.
Lemma follows_refl pol r : follows pol r r. Proof. destruct r; cbn; auto. Qed.
Lemma follows_test pol st (c : bool) k k' : follows pol k k' ->
  follows pol (if c then Rejected st else k) (if chk pol st && c then Rejected st else k').
Proof. intros H. destruct c; [cbn; intros ->; reflexivity|rewrite andb_false_r; exact H]. Qed.
Lemma follows_check pol st k : follows pol (Rejected st) (if chk pol st then Rejected st else k).
Proof. cbn. intros ->. reflexivity. Qed.
Lemma follows_acq pol s md pc src k k' : follows pol k k' ->
  follows pol (match acq_check spec s md pc src with Some st => Rejected st | None => k end)
              (match acq_check pol s md pc src with Some st => Rejected st | None => k' end).
Proof.
  intros H. unfold acq_check. rewrite <- !andb_assoc. cbn [chk spec andb].
  destruct (src_const s src && negb pc); [cbn; intros ->; reflexivity|rewrite andb_false_r; exact H].
Qed.

Lemma step_follows pol s x : (forall st, eff pol st = true) -> follows pol (step spec s x) (step pol s x).
Proof.
  intros He.
  destruct x as [f o k u|o vs|pc cc [src|]|p src|f p m u|param rc o k u|src u|f p d|par rc [o|h]|f h m u|h vs|pc src|h];
    cbn [step chk spec andb].
  - destruct (nth_error (objs s) o) as [ob|]; [|reflexivity]. destruct (nth_error (ovals ob) k); [|reflexivity].
    apply follows_test. unfold store. rewrite He. reflexivity.
  - destruct (nth_error (objs s) o) as [ob|]; [|reflexivity]. destruct (negb _); [reflexivity|].
    apply follows_test, follows_test, follows_refl.
  - destruct (src_target s src); [|reflexivity]. apply follows_acq, follows_refl.
  - reflexivity.
  - destruct (nth_error (ptrs s) p) as [pt|]; [|reflexivity]. destruct (src_target s src); [|reflexivity].
    destruct (negb _); [reflexivity|]. apply follows_test, follows_acq, follows_refl.
  - destruct (nth_error (ptrs s) p) as [pt|]; [|reflexivity]. destruct (negb _); [reflexivity|].
    destruct (store_slot _ _ _) as [[o k']|]; [|reflexivity]. destruct (nth_error (objs s) o) as [ob|]; [|reflexivity].
    destruct (nth_error (ovals ob) k'); [|reflexivity].
    apply follows_test. destruct (pform_member f); cbn [andb]; [apply follows_test|]; unfold store; rewrite He; reflexivity.
  - destruct (nth_error (objs s) o) as [ob|]; [|reflexivity]. destruct (nth_error (ovals ob) k); [|reflexivity].
    rewrite <- andb_assoc. apply follows_test, follows_test, follows_refl.
  - destruct (src_target s src) as [[[o|o k]|]|]; try reflexivity. destruct (read_slot s o k); [|reflexivity].
    apply follows_acq, follows_refl.
  - destruct (nth_error (ptrs s) p) as [pt|]; [|reflexivity]. destruct (negb _); [reflexivity|].
    destruct (ptgt pt) as [[o|o k]|]; try reflexivity. destruct (nth_error (objs s) o) as [ob|]; [|reflexivity].
    destruct (oshape ob); try reflexivity. destruct (_ || _); [reflexivity|]. apply follows_test, follows_refl.
  - destruct (nth_error (objs s) o) as [ob|]; [|reflexivity]. destruct (oshape ob); [|apply follows_refl|].
    all: destruct (negb (valid_tgt _ _)); [reflexivity|]. all: rewrite <- andb_assoc. all: apply follows_test, follows_refl.
  - destruct (nth_error (ptrs s) h) as [hp|]; [|reflexivity].
    destruct (pkind hp), (ptgt hp) as [t|]; try reflexivity; [|apply follows_refl].
    rewrite <- andb_assoc. apply follows_test, follows_refl.
  - destruct (nth_error (ptrs s) h) as [hp|]; [|reflexivity]. destruct (pkind hp), (ptgt hp) as [t|]; try reflexivity.
    + destruct f; try reflexivity.
      all: destruct (nth_error (objs s) (tgt_obj t)) as [ob|]; [|reflexivity].
      all: destruct (nth_error (ovals ob) _); [|reflexivity]. all: apply follows_test.
      all: destruct (ref_store_check t ob hp) as [st|]; [apply follows_check|apply follows_refl].
    + destruct t as [o|o k]; [|reflexivity]. destruct (nth_error (objs s) o) as [ob|]; [|reflexivity].
      destruct (nth_error (ovals ob) m); [|reflexivity].
      destruct (alias_site false f hp) as [st|]; [apply follows_check|apply follows_test, follows_refl].
  - destruct (nth_error (ptrs s) h) as [hp|]; [|reflexivity]. destruct (pkind hp), (ptgt hp) as [[o|o k]|]; try reflexivity.
    destruct (nth_error (objs s) o) as [ob|]; [|reflexivity]. destruct (_ || _); [reflexivity|].
    destruct (alias_site true FAssign hp) as [st|]; [apply follows_check|apply follows_refl].
  - destruct (src_target s src); [|reflexivity]. apply follows_acq, follows_refl.
  - apply follows_refl.
Qed.

(* hence whole scripts run alike, up to and including the first refusal, unless that refusal is by a test [pol] lacks *)
Lemma run_follows pol : (forall st, eff pol st = true) -> forall ops i s,
  match snd (run_from spec i s ops) with
  | RejectedAt _ st => chk pol st = true -> run_from pol i s ops = run_from spec i s ops
  | _ => run_from pol i s ops = run_from spec i s ops
  end.
Proof.
  intros He. induction ops as [|x r IH]; intros i s; cbn [run_from]; [reflexivity|].
  assert (F := step_follows pol s x He). destruct (step spec s x) as [s'|st|]; cbn in F.
  - rewrite F. apply IH.
  - cbn. intros H. rewrite (F H). reflexivity.
  - rewrite F. reflexivity.
Qed.

(* a source that would give write access to something const - the address of a protected object, a pointer to const -
   is refused wherever the receiving pointer permits writes, and accepted by a pointer to const *)
Lemma const_source_refused pol s src tg : all_checked pol -> src_target s src = Some tg -> src_const s src = true ->
  (forall cc, exists st, step pol s (OPtrNew false cc (Some src)) = Rejected st) /\
  (forall q pq, nth_error (ptrs s) q = Some pq -> is_ptr pq = true -> ppc pq = false -> exists st, step pol s (OPtrSet q src) = Rejected st) /\
  (forall u, step pol s (OPtrCall src u) = Stuck \/ exists st, step pol s (OPtrCall src u) = Rejected st) /\
  (exists st, step pol s (OPtrParam false src) = Rejected st) /\
  (forall cc, exists s', step pol s (OPtrNew true cc (Some src)) = Ok s') /\
  (exists s', step pol s (OPtrParam true src) = Ok s').
Proof.
  intros Ha Et Hc.
  assert (R : forall md, acq_check pol s md false src = Some (acq_site s md src))
    by (intros md; unfold acq_check; rewrite Ha, Hc; reflexivity).
  assert (A : forall md, acq_check pol s md true src = None)
    by (intros md; unfold acq_check; cbn [negb]; rewrite andb_false_r; reflexivity).
  repeat split.
  - intros cc. cbn [step]. rewrite Et, R. eauto.
  - intros q pq Hq Hk Hcq. cbn [step]. rewrite Hq, Et, Hk. cbn [negb]. rewrite Ha. cbn [andb].
    destruct (pcc pq); [eauto|]. rewrite Hcq, R. eauto.
  - intros u. cbn [step]. rewrite Et. destruct tg as [[o|o k]|]; auto. destruct (read_slot s o k); [|auto]. rewrite R. eauto.
  - cbn [step]. rewrite Et, R. eauto.
  - intros cc. cbn [step]. rewrite Et, A. eauto.
  - cbn [step]. rewrite Et, A. eauto.
Qed.
