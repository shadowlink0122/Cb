(* C09 - proofs about the access-path machine of Paths.v.  An accepted store replaces, in one variable, the node at one
   path by a node of the same shape and flags ([pstep_ok]).  So no script changes a flag or a shape ([same_frame]), and
   under the policy that makes every test a protected cell lies beside the replaced node, never inside it. *)
From Coq Require Import List ZArith Bool Lia.
From Cb Require Import C09.Paths.
Import ListNotations.
Local Open Scope Z_scope.

Lemma fnth_fset_same : forall f i c k k', fnth f i = Some (c, k) -> fnth (fset f i k') i = Some (c, k').
Proof.
  induction f as [|c0 t r IH]; intros i c k k' H; [discriminate|].
  destruct i; cbn in *; [now inversion H | eauto].
Qed.
Lemma fnth_fset_other : forall f i j k', i <> j -> fnth (fset f i k') j = fnth f j.
Proof.
  induction f as [|c0 t r IH]; intros i j k' H; [reflexivity|].
  destruct i, j; cbn; try reflexivity; [congruence | apply IH; congruence].
Qed.
Lemma kids_rebuild : forall t ix f g, kids t = Some (ix, f) -> kids (rebuild t g) = Some (ix, g).
Proof. destruct t; cbn; intros; congruence. Qed.

Fixpoint prefixb (p q : path) : bool :=
  match p, q with
  | [], _ => true
  | i :: r, j :: r' => Nat.eqb i j && prefixb r r'
  | _ :: _, [] => false
  end.
Lemma prefixb_app : forall p q, prefixb p q = true -> exists r, q = p ++ r.
Proof.
  induction p as [|i r IH]; intros q H; [now exists q|].
  destruct q as [|j q']; [discriminate|]. cbn in H. apply andb_true_iff in H as [E H].
  apply Nat.eqb_eq in E as ->. destruct (IH _ H) as [x ->]. now exists x.
Qed.

Lemma get_put_same : forall p n t t', put p n t = Some t' -> get p t' = Some n.
Proof.
  induction p as [|i r IH]; intros n t t' H; cbn in *; [congruence|].
  destruct (kids t) as [[ix f]|] eqn:K; [|discriminate].
  destruct (fnth f i) as [[c k]|] eqn:F; [|discriminate].
  destruct (put r n k) as [k'|] eqn:P; [|discriminate]. inversion H; subst t'.
  rewrite (kids_rebuild _ _ _ _ K), (fnth_fset_same _ _ _ _ k' F). eauto.
Qed.

Lemma put_defined : forall p n t old, get p t = Some old -> exists t', put p n t = Some t'.
Proof.
  induction p as [|i p IH]; intros n t old G; cbn in *; [eauto|].
  destruct (kids t) as [[ix g]|]; [|discriminate]. destruct (fnth g i) as [[c k]|]; [|discriminate].
  destruct (IH n k old G) as [k' ->]. eauto.
Qed.

(* a store at p leaves every scalar cell alone whose path does not start with p *)
Lemma get_put_disjoint : forall p n t t' q z,
  put p n t = Some t' -> get q t = Some (TLeaf z) -> prefixb p q = false -> get q t' = Some (TLeaf z).
Proof.
  induction p as [|i r IH]; intros n t t' q z H G Pf; [discriminate|]. cbn in H.
  destruct (kids t) as [[ix f]|] eqn:K; [|discriminate].
  destruct (fnth f i) as [[c k]|] eqn:F; [|discriminate].
  destruct (put r n k) as [k'|] eqn:P; [|discriminate]. inversion H; subst t'. clear H.
  destruct q as [|j q'].
  - cbn in G. inversion G; subst t. discriminate.
  - cbn in G |- *. rewrite K in G. rewrite (kids_rebuild _ _ _ _ K).
    cbn in Pf. destruct (Nat.eqb i j) eqn:E.
    + apply Nat.eqb_eq in E as <-. rewrite F in G. rewrite (fnth_fset_same _ _ _ _ k' F). cbn in Pf. eauto.
    + apply Nat.eqb_neq in E. rewrite (fnth_fset_other _ _ _ _ E). exact G.
Qed.

Lemma get_app : forall p r t sub, get p t = Some sub -> get (p ++ r) t = get r sub.
Proof.
  induction p as [|i p IH]; intros r t sub H; cbn in *; [now inversion H|].
  destruct (kids t) as [[ix f]|]; [|discriminate]. destruct (fnth f i) as [[c k]|]; [|discriminate]. eauto.
Qed.
Lemma edges_app : forall p r t sub, get p t = Some sub -> edges (p ++ r) t = edges p t ++ edges r sub.
Proof.
  induction p as [|i p IH]; intros r t sub H; cbn in *; [now inversion H|].
  destruct (kids t) as [[ix f]|]; [|discriminate]. destruct (fnth f i) as [[c k]|]; [|discriminate].
  cbn. f_equal. eauto.
Qed.

Lemma fnth_fskel : forall f i, fnth (fskel f) i = match fnth f i with Some (c, k) => Some (c, skel k) | None => None end.
Proof. induction f as [|c t r IH]; intros i; [reflexivity|]. destruct i; cbn; [reflexivity | apply IH]. Qed.
Lemma edges_skel : forall p t, edges p (skel t) = edges p t.
Proof.
  induction p as [|i p IH]; intros t; [reflexivity|].
  destruct t as [z|f|f]; cbn; [reflexivity| |]; rewrite fnth_fskel; destruct (fnth f i) as [[c k]|]; cbn; try reflexivity;
    now rewrite IH.
Qed.
Lemma steps_skel : forall p t, steps p (skel t) = steps p t.
Proof.
  induction p as [|i p IH]; intros t; [reflexivity|].
  destruct t as [z|f|f]; cbn; [reflexivity| |]; rewrite fnth_fskel; destruct (fnth f i) as [[c k]|]; cbn; try reflexivity;
    now rewrite IH.
Qed.
Lemma fskel_fset : forall f i k k', fnth f i = Some k -> skel k' = skel (snd k) -> fskel (fset f i k') = fskel f.
Proof.
  induction f as [|c t r IH]; intros i k k' H E; [reflexivity|].
  destruct i; cbn in *.
  - inversion H; subst k. cbn in E. now rewrite E.
  - f_equal. eauto.
Qed.
Lemma skel_put : forall p n t t' old,
  get p t = Some old -> skel n = skel old -> put p n t = Some t' -> skel t' = skel t.
Proof.
  induction p as [|i p IH]; intros n t t' old G E H; cbn in *.
  - inversion G; inversion H; subst. exact E.
  - destruct (kids t) as [[ix f]|] eqn:K; [|discriminate].
    destruct (fnth f i) as [[c k]|] eqn:F; [|discriminate].
    destruct (put p n k) as [k'|] eqn:P; [|discriminate]. inversion H; subst t'.
    assert (S1 : skel k' = skel k) by eauto.
    assert (S2 : fskel (fset f i k') = fskel f) by (eapply fskel_fset; [exact F | exact S1]).
    destruct t; cbn in K; inversion K; subst; cbn; now rewrite S2.
Qed.
Lemma graft_skel : (forall old new n, graft old new = Some n -> skel n = skel old) /\
                   (forall f g h, fgraft f g = Some h -> fskel h = fskel f).
Proof.
  apply tree_forest_ind.
  - intros z new n H. destruct new; cbn in H; inversion H. reflexivity.
  - intros f IH new n H. destruct new as [|g|]; cbn in H; try discriminate.
    destruct (fgraft f g) eqn:E; [|discriminate]. inversion H. cbn. f_equal. eauto.
  - intros f IH new n H. destruct new as [| |g]; cbn in H; try discriminate.
    destruct (fgraft f g) eqn:E; [|discriminate]. inversion H. cbn. f_equal. eauto.
  - intros g h H. destruct g; cbn in H; inversion H. reflexivity.
  - intros c t IHt r IHr g h H. destruct g as [|c' t' r']; cbn in H; [discriminate|].
    destruct (graft t t') eqn:E1; [|discriminate]. destruct (fgraft r r') eqn:E2; [|discriminate].
    inversion H. cbn. f_equal; eauto.
Qed.

(* a const member on a path into a subtree is a const member inside that subtree *)
Lemma cpath_has_const : forall r sub, cpath r sub = true -> has_const sub = true.
Proof.
  assert (FH : forall f i c k, fnth f i = Some (c, k) -> (c = true \/ has_const k = true) -> fin_struct f || fin_plain f = true).
  { induction f as [|c0 t r IH]; intros i c k H D; [discriminate|]. destruct i; cbn in H.
    - inversion H; subst c0 t. cbn. unfold has_const in D. destruct D as [-> | D].
      + destruct (plain k); cbn; [now rewrite orb_true_r | reflexivity].
      + apply orb_true_iff in D as [D | D]; rewrite D; cbn; repeat rewrite orb_true_r; reflexivity.
    - cbn. specialize (IH _ _ _ H D). apply orb_true_iff in IH as [E | E]; rewrite E; repeat rewrite orb_true_r; reflexivity. }
  induction r as [|i r IH]; intros sub H; [discriminate|].
  unfold cpath in H. cbn in H. destruct sub as [z|f|f]; cbn in H; try discriminate;
    (destruct (fnth f i) as [[c k]|] eqn:F; [|discriminate]); cbn in H; unfold has_const; cbn;
    apply (FH f i c k F); apply orb_true_iff in H as [H | H]; [now left | right; now apply IH | now left | right; now apply IH].
Qed.

Lemma find_spec : forall l : list psite, find pspec l = match l with [] => None | a :: _ => Some a end.
Proof. destruct l; reflexivity. Qed.
Lemma true_positions_nil : forall l i, true_positions i l = [] <-> existsb (fun b => b) l = false.
Proof.
  induction l as [|b r IH]; intros i; cbn; [tauto|]. destruct b; cbn; [split; discriminate | apply IH].
Qed.
Lemma set_reasons_nil : forall v p f, set_reasons v p f = [] <-> vconst v = false /\ cpath p (vtree v) = false.
Proof.
  intros v p f. unfold set_reasons, cpath. destruct (vconst v); cbn.
  - split; [discriminate | intros [H _]; discriminate].
  - rewrite <- (true_positions_nil (edges p (vtree v)) 0).
    destruct (true_positions 0 (edges p (vtree v))); cbn; split; intros H; try tauto; try discriminate.
    destruct H; discriminate.
Qed.
Lemma sub_reasons_nil : forall v p lit sub,
  sub_reasons v p lit sub = [] <-> vconst v = false /\ cpath p (vtree v) = false /\ has_const sub = false.
Proof.
  intros v p lit sub. unfold sub_reasons, has_const.
  destruct (vconst v), (cpath p (vtree v)), (in_struct sub), (in_plain sub); cbn; split; intros H; try discriminate; try tauto;
    destruct H as (? & ? & ?); discriminate.
Qed.

Lemma root_of_lv_from : forall p e st, root_of (lv_from e p st) = root_of e.
Proof.
  induction p as [|i p IH]; intros e st; [destruct st; reflexivity|].
  destruct st as [|[] st]; cbn; rewrite IH; reflexivity.
Qed.
Lemma lpath_lv_from : forall p e st, lpath (lv_from e p st) = lpath e ++ p.
Proof.
  induction p as [|i p IH]; intros e st; [destruct st; cbn; now rewrite app_nil_r|].
  destruct st as [|[] st]; cbn; rewrite IH; cbn; now rewrite <- app_assoc.
Qed.
Lemma lv_from_snoc : forall p e st i b, length st = length p ->
  lv_from e (p ++ [i]) (st ++ [b]) = (if b then LIdx (lv_from e p st) i else LMem (lv_from e p st) i).
Proof.
  induction p as [|j p IH]; intros e st i b L.
  - destruct st; [|discriminate]. destruct b; reflexivity.
  - destruct st as [|c st]; [discriminate|]. cbn in L. injection L as L.
    destruct c; cbn; now rewrite IH.
Qed.
Lemma lv_from_is_var : forall p e st x, length st = length p -> lv_from e p st = LVar x -> p = [] /\ e = LVar x.
Proof.
  intros p e st x L. destruct p as [|i p] using rev_ind; [destruct st; cbn; tauto|].
  destruct st as [|b st] using rev_ind; [rewrite app_length in L; cbn in L; lia|].
  rewrite !app_length in L. cbn in L. rewrite lv_from_snoc by lia. destruct b; discriminate.
Qed.
Definition same_var (a b : pvar) : Prop := vconst a = vconst b /\ skel (vtree a) = skel (vtree b).
Definition same_frame (s s' : pstate) : Prop := Forall2 same_var s s'.

Lemma nth_upd_var_same : forall s x t v,
  nth_error s x = Some v -> nth_error (upd_var x t s) x = Some {| vconst := vconst v; vtree := t |}.
Proof.
  induction s as [|a r IH]; intros x t v H; [destruct x; discriminate|].
  destruct x; cbn in *; [now inversion H | eauto].
Qed.
Lemma nth_upd_var_other : forall s x y t, x <> y -> nth_error (upd_var x t s) y = nth_error s y.
Proof.
  induction s as [|a r IH]; intros x y t H; [destruct x; reflexivity|].
  destruct x, y; cbn; try reflexivity; [congruence | apply IH; congruence].
Qed.
Lemma same_frame_refl : forall s, same_frame s s.
Proof. induction s; constructor; [split; reflexivity | assumption]. Qed.
Lemma same_frame_trans : forall a b c, same_frame a b -> same_frame b c -> same_frame a c.
Proof.
  intros a b c H. revert c. induction H as [|x y l l' [H1 H2] _ IH]; intros c H'.
  - inversion H'. constructor.
  - inversion H' as [|y' z l1 l2 [H3 H4] H5]; subst. constructor; [split; congruence | apply IH; exact H5].
Qed.
Lemma same_frame_upd : forall s x t v,
  nth_error s x = Some v -> skel t = skel (vtree v) -> same_frame s (upd_var x t s).
Proof.
  induction s as [|a r IH]; intros x t v H E; [destruct x; constructor|].
  destruct x; cbn in *.
  - inversion H; subst a. constructor; [split; [reflexivity | cbn; symmetry; exact E] | apply same_frame_refl].
  - constructor; [split; reflexivity | eapply IH; eassumption].
Qed.
Lemma same_frame_nth : forall s s' x, same_frame s s' ->
  match nth_error s x, nth_error s' x with
  | Some a, Some b => same_var a b
  | None, None => True
  | _, _ => False
  end.
Proof.
  intros s s' x H. revert x. induction H as [|a b l l' Hab _ IH]; intros x; [destruct x; exact I|].
  destruct x; cbn; [exact Hab | apply IH].
Qed.
Lemma cpath_skel : forall q t t', skel t = skel t' -> cpath q t = cpath q t'.
Proof. intros q t t' E. unfold cpath. now rewrite <- (edges_skel q t), <- (edges_skel q t'), E. Qed.
Lemma same_frame_protected : forall s s' x q, same_frame s s' -> protected s' x q = protected s x q.
Proof.
  intros s s' x q H. unfold protected. assert (N := same_frame_nth s s' x H).
  destruct (nth_error s x) as [a|], (nth_error s' x) as [b|]; try contradiction; [|reflexivity].
  destruct N as [N1 N2]. now rewrite N1, (cpath_skel q _ _ N2).
Qed.

Lemma cell_upd_same : forall s x t v q,
  nth_error s x = Some v -> cell (upd_var x t s) x q = match get q t with Some (TLeaf z) => Some z | _ => None end.
Proof. intros. unfold cell. now rewrite (nth_upd_var_same _ _ t _ H). Qed.
Lemma cell_upd_other : forall s x y t q, x <> y -> cell (upd_var x t s) y q = cell s y q.
Proof. intros. unfold cell. now rewrite nth_upd_var_other. Qed.

(* a whole-sub-object store whose target is a struct or an array *)
Lemma pstep_sub_node : forall pol s e lit src v sub,
  nth_error s (root_of e) = Some v -> get (lpath e) (vtree v) = Some sub -> (forall z, sub <> TLeaf z) ->
  pstep pol s (OSub e lit src) =
  match graft sub src with
  | None => PStuck
  | Some n => match find pol (sub_reasons v (lpath e) lit sub) with
              | Some st => PRejected st
              | None => match put (lpath e) n (vtree v) with Some t' => POk (upd_var (root_of e) t' s) | None => PStuck end
              end
  end.
Proof. intros pol s e lit src v sub N G NL. cbn. rewrite N, G. destruct sub as [z| |]; [elim (NL z)|..]; reflexivity. Qed.

(* An accepted store replaces, in one variable, the node at some path by a node of the same shape and flags.  Under the
   policy that makes every test the variable is not const, no member on the way is, and no member inside the node is. *)
Lemma pstep_ok : forall pol s o s', pstep pol s o = POk s' ->
  exists x v p old n t', nth_error s x = Some v /\ get p (vtree v) = Some old /\ skel n = skel old /\
    put p n (vtree v) = Some t' /\ s' = upd_var x t' s /\
    (pol = pspec -> vconst v = false /\ cpath p (vtree v) = false /\ has_const old = false).
Proof.
  intros pol s o s' H. destruct o as [e f u | e lit src]; cbn in H;
    destruct (nth_error s (root_of e)) as [v|] eqn:N; try discriminate.
  - destruct (get (lpath e) (vtree v)) as [[old| |]|] eqn:G; try discriminate.
    destruct (find pol (set_reasons v (lpath e) f)) eqn:R; [discriminate|].
    destruct (put (lpath e) (TLeaf (pnewval f old u)) (vtree v)) as [t'|] eqn:P; [|discriminate]. injection H as <-.
    exists (root_of e), v, (lpath e), (TLeaf old), (TLeaf (pnewval f old u)), t'.
    split; [exact N|]. split; [exact G|]. split; [reflexivity|]. split; [exact P|]. split; [reflexivity|].
    intros ->. rewrite find_spec in R. destruct (set_reasons v (lpath e) f) eqn:R'; [|discriminate].
    apply set_reasons_nil in R'. cbn. tauto.
  - destruct (get (lpath e) (vtree v)) as [sub|] eqn:G; [|discriminate]. destruct sub as [z|g|g]; [discriminate| |].
    all: destruct (graft _ src) as [n|] eqn:GR; [|discriminate].
    all: destruct (find pol (sub_reasons v (lpath e) lit _)) eqn:R; [discriminate|].
    all: destruct (put (lpath e) n (vtree v)) as [t'|] eqn:P; [|discriminate]. all: injection H as <-.
    all: eexists (root_of e), v, (lpath e), _, n, t'.
    all: split; [exact N|]; split; [exact G|]; split; [exact (proj1 graft_skel _ _ _ GR)|]; split; [exact P|]; split; [reflexivity|].
    all: intros ->; rewrite find_spec in R; destruct (sub_reasons v (lpath e) lit _) eqn:R'; [|discriminate].
    all: apply sub_reasons_nil in R'; exact R'.
Qed.

(* whatever tests are made, a step changes values only: const flags and shapes stay *)
Lemma pstep_frame : forall pol s o s', pstep pol s o = POk s' -> same_frame s s'.
Proof.
  intros pol s o s' H. destruct (pstep_ok _ _ _ _ H) as (x & v & p & old & n & t' & N & G & Sk & P & -> & _).
  eapply same_frame_upd; [exact N|]. exact (skel_put _ _ _ _ _ G Sk P).
Qed.

(* under the policy that makes every test, an accepted step leaves every protected scalar cell as it was: a cell of the
   same variable lies beside the replaced node, or inside it - and then a const member would lie inside it *)
Lemma pstep_spec_keeps : forall s o s' x q z,
  pstep pspec s o = POk s' -> cell s x q = Some z -> protected s x q = true -> cell s' x q = Some z.
Proof.
  intros s o s' x q z H C Pr. destruct (pstep_ok _ _ _ _ H) as (y & v & p & old & n & t' & N & G & _ & P & -> & L).
  destruct (L eq_refl) as (Rc & Rp & Rh). destruct (Nat.eq_dec y x) as [->|NE]; [|now rewrite cell_upd_other].
  rewrite (cell_upd_same _ _ _ _ _ N). unfold cell in C. rewrite N in C. unfold protected in Pr. rewrite N, Rc in Pr. cbn in Pr.
  destruct (get q (vtree v)) as [[z'| |]|] eqn:GQ; try discriminate. inversion C; subst z'.
  destruct (prefixb p q) eqn:PF.
  - apply prefixb_app in PF as [r ->]. unfold cpath in Pr, Rp. rewrite (edges_app _ r _ _ G), existsb_app, Rp in Pr. cbn in Pr.
    apply cpath_has_const in Pr. congruence.
  - now rewrite (get_put_disjoint _ _ _ _ _ _ P GQ PF).
Qed.

Lemma prun_frame : forall pol ops i s s' oc, prun_from pol i s ops = (s', oc) -> same_frame s s'.
Proof.
  induction ops as [|o r IH]; intros i s s' oc H; cbn in H.
  - inversion H. apply same_frame_refl.
  - destruct (pstep pol s o) as [s1| |] eqn:S; [| inversion H; apply same_frame_refl ..].
    eapply same_frame_trans; [eapply pstep_frame; exact S | eapply IH; exact H].
Qed.
Lemma prun_spec_keeps : forall ops i s s' oc x q z,
  prun_from pspec i s ops = (s', oc) -> cell s x q = Some z -> protected s x q = true -> cell s' x q = Some z.
Proof.
  induction ops as [|o r IH]; intros i s s' oc x q z H C Pr; cbn in H.
  - now inversion H; subst.
  - destruct (pstep pspec s o) as [s1| |] eqn:S; [| now inversion H; subst ..].
    eapply IH; [exact H | eapply pstep_spec_keeps; eassumption |].
    rewrite (same_frame_protected _ _ x q (pstep_frame _ _ _ _ S)). exact Pr.
Qed.
