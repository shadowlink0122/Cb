(* C09 - access paths into nested objects.
   The machine of ConstPtr.v has flat objects (a struct is a list of integer slots).  This file models what it lacks: a
   variable is a TREE (struct of scalars / arrays / structs / arrays of structs, to any depth), `const` sits on the variable
   (the root) and on individual struct members (edges of the tree), and a store names its target by an ACCESS PATH - an
   l-value expression `x`, `e.m`, `e[i]` in any mix.  The implementation finds the variable whose const flag it tests by
   walking that expression (executors/assignments/member_assignment.cpp execute_member_assignment, nested branch :161-187)
   and picks the executor - and with it the const tests that are made - by the SHAPE of the path; both are explicit here
   ([root_of], [classify], one check site per shape and reason).  Definitions only; proofs in PathLemmas.v. *)
From Coq Require Import List ZArith Bool Arith.
Import ListNotations.
Local Open Scope Z_scope.

(* ------------------------------------------------------------------ nested values *)
(* [FCons c t r]: a child (struct member / array element) t; c = the member is declared `const` (array elements: false) *)
Inductive tree := TLeaf (z : Z) | TRec (f : forest) | TArr (f : forest)
with forest := FNil | FCons (c : bool) (t : tree) (r : forest).

Scheme tree_mind := Induction for tree Sort Prop
  with forest_mind := Induction for forest Sort Prop.
Combined Scheme tree_forest_ind from tree_mind, forest_mind.

Fixpoint fnth (f : forest) (i : nat) : option (bool * tree) :=
  match f with
  | FNil => None
  | FCons c t r => match i with O => Some (c, t) | S k => fnth r k end
  end.
Fixpoint fset (f : forest) (i : nat) (t' : tree) : forest :=
  match f with
  | FNil => FNil
  | FCons c t r => match i with O => FCons c t' r | S k => FCons c t (fset r k t') end
  end.
Fixpoint flen (f : forest) : nat := match f with FNil => O | FCons _ _ r => S (flen r) end.

(* the children of a node; the flag says whether a step into it is a subscript ([i]) or a member access (.m) *)
Definition kids (t : tree) : option (bool * forest) :=
  match t with TLeaf _ => None | TRec f => Some (false, f) | TArr f => Some (true, f) end.
Definition rebuild (t : tree) (f : forest) : tree :=
  match t with TRec _ => TRec f | TArr _ => TArr f | TLeaf z => TLeaf z end.

Definition path := list nat.

Fixpoint get (p : path) (t : tree) : option tree :=
  match p with
  | [] => Some t
  | i :: r => match kids t with
              | None => None
              | Some (_, f) => match fnth f i with None => None | Some (_, k) => get r k end
              end
  end.
Fixpoint put (p : path) (n : tree) (t : tree) : option tree :=
  match p with
  | [] => Some n
  | i :: r => match kids t with
              | None => None
              | Some (_, f) =>
                  match fnth f i with
                  | None => None
                  | Some (_, k) => match put r n k with None => None | Some k' => Some (rebuild t (fset f i k')) end
                  end
              end
  end.
(* the const flags of the edges along a path, and the kinds of its steps (true = subscript) *)
Fixpoint edges (p : path) (t : tree) : list bool :=
  match p with
  | [] => []
  | i :: r => match kids t with
              | None => []
              | Some (_, f) => match fnth f i with None => [] | Some (c, k) => c :: edges r k end
              end
  end.
Fixpoint steps (p : path) (t : tree) : list bool :=
  match p with
  | [] => []
  | i :: r => match kids t with
              | None => []
              | Some (ix, f) => match fnth f i with None => [] | Some (_, k) => ix :: steps r k end
              end
  end.
Definition cpath (p : path) (t : tree) : bool := existsb (fun b => b) (edges p t).

(* is a node "plain" (a scalar or an array of scalars) or does it contain structs? *)
Fixpoint all_leaves (f : forest) : bool :=
  match f with FNil => true | FCons _ (TLeaf _) r => all_leaves r | FCons _ _ _ => false end.
Definition plain (t : tree) : bool := match t with TLeaf _ => true | TArr f => all_leaves f | TRec _ => false end.
(* const members somewhere inside: of struct / struct-array type, of scalar / scalar-array type *)
Fixpoint in_struct (t : tree) : bool :=
  match t with TLeaf _ => false | TRec f | TArr f => fin_struct f end
with fin_struct (f : forest) : bool :=
  match f with FNil => false | FCons c t r => (c && negb (plain t)) || in_struct t || fin_struct r end.
Fixpoint in_plain (t : tree) : bool :=
  match t with TLeaf _ => false | TRec f | TArr f => fin_plain f end
with fin_plain (f : forest) : bool :=
  match f with FNil => false | FCons c t r => (c && plain t) || in_plain t || fin_plain r end.
Definition has_const (t : tree) : bool := in_struct t || in_plain t.

(* the values of [new] in the shape and with the flags of [old]; None = the shapes differ *)
Fixpoint graft (old new : tree) : option tree :=
  match old, new with
  | TLeaf _, TLeaf z => Some (TLeaf z)
  | TRec f, TRec g => match fgraft f g with Some h => Some (TRec h) | None => None end
  | TArr f, TArr g => match fgraft f g with Some h => Some (TArr h) | None => None end
  | _, _ => None
  end
with fgraft (f g : forest) : option forest :=
  match f, g with
  | FNil, FNil => Some FNil
  | FCons c t r, FCons _ t' r' =>
      match graft t t', fgraft r r' with Some a, Some b => Some (FCons c a b) | _, _ => None end
  | _, _ => None
  end.

(* all scalar cells, in declaration order (what an observation prints) *)
Fixpoint cells (t : tree) : list Z :=
  match t with TLeaf z => [z] | TRec f | TArr f => fcells f end
with fcells (f : forest) : list Z :=
  match f with FNil => [] | FCons _ t r => cells t ++ fcells r end.
Fixpoint leaf_paths (t : tree) : list path :=
  match t with TLeaf _ => [[]] | TRec f | TArr f => fpaths 0 f end
with fpaths (i : nat) (f : forest) : list path :=
  match f with FNil => [] | FCons _ t r => map (cons i) (leaf_paths t) ++ fpaths (S i) r end.
(* every node below the root that is not a scalar (targets of whole-sub-object stores) *)
Fixpoint node_paths (t : tree) : list path :=
  match t with TLeaf _ => [] | TRec f | TArr f => [] :: fnodes 0 f end
with fnodes (i : nat) (f : forest) : list path :=
  match f with FNil => [] | FCons _ t r => map (cons i) (node_paths t) ++ fnodes (S i) r end.

(* ------------------------------------------------------------------ l-values and the walk to the root *)
Inductive lv := LVar (x : nat) | LMem (e : lv) (m : nat) | LIdx (e : lv) (i : nat).

(* member_assignment.cpp:162  while (MEMBER_ACCESS or ARRAY_REF) root = root->left : strips any mix of the two *)
Fixpoint root_of (e : lv) : nat :=
  match e with LVar x => x | LMem e' _ => root_of e' | LIdx e' _ => root_of e' end.
(* the child indices from the root to the target (the kind of each step is fixed by the object: struct -> member) *)
Fixpoint lpath (e : lv) : path :=
  match e with LVar _ => [] | LMem e' m => lpath e' ++ [m] | LIdx e' i => lpath e' ++ [i] end.
(* the l-value that names child indices p of variable x in a tree of that shape *)
Fixpoint lv_from (e : lv) (p : path) (st : list bool) : lv :=
  match p, st with
  | i :: r, true :: sr => lv_from (LIdx e i) r sr
  | i :: r, _ :: sr => lv_from (LMem e i) r sr
  | i :: r, [] => lv_from (LMem e i) r []
  | [], _ => e
  end.
Definition lv_of (x : nat) (p : path) (t : tree) : lv := lv_from (LVar x) p (steps p t).

(* A narrower walk (what the code would do if it only expected `a.b.c` and `arr[i].b.c`): strip the member accesses,
   then at most one subscript.  Properties_C09_paths.narrow_walk_misses_subscript_after_first_step: it misses the root of
   exactly the paths that have a subscript after the first step. *)
Fixpoint strip_members (e : lv) : lv := match e with LMem e' _ => strip_members e' | _ => e end.
Definition narrow_root (e : lv) : option nat :=
  match strip_members e with
  | LVar x => Some x
  | LIdx (LVar x) _ => Some x
  | _ => None
  end.

(* ------------------------------------------------------------------ check sites *)
Inductive sform := FSet | FOp | FInc.                          (* =   op=   ++/-- *)
(* the shape of a path to a scalar cell: which executor carries out the store
   CElem        x[i]                 int array variable (operations.cpp; also in ConstPtr.v)
   CDirect      x.m                  structs/assignment.cpp assign_struct_member; incdec.cpp member branch
   CDirectElem  x.a[i]               structs/assignment.cpp assign_struct_member_array_element
   CChain       x.a.b(.c ...)        member_assignment.cpp nested branch, only member accesses
   CRootIdx     x[i].a(.b ...)       member_assignment.cpp nested branch, subscript at the root
   CMidIdx      x.a[i].b(.c ...)     member_assignment.cpp nested branch, subscript in the middle of the chain
   COther       anything else (two subscripts, a subscript deeper down): not executable by the implementation *)
Inductive pcls := CElem | CDirect | CDirectElem | CChain | CRootIdx | CMidIdx | COther.
Definition all_mem (l : list bool) : bool := forallb negb l.
Definition classify (st : list bool) : pcls :=
  match st with
  | [true] => CElem
  | [false] => CDirect
  | [false; true] => CDirectElem
  | false :: false :: r => if all_mem r then CChain else COther
  | true :: false :: r => if all_mem r then CRootIdx else COther
  | false :: true :: false :: r => if all_mem r then CMidIdx else COther
  | _ => COther
  end.
(* whole-sub-object stores: x = ..; x.m = ..; x.a[i] = ..; x[i] = ..; deeper *)
Inductive skind := SkWhole | SkMember | SkMemberElem | SkRootElem | SkDeep.
(* (an ARRAY as the target - x.a = [..], x.items = t, x = arr - has no executor: SkDeep) *)
Definition sclassify (st : list bool) (sub : tree) : skind :=
  match st, sub with
  | [], TRec _ => SkWhole
  | [false], TRec _ => SkMember
  | [false; true], TRec _ => SkMemberElem
  | [true], TRec _ => SkRootElem
  | _, _ => SkDeep
  end.
(* why a whole-sub-object store must be refused: the variable is const; a member on the way to the target is const;
   a member of struct / struct-array type inside the target is const; a scalar / scalar-array member inside is const *)
Inductive sreason := RRoot | REdge | RInStruct | RInPlain.

Inductive psite :=
| PRoot (c : pcls) (f : sform)      (* the variable is const *)
| PLast (c : pcls) (f : sform)      (* the last member named by the path is a const member *)
| PInner (c : pcls)                 (* a member further up the path is const (of struct / array type) *)
| PSub (k : skind) (lit : bool) (r : sreason).   (* whole-sub-object store; lit: the source is a literal, else a variable *)

Definition sform_eqb (a b : sform) : bool :=
  match a, b with FSet, FSet | FOp, FOp | FInc, FInc => true | _, _ => false end.
Definition pcls_eqb (a b : pcls) : bool :=
  match a, b with
  | CElem, CElem | CDirect, CDirect | CDirectElem, CDirectElem | CChain, CChain | CRootIdx, CRootIdx | CMidIdx, CMidIdx
  | COther, COther => true
  | _, _ => false
  end.
Definition skind_eqb (a b : skind) : bool :=
  match a, b with
  | SkWhole, SkWhole | SkMember, SkMember | SkMemberElem, SkMemberElem | SkRootElem, SkRootElem | SkDeep, SkDeep => true
  | _, _ => false
  end.
Definition sreason_eqb (a b : sreason) : bool :=
  match a, b with RRoot, RRoot | REdge, REdge | RInStruct, RInStruct | RInPlain, RInPlain => true | _, _ => false end.
Definition psite_eqb (a b : psite) : bool :=
  match a, b with
  | PRoot c f, PRoot c' f' => pcls_eqb c c' && sform_eqb f f'
  | PLast c f, PLast c' f' => pcls_eqb c c' && sform_eqb f f'
  | PInner c, PInner c' => pcls_eqb c c'
  | PSub k l r, PSub k' l' r' => skind_eqb k k' && Bool.eqb l l' && sreason_eqb r r'
  | _, _ => false
  end.

Definition all_pcls := [CElem; CDirect; CDirectElem; CChain; CRootIdx; CMidIdx; COther].
Definition all_sforms := [FSet; FOp; FInc].
Definition all_skinds := [SkWhole; SkMember; SkMemberElem; SkRootElem; SkDeep].
Definition all_sreasons := [RRoot; REdge; RInStruct; RInPlain].
(* the sites that can occur: a path of one member has no member further up, an element of an int array variable no member
   at all; a whole-variable / root-element store has no member on the way *)
Definition site_occurs (st : psite) : bool :=
  match st with
  | PLast CElem _ | PInner CElem | PInner CDirect | PInner CDirectElem => false
  | PSub SkWhole _ REdge | PSub SkRootElem _ REdge => false
  | _ => true
  end.
Definition all_psites : list psite :=
  filter site_occurs
    (flat_map (fun c => map (PRoot c) all_sforms) all_pcls ++
     flat_map (fun c => map (PLast c) all_sforms) all_pcls ++
     map PInner all_pcls ++
     flat_map (fun k => flat_map (fun l => map (PSub k l) all_sreasons) [false; true]) all_skinds).

Definition ppolicy := psite -> bool.
Definition pspec : ppolicy := fun _ => true.
Definition pall_but (st : psite) : ppolicy := fun x => negb (psite_eqb x st).

(* What the implementation can execute at all (on NON-const objects; measured, see notes/C09.md "restrictions"): stores
   outside this envelope fail or are silently ignored for every operand, so there is nothing to compare there - the tie
   only demands that a const value does not change. *)
Definition exec_set (c : pcls) (f : sform) : bool :=
  match c, f with
  | CElem, _ | CDirect, _ => true
  | CDirectElem, FSet => true
  | CChain, FSet | CChain, FOp | CRootIdx, FSet | CRootIdx, FOp | CMidIdx, FSet | CMidIdx, FOp => true
  | _, _ => false
  end.
Definition exec_sub (k : skind) (lit : bool) : bool :=
  match k, lit with
  | SkWhole, _ => true
  | SkMember, false => true
  | SkMemberElem, _ | SkRootElem, _ => true
  | _, _ => false
  end.

(* the tests the pinned implementation makes (measured on the binary and read from the code named above):
   - the const of the VARIABLE is tested by every executor of a scalar store, whatever the shape of the path (the walk
     of the nested branch strips any mix of member accesses and subscripts);
   - the const of the LAST member is tested except when the path runs through an element of a struct array: for an
     element of a struct-array MEMBER (x.items[i].n) the first store after initialisation is carried out (the member
     variables of the element are created without `is_assigned`), for an element of a struct-array VARIABLE (x[i].n) every
     store is until a member of that element has been READ (the read materialises the element with its flags) - both
     are recorded as "test missing": the machine has no read history;
   - a const member further up the path (`const Inner in;`, `const Item[2] items;`) is never looked at;
   - whole-sub-object stores: see the table (assigning a struct VARIABLE / element / call result to an element of a struct
     array - x.items[i] = t, x[i] = t - tests the const of the array and of the variable it is a member of
     (Interpreter::assign_struct_to_array_element, since the repair of C09-struct-array-element-assign) but no const
     member inside the overwritten element; a struct literal assigned to an element of a struct-array member is tested
     like a declaration; x[i] = {..} on a const struct array tests the array's const only (simple_assignment.cpp)).
   Shapes outside [exec_set] / [exec_sub] have no executor; the entries there say `true` (nothing can be stored). *)
Definition pmech : ppolicy := fun st =>
  match st with
  | PRoot _ _ => true
  | PLast CMidIdx FSet | PLast CMidIdx FOp => false
  | PLast CRootIdx FSet | PLast CRootIdx FOp => false
  | PLast _ _ => true
  | PInner CChain | PInner CRootIdx | PInner CMidIdx => false
  | PInner _ => true
  | PSub SkWhole _ RRoot => true
  | PSub SkWhole true RInStruct => true
  | PSub SkWhole _ _ => false
  | PSub SkMember false RRoot | PSub SkMember false REdge => true
  | PSub SkMember false _ => false
  | PSub SkMember true _ => true
  | PSub SkMemberElem true RRoot | PSub SkMemberElem true REdge | PSub SkMemberElem true RInStruct => true
  | PSub SkMemberElem false RRoot | PSub SkMemberElem false REdge => true
  | PSub SkMemberElem _ _ => false
  | PSub SkRootElem _ RRoot => true
  | PSub SkRootElem _ _ => false
  | PSub SkDeep _ _ => true
  end.

(* ------------------------------------------------------------------ the machine *)
Record pvar := { vconst : bool; vtree : tree }.
Definition pstate := list pvar.

Inductive pop :=
| OSet (e : lv) (f : sform) (u : Z)              (* e = u;  e op= u;  e++ / e-- (u = 1 / -1):  e names a scalar cell *)
| OSub (e : lv) (lit : bool) (src : tree).       (* e = t; / e = {..}; / e = [..];  e names a struct or an array *)

Inductive pres := POk (s : pstate) | PRejected (st : psite) | PStuck.

Definition pnewval (f : sform) (old u : Z) : Z := match f with FSet => u | _ => old + u end.

Fixpoint upd_var (x : nat) (t : tree) (s : pstate) : pstate :=
  match s with
  | [] => []
  | v :: r => match x with O => {| vconst := vconst v; vtree := t |} :: r | S k => v :: upd_var k t r end
  end.

(* positions of the const members along the path *)
Fixpoint true_positions (i : nat) (l : list bool) : list nat :=
  match l with [] => [] | b :: r => (if b then [i] else []) ++ true_positions (S i) r end.
(* position of the last member access of a path (None: no member access) *)
Fixpoint last_member (i : nat) (st : list bool) : option nat :=
  match st with
  | [] => None
  | ix :: r => match last_member (S i) r with Some j => Some j | None => if ix then None else Some i end
  end.
(* every reason for which the store must be refused, each with the test that would refuse it *)
Definition set_reasons (v : pvar) (p : path) (f : sform) : list psite :=
  let st := steps p (vtree v) in
  let c := classify st in
  (if vconst v then [PRoot c f] else []) ++
  map (fun j => match last_member 0 st with
                | Some l => if Nat.eqb j l then PLast c f else PInner c
                | None => PInner c
                end) (true_positions 0 (edges p (vtree v))).
Definition sub_reasons (v : pvar) (p : path) (lit : bool) (sub : tree) : list psite :=
  let k := sclassify (steps p (vtree v)) sub in
  (if vconst v then [PSub k lit RRoot] else []) ++
  (if cpath p (vtree v) then [PSub k lit REdge] else []) ++
  (if in_struct sub then [PSub k lit RInStruct] else []) ++
  (if in_plain sub then [PSub k lit RInPlain] else []).

Definition pstep (pol : ppolicy) (s : pstate) (o : pop) : pres :=
  match o with
  | OSet e f u =>
      let x := root_of e in let p := lpath e in
      match nth_error s x with
      | None => PStuck
      | Some v =>
          match get p (vtree v) with
          | Some (TLeaf old) =>
              match find pol (set_reasons v p f) with
              | Some st => PRejected st
              | None => match put p (TLeaf (pnewval f old u)) (vtree v) with
                        | Some t' => POk (upd_var x t' s)
                        | None => PStuck
                        end
              end
          | _ => PStuck
          end
      end
  | OSub e lit src =>
      let x := root_of e in let p := lpath e in
      match nth_error s x with
      | None => PStuck
      | Some v =>
          match get p (vtree v) with
          | Some (TLeaf _) | None => PStuck
          | Some sub =>
              match graft sub src with
              | None => PStuck
              | Some n =>
                  match find pol (sub_reasons v p lit sub) with
                  | Some st => PRejected st
                  | None => match put p n (vtree v) with
                            | Some t' => POk (upd_var x t' s)
                            | None => PStuck
                            end
                  end
              end
          end
      end
  end.

Inductive poutcome := PDone | PRejectedAt (i : nat) (st : psite) | PStuckAt (i : nat).
Fixpoint prun_from (pol : ppolicy) (i : nat) (s : pstate) (ops : list pop) : pstate * poutcome :=
  match ops with
  | [] => (s, PDone)
  | o :: r => match pstep pol s o with
              | POk s' => prun_from pol (S i) s' r
              | PRejected st => (s, PRejectedAt i st)
              | PStuck => (s, PStuckAt i)
              end
  end.
Definition prun (pol : ppolicy) (s : pstate) (ops : list pop) : pstate * poutcome := prun_from pol 0 s ops.
Fixpoint ptrace (pol : ppolicy) (s : pstate) (ops : list pop) : list pstate :=
  match ops with
  | [] => []
  | o :: r => match pstep pol s o with POk s' => s' :: ptrace pol s' r | _ => [] end
  end.

(* ------------------------------------------------------------------ what the property protects *)
(* the scalar cell q of variable x, and whether it is protected: the variable is const or a member on the way is *)
Definition cell (s : pstate) (x : nat) (q : path) : option Z :=
  match nth_error s x with
  | Some v => match get q (vtree v) with Some (TLeaf z) => Some z | _ => None end
  | None => None
  end.
Definition protected (s : pstate) (x : nat) (q : path) : bool :=
  match nth_error s x with Some v => vconst v || cpath q (vtree v) | None => false end.

(* decidable observation for the refutations: some protected cell has another value *)
Definition var_changed (a b : pvar) : bool :=
  existsb (fun q => match get q (vtree a) with
                    | Some (TLeaf x) => (vconst a || cpath q (vtree a)) &&
                                       negb (match get q (vtree b) with Some (TLeaf y) => x =? y | _ => false end)
                    | _ => false
                    end)
          (leaf_paths (vtree a)).
Fixpoint pzip {A B} (l : list A) (l' : list B) : list (A * B) :=
  match l, l' with a :: r, b :: r' => (a, b) :: pzip r r' | _, _ => [] end.
Definition pconst_changed (s s' : pstate) : bool :=
  existsb (fun ab => var_changed (fst ab) (snd ab)) (pzip s s').
Definition pbreaks (pol : ppolicy) (c : pstate * list pop) : bool :=
  pconst_changed (fst c) (fst (prun pol (fst c) (snd c))).

(* well-formed values: array elements carry no const flag and all have the shape (incl. flags) of the first *)
Fixpoint skel (t : tree) : tree :=
  match t with TLeaf _ => TLeaf 0 | TRec f => TRec (fskel f) | TArr f => TArr (fskel f) end
with fskel (f : forest) : forest :=
  match f with FNil => FNil | FCons c t r => FCons c (skel t) (fskel r) end.
