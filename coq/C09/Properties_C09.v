(* C09 - the property theorems (lemmas in C09/RefConst.v, C09/PtrLemmas.v, C09/MatrixLemmas.v).
   Part 1 is about Ref, the shared reference interpreter coq/Lang (const scalars and arrays: globals,
   locals, statics).  Part 2 is about the pointer / reference machine C09/ConstPtr.v under [spec]
   (every const test made) and under [mech] (the tests the pinned implementation makes). *)
From Coq Require Import List ZArith Bool Arith Lia.
From Cb Require Import Lang.Syntax Lang.Sem Lang.Respect Lang.Theorems Lang.Print.
From Cb Require Import C09.RefConst C09.ConstPtr C09.PtrLemmas C09.Model C09.MatrixLemmas.
Import ListNotations.
Local Open Scope Z_scope.

(* ================================================================== Part 1: Ref *)

(* The one store primitive of Ref refuses a const target and leaves the state as it was. *)
Theorem const_write_rejected : forall x idx v s e,
  get_entry x s = Some e -> econst e = true -> m_write x idx v s = (Fail EConst, s).
Proof. exact const_write_rejected_l. Qed.
Print Assumptions const_write_rejected.

(* Every mutation form of CbCore (=, op=, ++/-- on a variable or an array element) applied to a
   visible const entry ends in an error and leaves the state unchanged; the plain stores fail with
   the const error itself (read-modify-write forms read first and may report the read / arithmetic
   error instead). *)
Theorem mutation_rejected : forall funcs k (m : mutation) s e,
  get_entry (mut_target m) s = Some e -> econst e = true ->
  (exists er, exec funcs (S (S (S k))) (mut_stmt m) s = (Fail er, s)) /\
  (mut_plain m = true -> exec funcs (S (S (S k))) (mut_stmt m) s = (Fail EConst, s)).
Proof.
  intros funcs k m s e H Hc.
  destruct m as [x v|x o v|pre inc x|a idx v|a idx o v|pre inc a idx]; cbn [mut_target mut_stmt mut_plain] in *.
  - assert (E := plain_store_rejected funcs (S (S k)) (LVar x) (ENum v) s v s x [] e eq_refl eq_refl H Hc). split; eauto.
  - split; [|discriminate]. exact (compound_rejected funcs (S (S k)) (LVar x) o (ENum v) v s x [] e eq_refl eq_refl H Hc).
  - split; [|discriminate]. exact (incdec_rejected funcs (S (S k)) (LVar x) pre inc s x [] e eq_refl H Hc).
  - assert (E := plain_store_rejected funcs (S (S k)) _ (ENum v) s v s a idx e eq_refl (target_idx funcs (S k) a idx s) H Hc).
    split; eauto.
  - split; [|discriminate]. exact (compound_rejected funcs (S (S k)) _ o (ENum v) v s a idx e (target_idx funcs (S k) a idx s) eq_refl H Hc).
  - split; [|discriminate]. exact (incdec_rejected funcs (S (S k)) _ pre inc s a idx e (target_idx funcs (S k) a idx s) H Hc).
Qed.
Print Assumptions mutation_rejected.

(* ... with an arbitrary right-hand side: whatever it computes and does, the store is refused. *)
Theorem assign_rejected_general : forall funcs k x rhs s v s1 e,
  eval funcs k rhs s = (Val v, s1) -> get_entry x s1 = Some e -> econst e = true ->
  exec funcs (S k) (SAssign (LVar x) None rhs) s = (Fail EConst, s1).
Proof. intros funcs k x rhs s v s1 e He H Hc. exact (plain_store_rejected funcs k (LVar x) rhs s v s1 x [] e He eq_refl H Hc). Qed.
Print Assumptions assign_rejected_general.

(* For every function table, fuel, expression / statement and start state: the stack has the same
   shape afterwards, every scope (globals, statics of each function, every block of every frame)
   still has all its old entries, and every entry that was const is the same entry. *)
Theorem const_immutable_run : forall funcs n,
  (forall e, respects cpres (eval funcs n e)) /\ (forall st, respects cpres (exec funcs n st)).
Proof. exact cpres_run_l. Qed.
Print Assumptions const_immutable_run.

(* what [cpres] gives for a const global (by name), a const local (by identity: frame, block and
   declaration index counted from the oldest) and a const static *)
Theorem const_global_immutable : forall s s' x e,
  cpres s s' -> sframes s <> [] -> assoc x (sglob s) = Some e -> econst e = true -> assoc x (sglob s') = Some e.
Proof.
  intros s s' x e (G & _ & _) Hf. unfold glob_le in G. destruct (sframes s); [congruence|].
  apply scope_upd_assoc. exact G.
Qed.
Print Assumptions const_global_immutable.

Theorem const_local_immutable : forall s s' fi si ei x e,
  cpres s s' -> local_at s fi si ei = Some (x, e) -> econst e = true -> local_at s' fi si ei = Some (x, e).
Proof.
  intros s s' fi si ei x e (_ & _ & F). unfold local_at.
  destruct (nth_old (sframes s) fi) as [f|] eqn:Ef; [|discriminate].
  destruct (Forall2_nth_old _ _ _ _ _ F Ef) as (f' & -> & _ & Hsc).
  destruct (nth_old (fscopes f) si) as [sc|] eqn:Es; [|discriminate].
  destruct (Forall2_nth_old _ _ _ _ _ Hsc Es) as (sc' & -> & Hle).
  apply scope_le_nth_old. exact Hle.
Qed.
Print Assumptions const_local_immutable.

Theorem const_static_immutable : forall s s' f k x e,
  cpres s s' -> nth_old (statics_of f s) k = Some (x, e) -> econst e = true -> nth_old (statics_of f s') k = Some (x, e).
Proof. intros s s' f k x e (_ & S & _). apply scope_le_nth_old. apply S. Qed.
Print Assumptions const_static_immutable.

(* whole programs: a const global has its initial value in the final state of every run *)
Theorem const_global_immutable_program : forall fuel p s0 x e,
  init_state p = Some s0 -> assoc x (sglob s0) = Some e -> econst e = true ->
  assoc x (sglob (snd (exec_list (exec (pfuncs p) fuel) (pmain p) s0))) = Some e.
Proof.
  intros fuel p s0 x e Hi H Hc. eapply const_global_immutable; [apply cpres_exec_list| |exact H|exact Hc].
  unfold init_state in Hi. destruct (init_globals (pglobals p) []); [|discriminate]. injection Hi as <-. discriminate.
Qed.
Print Assumptions const_global_immutable_program.

(* a refused store is the last thing the program does *)
Theorem rejected_store_ends_run : forall ex ss1 ss2 s s',
  exec_list ex ss1 s = (Fail EConst, s') -> exec_list ex (ss1 ++ ss2) s = (Fail EConst, s').
Proof. intros ex ss1 ss2 s s'. apply error_cuts_run. Qed.
Print Assumptions rejected_store_ends_run.

(* ================================================================== Part 2: pointers and references *)

(* the discipline "a pointer that permits writes never points at something protected" survives every script *)
Theorem ptr_discipline_invariant : forall pol, all_checked pol -> forall ops i s, Inv s -> Inv (fst (run_from pol i s ops)).
Proof.
  intros pol Ha. induction ops as [|x r IH]; intros i s HI; cbn [run_from]; [exact HI|].
  destruct (step pol s x) as [s'| |] eqn:Es; [|exact HI|exact HI]. apply IH. exact (effect_inv _ _ _ Ha HI (step_effect _ _ _ _ Es)).
Qed.
Print Assumptions ptr_discipline_invariant.

(* every protected slot (const object, member of a const struct, const member) has its initial value
   after every script of direct stores, whole-object assignments, pointer declarations / assignments /
   copies / arithmetic, stores through pointers, reference bindings and pointer arguments *)
Theorem const_slots_immutable : forall pol, all_checked pol -> forall ops i s o k ob,
  Inv s -> nth_error (objs s) o = Some ob -> slot_prot ob k = true ->
  read_slot (fst (run_from pol i s ops)) o k = read_slot s o k.
Proof. exact const_slots_immutable_l. Qed.
Print Assumptions const_slots_immutable.

(* a `T* const` pointer, a reference and an array parameter refer to the same thing after every script *)
Theorem const_ptr_not_reseated : forall pol, all_checked pol -> forall ops i s p pt,
  nth_error (ptrs s) p = Some pt -> pcc pt = true ->
  exists pt', nth_error (ptrs (fst (run_from pol i s ops))) p = Some pt' /\ same_handle pt pt'.
Proof. exact const_ptr_not_reseated_l. Qed.
Print Assumptions const_ptr_not_reseated.

(* "store through a pointer or reference derived from it is rejected": no script ever carries out a store through a
   handle that is const (const T*, const T&, const T[n] parameter) or that was derived - over any number of copies,
   re-bindings and calls - from a const handle or from the address of something protected (ghost flag [gbad]) *)
Theorem no_store_through_const_view : forall pol, all_checked pol -> forall ops i s, Inv s -> gbad (fst (run_from pol i s ops)) = gbad s.
Proof. exact no_store_through_const_view_l. Qed.
Print Assumptions no_store_through_const_view.

(* the address of a protected object is refused at a declaration, an assignment, as the argument of a call that stores
   and as the argument of a `T*` parameter when the receiving pointer permits writes; accepted by a pointer to const *)
Theorem addr_of_const_needs_const_ptr : forall pol s t, all_checked pol -> valid_tgt s t = true -> tgt_prot s t = true ->
  (forall cc, exists st, step pol s (OPtrNew false cc (Some (PAddr t))) = Rejected st) /\
  (forall p pt, nth_error (ptrs s) p = Some pt -> is_ptr pt = true -> ppc pt = false -> exists st, step pol s (OPtrSet p (PAddr t)) = Rejected st) /\
  (forall u, step pol s (OPtrCall (PAddr t) u) = Stuck \/ exists st, step pol s (OPtrCall (PAddr t) u) = Rejected st) /\
  (exists st, step pol s (OPtrParam false (PAddr t)) = Rejected st) /\
  (forall cc, exists s', step pol s (OPtrNew true cc (Some (PAddr t))) = Ok s') /\
  (exists s', step pol s (OPtrParam true (PAddr t)) = Ok s').
Proof.
  intros pol s t Ha Hv Hp. apply (const_source_refused pol s (PAddr t) (Some t)); [exact Ha| |exact Hp]. cbn. rewrite Hv. reflexivity.
Qed.
Print Assumptions addr_of_const_needs_const_ptr.

(* nothing is stored through a pointer to const - variable or parameter -, and its constness cannot be dropped by a copy
   (declaration or assignment), by a call that stores, or by passing it on to a `T*` parameter of a further callee *)
Theorem pointee_const_no_write : forall pol s p pt, all_checked pol -> nth_error (ptrs s) p = Some pt -> is_ptr pt = true -> ppc pt = true ->
  (forall f m u, step pol s (OPtrStore f p m u) = Stuck \/ exists st, step pol s (OPtrStore f p m u) = Rejected st) /\
  (forall cc, exists st, step pol s (OPtrNew false cc (Some (PCopy p))) = Rejected st) /\
  (forall u, step pol s (OPtrCall (PCopy p) u) = Stuck \/ exists st, step pol s (OPtrCall (PCopy p) u) = Rejected st) /\
  (exists st, step pol s (OPtrParam false (PCopy p)) = Rejected st) /\
  (forall q pq, nth_error (ptrs s) q = Some pq -> is_ptr pq = true -> ppc pq = false -> exists st, step pol s (OPtrSet q (PCopy p)) = Rejected st).
Proof.
  intros pol s p pt Ha Hn Hk Hc.
  destruct (const_source_refused pol s (PCopy p) (ptgt pt) Ha) as (C1 & C2 & C3 & C4 & _); [cbn; rewrite Hn, Hk; reflexivity|cbn; rewrite Hn; exact Hc|].
  split; [|exact (conj C1 (conj C3 (conj C4 C2)))].
  intros f m u. cbn [step]. rewrite Hn, Hk. cbn [negb]. destruct (store_slot _ _ _) as [[o k']|]; [|auto].
  destruct (nth_error (objs s) o) as [ob|]; [|auto]. destruct (nth_error (ovals ob) k'); [|auto].
  rewrite Ha, Hc. cbn. eauto.
Qed.
Print Assumptions pointee_const_no_write.

(* a reference to const - local or parameter -: no store goes through it, and no reference that permits writes is bound
   through it, neither by `T& r = cr;` nor by passing it to a `T&` parameter *)
Theorem const_ref_no_write : forall pol s h hp, all_checked pol -> nth_error (ptrs s) h = Some hp -> pkind hp = HRef -> ppc hp = true ->
  (forall f m u, step pol s (OHStore f h m u) = Stuck \/ exists st, step pol s (OHStore f h m u) = Rejected st) /\
  (forall par, step pol s (OHRef par false (HVia h)) = Stuck \/ exists st, step pol s (OHRef par false (HVia h)) = Rejected st).
Proof.
  intros pol s h hp Ha Hn Hk Hc. split.
  - intros f m u. cbn [step]. rewrite Hn, Hk. destruct (ptgt hp) as [t|]; [|auto]. destruct f; auto;
      (destruct (nth_error (objs s) (tgt_obj t)) as [ob|]; [|auto]; destruct (nth_error (ovals ob) _); [|auto];
       destruct (ref_store_check_const t ob hp Hc) as (st & ->); rewrite !Ha; cbn [andb]; destruct (nth _ (omconst ob) false); eauto).
  - intros par. cbn [step]. rewrite Hn, Hk. destruct (ptgt hp) as [t|]; [|auto]. rewrite Ha, Hc. cbn. eauto.
Qed.
Print Assumptions const_ref_no_write.

(* no reference that permits writes is bound to a protected scalar or struct variable *)
Theorem bind_const_rejected : forall pol s o ob, all_checked pol -> nth_error (objs s) o = Some ob -> oshape ob <> Arr ->
  tgt_prot s (ref_tgt ob o) = true ->
  forall par, step pol s (OHRef par false (HObj o)) = Stuck \/ exists st, step pol s (OHRef par false (HObj o)) = Rejected st.
Proof.
  intros pol s o ob Ha Ho Hsh Hp par. cbn [step]. rewrite Ho.
  destruct (oshape ob) eqn:Es; [|congruence|]; (destruct (negb (valid_tgt s (ref_tgt ob o))); [auto|]; rewrite Ha, Hp; cbn; eauto).
Qed.
Print Assumptions bind_const_rejected.

(* an array parameter with a const anywhere up its chain of calls (itself, the array or array parameter it was bound to,
   or further up): no element store, ++/-- or whole-array assignment goes through it, and every array parameter bound
   through it is in the same position *)
Theorem array_param_no_write : forall pol s h hp, all_checked pol -> nth_error (ptrs s) h = Some hp -> pkind hp = HAlias -> hconst hp = true ->
  (forall f m u, step pol s (OHStore f h m u) = Stuck \/ exists st, step pol s (OHStore f h m u) = Rejected st) /\
  (forall vs, step pol s (OHWhole h vs) = Stuck \/ exists st, step pol s (OHWhole h vs) = Rejected st) /\
  (forall rc s', step pol s (OHRef true rc (HVia h)) = Ok s' ->
     exists hp', nth_error (ptrs s') (length (ptrs s)) = Some hp' /\ pkind hp' = HAlias /\ hconst hp' = true /\ ptgt hp' = ptgt hp).
Proof.
  intros pol s h hp Ha Hn Hk Hc. repeat split.
  - intros f m u. cbn [step]. rewrite Hn, Hk. destruct (ptgt hp) as [[o|o k]|]; auto.
    destruct (nth_error (objs s) o) as [ob|]; [|auto]. destruct (nth_error (ovals ob) m); [|auto].
    destruct (alias_site_const false f hp Hc) as (st & ->). rewrite Ha. eauto.
  - intros vs. cbn [step]. rewrite Hn, Hk. destruct (ptgt hp) as [[o|o k]|]; auto.
    destruct (nth_error (objs s) o) as [ob|]; [|auto]. destruct (_ || _); [auto|].
    destruct (alias_site_const true FAssign hp Hc) as (st & ->). rewrite Ha. eauto.
  - intros rc s' Hs. cbn [step] in Hs. rewrite Hn, Hk in Hs. destruct (ptgt hp) as [t|] eqn:Et; [|discriminate].
    injection Hs as <-. eexists. split; [apply nth_error_last|]. repeat split. apply hconst_mk_alias. exact Hc.
Qed.
Print Assumptions array_param_no_write.

Theorem direct_mutation_rejected : forall pol s o k ob, all_checked pol ->
  nth_error (objs s) o = Some ob -> slot_prot ob k = true -> (k < length (ovals ob))%nat ->
  (forall f u, exists st, step pol s (ODirect f o k u) = Rejected st) /\
  (forall param rc u, exists st, step pol s (ORef param rc o k u) = Rejected st) /\
  (oconst ob = true -> forall vs, step pol s (OWhole o vs) = Stuck \/ step pol s (OWhole o vs) = Rejected SWholeConst).
Proof.
  intros pol s o k ob Ha Ho Hp Hk. apply nth_error_Some in Hk. destruct (nth_error (ovals ob) k) as [old|] eqn:Ek; [|congruence]. repeat split.
  - intros f u. cbn [step]. rewrite Ho, Ek, Ha, Hp. cbn. eauto.
  - intros param rc u. cbn [step]. rewrite Ho, Ek, !Ha, Hp. cbn. destruct rc; cbn; eauto.
  - intros Hc vs. cbn [step]. rewrite Ho. destruct (negb _); [auto|]. rewrite Ha, Hc. cbn. auto.
Qed.
Print Assumptions direct_mutation_rejected.

(* ------------------------------------------------------------------ derivation chains across call boundaries *)
(* object -> handle -> handle -> ... -> store.  [chain_statement c v]: the start state respects the discipline, the
   property's verdict is v, and where the implementation's verdict differs the refusing test is one it lacks.
   v = rejected as soon as the object or ANY link is const, changed otherwise (the twin). *)

(* references: every chain of 1..3 links, each a local `[const] T& r = ..;` or a `[const] T&` parameter of a further
   callee, from a scalar or a struct, with or without a read through the last reference, final store = or op= *)
Theorem ref_chain_matrix : forall cst strct rd ls f, ls <> [] -> (length ls <= 3)%nat -> f <> FIncDec ->
  chain_statement (ref_chain cst strct rd ls f) (chain_expect cst (map snd ls)).
Proof.
  intros cst strct rd ls f Hne Hl Hf.
  assert (E : exists sr, In sr [(false, false); (true, false); (true, true)] /\
                         ref_chain cst strct rd ls f = ref_chain cst (fst sr) (snd sr) ls f).
  { destruct strct, rd; [exists (true, true)|exists (true, false)|exists (false, false)|exists (false, false)]; cbn; tauto. }
  destruct E as (sr & Hsr & ->).
  assert (Hfin : In f [FAssign; FCompound]) by (destruct f; cbn; try tauto; congruence).
  apply chain_ok_sound.
  exact (forallb_In _ _ f Hfin (forallb_In _ _ sr Hsr (forallb_In _ _ cst (bool_complete cst)
           (upto_sweep _ _ _ ref_alpha_complete (proj1 chain_sweep) ls Hne Hl)))).
Qed.
Print Assumptions ref_chain_matrix.

(* array parameters: every chain of 1..4 calls, final store a[i] = / op= / ++ / whole-array assignment *)
Theorem alias_chain_matrix : forall cst ls f, ls <> [] -> (length ls <= 4)%nat -> In f alias_finals ->
  chain_statement (alias_chain cst ls f) (chain_expect cst ls).
Proof.
  intros cst ls f Hne Hl Hf. apply chain_ok_sound.
  exact (forallb_In _ _ f Hf (forallb_In _ _ cst (bool_complete cst)
           (upto_sweep _ _ _ bool_complete (proj1 (proj2 chain_sweep)) ls Hne Hl))).
Qed.
Print Assumptions alias_chain_matrix.

(* pointers: every chain of 1..3 links, each acquired at a declaration, by assignment or as the `[const] T*` parameter
   of a further callee, from a scalar / array element / struct / struct member, every final store form *)
Theorem ptr_chain_matrix : forall cst r ls f, ls <> [] -> (length ls <= 3)%nat -> In f (proot_forms r) ->
  chain_statement (ptr_chain cst r ls f) (chain_expect cst (map snd ls)).
Proof.
  intros cst r ls f Hne Hl Hf. apply chain_ok_sound.
  assert (Hr : In r all_proots) by (destruct r; cbn; tauto).
  exact (forallb_In _ _ f Hf (forallb_In _ _ r Hr (forallb_In _ _ cst (bool_complete cst)
           (upto_sweep _ _ _ ptr_alpha_complete (proj2 (proj2 chain_sweep)) ls Hne Hl)))).
Qed.
Print Assumptions ptr_chain_matrix.

(* chains of ANY length from a const scalar / struct (references) or a const array (array parameters) end in a refusal *)
Theorem ref_chain_rejected_any_depth : forall pol strct rd ls f, all_checked pol -> ls <> [] -> f <> FIncDec ->
  exists i st, snd (run pol (fst (ref_chain true strct rd ls f)) (snd (ref_chain true strct rd ls f))) = RejectedAt i st.
Proof.
  intros pol strct rd ls f Ha Hne Hf. destruct ls as [|[par rc] ls]; [congruence|]. unfold ref_chain, run. cbn [fst snd ref_links length].
  replace (S (length ls) - 1)%nat with (0 + length ls)%nat by lia.
  destruct strct.
  - cbn [app run_from]. cbn [step]. cbn. rewrite !Ha. destruct rc; cbn.
    + destruct par; (eapply (ref_tail_rejected pol Ha ls _ 0%nat _ (TObj 0)); cbn; eauto; try reflexivity).
    + destruct par; eauto.
  - cbn [app run_from]. cbn [step]. cbn. rewrite !Ha. destruct rc; cbn.
    + destruct par; (eapply (ref_tail_rejected pol Ha ls _ 0%nat _ (TSlot 0 0) f 0%nat 3 false); cbn; eauto; try reflexivity; try discriminate).
    + destruct par; eauto.
Qed.
Print Assumptions ref_chain_rejected_any_depth.

Theorem alias_chain_rejected_any_depth : forall pol ls fin, all_checked pol -> ls <> [] ->
  exists i st, snd (run pol (fst (alias_chain true ls fin)) (snd (alias_chain true ls fin))) = RejectedAt i st.
Proof.
  intros pol ls fin Ha Hne. destruct ls as [|rc ls]; [congruence|]. unfold alias_chain, run. cbn [fst snd map ref_links length].
  replace (S (length ls) - 1)%nat with (0 + length ls)%nat by lia.
  cbn [app run_from]. cbn [step]. cbn [st0 objs nth_error mk oshape negb].
  eapply (alias_tail_rejected pol Ha ls _ 0%nat _ 0%nat); cbn; try reflexivity.
  unfold hconst. cbn. destruct rc; reflexivity.
Qed.
Print Assumptions alias_chain_rejected_any_depth.

(* each of the 46 tests is necessary: with all the others in place and this one missing, a script changes a protected
   slot, re-seats a const pointer or carries out a store through a const view *)
Theorem every_const_test_is_necessary : forall st, broken (all_but st) (fst (witness st)) (snd (witness st)).
Proof. intros st. apply breaks_sound. destruct st; vm_compute; reflexivity. Qed.
Print Assumptions every_const_test_is_necessary.

(* the matrix of the property: in every expressible cell (object kind x mutation path) the attempt is
   refused, and the same program without the qualifier runs and changes the value *)
Theorem matrix_rejected : forall k p c, scenario true k p = Some c -> Inv (fst c) /\ verdict_of spec c = VRejected.
Proof.
  intros k p c H. assert (F := forallb_In _ _ (k, p) (cells_complete k p) (proj1 matrix_sweep)).
  unfold cell_ok_spec in F. cbn [fst snd] in F. rewrite H in F. apply andb_true_iff in F as [F1 F2].
  split; [apply inv_b_sound; exact F1|apply verdict_eqb_eq; exact F2].
Qed.
Print Assumptions matrix_rejected.

Theorem matrix_twin_accepted : forall k p c, scenario false k p = Some c -> verdict_of spec c = VChanged.
Proof.
  intros k p c H. assert (F := forallb_In _ _ (k, p) (cells_complete k p) (proj2 matrix_sweep)).
  unfold cell_ok_twin in F. cbn [fst snd] in F. rewrite H in F. apply verdict_eqb_eq; exact F.
Qed.
Print Assumptions matrix_twin_accepted.

(* ------------------------------------------------------------------ the pinned implementation *)
(* the tests it makes do reject *)
Theorem mech_rejects_where_checked : forall st, mech_chk st = true -> verdict_of mech (witness st) = VRejected.
Proof. intros st. destruct st; vm_compute; intros; try reflexivity; discriminate. Qed.
Print Assumptions mech_rejects_where_checked.

(* the nine tests added by the repairs c8a1652 (x++, a[i]++, s.m++, ( *p)++ on something const), a842ca6 (p++ on a
   T* const), 8c94aff (T* p = &c), a242434 (T& parameter), 38104c4 (T& r = c), 29cf056 (p->m = v through a
   const S* ): each is made now, refuses its witness, and nothing protected changes *)
Theorem mech_repaired_tests_reject : forall st, In st repaired_sites ->
  mech_chk st = true /\ verdict_of mech (witness st) = VRejected /\ breaks mech (witness st) = false.
Proof.
  intros st H. assert (F : forallb (fun st => mech_chk st && verdict_eqb (verdict_of mech (witness st)) VRejected &&
                                            negb (breaks mech (witness st))) repaired_sites = true) by (vm_compute; reflexivity).
  apply (forallb_In _ _ st H) in F. apply andb_true_iff in F as [F F3]. apply andb_true_iff in F as [F1 F2].
  repeat split; auto.
  - destruct (verdict_of mech (witness st)); cbn in F2; congruence.
  - destruct (breaks mech (witness st)); cbn in F3; congruence.
Qed.
Print Assumptions mech_repaired_tests_reject.

(* the matrix: the implementation refuses every expressible cell except nine; in particular all rows of the
   scalar kinds, const struct, global, parameter and const pointer, and the cells of DESIGN.md #16 #17 #18 *)
Theorem mech_matrix_rejected : forall k p c,
  scenario true k p = Some c -> ~ In (k, p) open_cells -> verdict_of mech c = VRejected.
Proof.
  intros k p c H Hn. rewrite <- mech_matrix_holes_list in Hn. unfold mech_matrix_holes in Hn.
  rewrite filter_In in Hn. unfold cell_verdict in Hn. cbn [fst snd] in Hn. rewrite H in Hn. cbn [option_map] in Hn.
  destruct (verdict_of mech c); try reflexivity; exfalso; apply Hn; split; auto using cells_complete.
Qed.
Print Assumptions mech_matrix_rejected.

(* it lacks 17 of the 46 tests (9 of the original 31, 8 of the 15 on derivation chains) ... *)
Theorem mech_missing_tests_refuted : mech_holes =
  [SWholeMemberConst; SDerefExprStore; SPtrMemberConst; SAddrSubAssign; SAddrSubDecl; SAddrArg; SPtrCopyAssign; SPtrCopyDecl;
   SConstRefStore; SRefLocalCRef; SRefParamViaParam; SRefStructFresh; SPtcParamStore; SPtrCopyArgParam;
   SAliasParentIncDec; SAliasParentWhole; SAliasDeep].
Proof. vm_compute. reflexivity. Qed.
Print Assumptions mech_missing_tests_refuted.

(* ... and for each of them a script changes a const object: const_slots_immutable does not hold for the
   implementation as it is *)
Theorem mech_const_immutable_refuted : forall st, In st mech_value_holes -> broken mech (fst (witness st)) (snd (witness st)).
Proof.
  intros st H. apply breaks_sound. exact (forallb_In _ _ st H mech_value_holes_break).
Qed.
Print Assumptions mech_const_immutable_refuted.

(* in the matrix: 9 of the 111 expressible cells are still not refused (address of an element / member of a
   const aggregate, const members through the whole struct or an S*, pointer copies dropping the pointee const) *)
Theorem mech_matrix_refuted :
  n_applicable = 111%nat /\ mech_matrix_holes = open_cells /\
  forall kp, In kp open_cells -> exists c, scenario true (fst kp) (snd kp) = Some c /\ verdict_of mech c = VChanged.
Proof.
  split; [vm_compute; reflexivity|]. split; [exact mech_matrix_holes_list|]. intros kp H. cbn in H.
  repeat (destruct H as [<-|H]; [eexists; split; [reflexivity|vm_compute; reflexivity]|]). destruct H.
Qed.
Print Assumptions mech_matrix_refuted.

(* ------------------------------------------------------------------ non-vacuity *)
Example const_global_program :
  let ti := {| base := TInt; uns := false |} in
  let p := {| pglobals := [ {| gcst := true; gty := ti; gname := 1%nat; gdims := []; ginit := [5] |} ]; pfuncs := [];
              pmain := [ SPrint true [EVar 1%nat]; SAssign (LVar 1%nat) (Some Add) (ENum 1); SPrint true [EVar 1%nat] ] |} in
  Print.run 50%nat p = ([OInt 5; ONl], Failed EConst).
Proof. vm_compute. reflexivity. Qed.

Example const_local_array_program :
  let ti := {| base := TInt; uns := false |} in
  let p := {| pglobals := []; pfuncs := [];
              pmain := [ SArr true ti 1%nat [3%nat] [ENum 1; ENum 2; ENum 3]; SPrint true [EIdx 1%nat [ENum 1]];
                         SIncDec false true (LIdx 1%nat [ENum 1]); SPrint true [EIdx 1%nat [ENum 1]] ] |} in
  Print.run 50%nat p = ([OInt 2; ONl], Failed EConst).
Proof. vm_compute. reflexivity. Qed.

Example spec_is_all_checked : all_checked spec.
Proof. intros st. reflexivity. Qed.
