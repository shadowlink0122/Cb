(* C09 - the meaning of the boolean observer [breaks], finite sweeps (vm_compute over complete finite
   domains) about the matrix, the witnesses and the derivation chains of up to three links (array
   parameters: four), and the refusal of reference / array-parameter chains of any length. *)
From Coq Require Import List ZArith Bool Lia.
From Cb Require Import C09.ConstPtr C09.PtrLemmas C09.Model.
Import ListNotations.
Local Open Scope Z_scope.

Lemma In_zip_nth {A B} (l : list A) (l' : list B) a b :
  In (a, b) (zip l l') -> exists n, nth_error l n = Some a /\ nth_error l' n = Some b.
Proof.
  revert l'; induction l as [|x r IH]; intros [|y r']; cbn; try tauto.
  intros [[= -> ->]|H]; [exists 0%nat; auto|]. destruct (IH r' H) as (n & H1 & H2). exists (S n); auto.
Qed.

Lemma const_changed_sound s s' : const_changed s s' = true ->
  exists o k ob, nth_error (objs s) o = Some ob /\ slot_prot ob k = true /\ read_slot s' o k <> read_slot s o k.
Proof.
  unfold const_changed. rewrite existsb_exists. intros ([a b] & Hin & Hch). cbn in Hch.
  destruct (In_zip_nth _ _ _ _ Hin) as (o & Ha & Hb).
  unfold obj_changed in Hch. rewrite existsb_exists in Hch. destruct Hch as (k & Hk & Hc).
  apply andb_true_iff in Hc as [Hp Hne]. exists o, k, a. repeat split; auto.
  unfold read_slot. rewrite Ha, Hb. apply in_seq in Hk.
  destruct (nth_error (ovals a) k) as [x|] eqn:Ex.
  - destruct (nth_error (ovals b) k) as [y|]; [|congruence]. cbn in Hne.
    destruct (x =? y) eqn:E; [discriminate|]. apply Z.eqb_neq in E. congruence.
  - apply nth_error_None in Ex. lia.
Qed.

Lemma tgt_eqb_eq a b : tgt_eqb a b = true -> a = b.
Proof.
  destruct a as [[o|o k]|], b as [[o'|o' k']|]; cbn; try discriminate; auto.
  - intros H. apply Nat.eqb_eq in H. congruence.
  - intros H. apply andb_true_iff in H as [H1 H2]. apply Nat.eqb_eq in H1, H2. congruence.
Qed.

Lemma reseated_sound s s' : reseated s s' = true ->
  exists p pt pt', nth_error (ptrs s) p = Some pt /\ pcc pt = true /\ nth_error (ptrs s') p = Some pt' /\ ptgt pt' <> ptgt pt.
Proof.
  unfold reseated. rewrite existsb_exists. intros ([a b] & Hin & Hc). cbn in Hc.
  destruct (In_zip_nth _ _ _ _ Hin) as (p & Ha & Hb). apply andb_true_iff in Hc as [Hcc Hne].
  exists p, a, b. repeat split; auto. intros E. rewrite E in Hne.
  destruct (tgt_eqb (ptgt a) (ptgt a)) eqn:E'; [discriminate|].
  clear -E'. destruct (ptgt a) as [[o|o k]|]; cbn in E'; rewrite ?Nat.eqb_refl in E'; discriminate.
Qed.

(* a script breaks the property when, started in a state that respects the discipline, it changes a protected slot,
   re-seats a const pointer, or carries out a store through a const view / a handle derived from something const *)
Definition broken (pol : policy) (s : state) (ops : list op) : Prop :=
  Inv s /\ gbad s = false /\
  ((exists o k ob, nth_error (objs s) o = Some ob /\ slot_prot ob k = true /\
                   read_slot (fst (run pol s ops)) o k <> read_slot s o k) \/
   (exists p pt pt', nth_error (ptrs s) p = Some pt /\ pcc pt = true /\
                     nth_error (ptrs (fst (run pol s ops))) p = Some pt' /\ ptgt pt' <> ptgt pt) \/
   gbad (fst (run pol s ops)) = true).

Lemma breaks_sound pol c : breaks pol c = true -> broken pol (fst c) (snd c).
Proof.
  unfold breaks. intros H. apply andb_true_iff in H as [Hi H]. apply andb_true_iff in Hi as [Hi Hg].
  split; [apply inv_b_sound; exact Hi|]. split; [destruct (gbad (fst c)); [discriminate|reflexivity]|].
  apply orb_true_iff in H as [H|H]; [apply orb_true_iff in H as [H|H]|].
  - left; apply const_changed_sound; exact H.
  - right; left; apply reseated_sound; exact H.
  - right; right; exact H.
Qed.

(* under a policy that makes every test nothing is ever broken *)
Lemma spec_never_broken pol s ops : all_checked pol -> ~ broken pol s ops.
Proof.
  intros Ha (HI & Hg & [(o & k & ob & Ho & Hp & Hne)|[(p & pt & pt' & Hp & Hc & Hp' & Hne)|Hb]]).
  - apply Hne. unfold run. eapply const_slots_immutable_l; eauto.
  - apply Hne. unfold run in Hp'. destruct (const_ptr_not_reseated_l pol Ha ops 0%nat s p pt Hp Hc) as (pt2 & H2 & (E & _)).
    congruence.
  - unfold run in Hb. rewrite (no_store_through_const_view_l pol Ha ops 0%nat s HI) in Hb. congruence.
Qed.

Lemma witness_spec_rejected_l st : verdict_of spec (witness st) = VRejected.
Proof. destruct st; vm_compute; reflexivity. Qed.

Lemma mech_value_holes_break : forallb (fun st => breaks mech (witness st)) mech_value_holes = true.
Proof. vm_compute. reflexivity. Qed.
Lemma mech_holes_accept_l st : mech_chk st = false -> verdict_of mech (witness st) <> VRejected.
Proof. destruct st; vm_compute; intros; try discriminate. Qed.
(* the nine tests added by the repairs c8a1652, a842ca6, 8c94aff, a242434, 38104c4, 29cf056 *)
Definition repaired_sites : list site :=
  [SIncDecVar; SElemIncDec; SMemberIncDec; SDerefIncDec; SReseatIncDec; SAddrDecl; SRefParam; SRefLocal; SArrowStore].

Definition cell_ok_spec (c : okind * mpath) : bool :=
  match scenario true (fst c) (snd c) with
  | None => true
  | Some sc => inv_b (fst sc) && verdict_eqb (verdict_of spec sc) VRejected
  end.
Definition cell_ok_twin (c : okind * mpath) : bool :=
  match scenario false (fst c) (snd c) with
  | None => match scenario true (fst c) (snd c) with None => true | Some _ => false end
  | Some sc => verdict_eqb (verdict_of spec sc) VChanged
  end.

Lemma cells_complete k p : In (k, p) cells.
Proof. unfold cells. apply in_prod; [destruct k|destruct p]; cbn; tauto. Qed.

Lemma matrix_sweep : forallb cell_ok_spec cells = true /\ forallb cell_ok_twin cells = true.
Proof. split; vm_compute; reflexivity. Qed.

Lemma verdict_eqb_eq a b : verdict_eqb a b = true -> a = b.
Proof. destruct a, b; cbn; congruence. Qed.

(* the cells of the matrix in which the pinned implementation does not reject the attempt *)
Definition mech_matrix_holes : list (okind * mpath) :=
  filter (fun c => match cell_verdict mech true (fst c) (snd c) with Some VRejected | None => false | _ => true end) cells.
Definition n_applicable : nat := length (filter applicable cells).

(* the cells still not refused after the repairs: address of an element / member of a const aggregate,
   const members reached through the whole struct or an S*, pointer copies that drop the pointee const *)
Definition open_cells : list (okind * mpath) :=
  [(KArray, PAddrDecl); (KArray, PAddrAsg); (KMember, PAssign); (KMember, PDerefSt); (KMember, PArrowSt);
   (KMember, PAddrDecl); (KMember, PAddrAsg); (KPtc, PAddrDecl); (KPtc, PAddrAsg)].
Lemma mech_matrix_holes_list : mech_matrix_holes = open_cells.
Proof. vm_compute. reflexivity. Qed.

Lemma lists_upto_complete {A} (al : list A) : (forall a, In a al) -> forall n ls, ls <> [] -> (length ls <= n)%nat -> In ls (lists_upto al n).
Proof.
  intros Hal. induction n as [|n IH]; intros ls Hne Hl.
  - destruct ls; [congruence|cbn in Hl; lia].
  - destruct ls as [|a l]; [congruence|]. cbn [lists_upto]. apply in_or_app. destruct l as [|b l'].
    + left. apply in_map_iff. exists a. auto.
    + right. apply in_flat_map. exists (b :: l'). split; [apply IH; [discriminate|cbn in Hl |- *; lia]|].
      apply in_map_iff. exists a. auto.
Qed.
Lemma forallb_In {A} (f : A -> bool) l a : In a l -> forallb f l = true -> f a = true.
Proof. intros Hin H. exact (proj1 (forallb_forall f l) H a Hin). Qed.
Lemma upto_sweep {A} (al : list A) n (ok : list A -> bool) : (forall a, In a al) -> forallb ok (lists_upto al n) = true ->
  forall ls, ls <> [] -> (length ls <= n)%nat -> ok ls = true.
Proof. intros Hal F ls Hne Hl. exact (forallb_In ok _ ls (lists_upto_complete al Hal n ls Hne Hl) F). Qed.
Lemma ref_alpha_complete a : In a ref_alpha. Proof. destruct a as [[|] [|]]; cbn; tauto. Qed.
Lemma ptr_alpha_complete a : In a ptr_alpha. Proof. destruct a as [[| |] [|]]; cbn; tauto. Qed.
Lemma bool_complete (b : bool) : In b [false; true]. Proof. destruct b; cbn; tauto. Qed.

Definition chain_ok (c : state * list op) (v : verdict) : bool := inv_b (fst c) && verdict_eqb (verdict_of spec c) v.

Definition ref_cell_ok (ls : list (bool * bool)) : bool :=
  forallb (fun cst => forallb (fun sr : bool * bool => forallb (fun f =>
     chain_ok (ref_chain cst (fst sr) (snd sr) ls f) (chain_expect cst (map snd ls)))
     [FAssign; FCompound]) [(false, false); (true, false); (true, true)]) [false; true].
Definition alias_cell_ok (ls : list bool) : bool :=
  forallb (fun cst => forallb (fun f => chain_ok (alias_chain cst ls f) (chain_expect cst ls)) alias_finals) [false; true].
Definition ptr_cell_ok (ls : list (amode * bool)) : bool :=
  forallb (fun cst => forallb (fun r => forallb (fun f =>
     chain_ok (ptr_chain cst r ls f) (chain_expect cst (map snd ls))) (proot_forms r)) all_proots) [false; true].

Lemma chain_sweep : forallb ref_cell_ok (lists_upto ref_alpha 3) = true /\ forallb alias_cell_ok (lists_upto [false; true] 4) = true /\
                    forallb ptr_cell_ok (lists_upto ptr_alpha 3) = true.
Proof. split; [|split]; vm_compute; reflexivity. Qed.

Definition chain_statement (c : state * list op) (v : verdict) : Prop :=
  Inv (fst c) /\ verdict_of spec c = v /\
  (verdict_of mech c = verdict_of spec c \/ exists i st, snd (run spec (fst c) (snd c)) = RejectedAt i st /\ mech_chk st = false).

(* the verdict under [mech] of ANY script is that under [spec], unless [spec] refuses at a test that [mech] lacks *)
Lemma mech_follows_spec c :
  verdict_of mech c = verdict_of spec c \/ exists i st, snd (run spec (fst c) (snd c)) = RejectedAt i st /\ mech_chk st = false.
Proof.
  assert (F := run_follows mech (fun _ => eq_refl) (snd c) 0%nat (fst c)).
  fold (run spec (fst c) (snd c)) in *. fold (run mech (fst c) (snd c)) in F.
  destruct (snd (run spec (fst c) (snd c))) as [|i st|i] eqn:E.
  - left. unfold verdict_of. rewrite F. reflexivity.
  - destruct (mech_chk st) eqn:Em; [left|right; eauto]. unfold verdict_of. rewrite (F Em). reflexivity.
  - left. unfold verdict_of. rewrite F. reflexivity.
Qed.

Lemma chain_ok_sound c v : chain_ok c v = true -> chain_statement c v.
Proof.
  unfold chain_ok. intros H. apply andb_true_iff in H as [H1 H2].
  split; [apply inv_b_sound; exact H1|]. split; [apply verdict_eqb_eq; exact H2|apply mech_follows_spec].
Qed.

Lemma nth_error_last {A} (l : list A) a : nth_error (l ++ [a]) (length l) = Some a.
Proof. rewrite nth_error_app2, Nat.sub_diag by auto. reflexivity. Qed.

Definition slot_of (t : tgt) (m : nat) : nat := match t with TSlot _ k0 => k0 | TObj _ => m end.

Lemma ref_store_rejected pol s n hp t f m u ob old i0 : all_checked pol ->
  nth_error (ptrs s) n = Some hp -> pkind hp = HRef -> ptgt hp = Some t -> ppc hp = true -> f <> FIncDec ->
  nth_error (objs s) (tgt_obj t) = Some ob -> nth_error (ovals ob) (slot_of t m) = Some old ->
  exists i st, snd (run_from pol i0 s [OHStore f n m u]) = RejectedAt i st.
Proof.
  intros Ha Hn Hk Ht Hc Hf Ho Hv. cbn [run_from step]. rewrite Hn, Hk, Ht.
  destruct (ref_store_check_const t ob hp Hc) as (st & E). unfold slot_of in Hv.
  destruct f; try congruence; rewrite Ho, Hv, E, !Ha; cbn [andb]; destruct (nth _ (omconst ob) false); cbn [snd]; eauto.
Qed.

(* Once a reference is a reference to const, every longer chain built on it ends in a refusal - however many further
   local references or calls it goes through. *)
Lemma ref_tail_rejected pol : all_checked pol -> forall ls s n hp t f m u rd i0 ob old,
  nth_error (ptrs s) n = Some hp -> length (ptrs s) = S n -> pkind hp = HRef -> ptgt hp = Some t ->
  ppc hp = true -> f <> FIncDec -> (rd = true -> exists o, t = TObj o) ->
  nth_error (objs s) (tgt_obj t) = Some ob -> nth_error (ovals ob) (slot_of t m) = Some old ->
  exists i st, snd (run_from pol i0 s (ref_links (S n) (HVia n) ls ++ (if rd then [OHRead (n + length ls)] else []) ++
                                         [OHStore f (n + length ls) m u])) = RejectedAt i st.
Proof.
  intros Ha. induction ls as [|[par rc] ls IH]; intros s n hp t f m u rd i0 ob old Hn Hl Hk Ht Hc Hf Hrd Ho Hv.
  - cbn [ref_links length app]. rewrite Nat.add_0_r. destruct rd.
    + destruct (Hrd eq_refl) as (o & ->). cbn [app run_from]. cbn [step]. rewrite Hn, Hk, Ht.
      eapply ref_store_rejected with (hp := set_mat hp) (t := TObj o); eauto.
      cbn. rewrite nth_error_upd_same, Hn. reflexivity.
    + cbn [app]. eapply ref_store_rejected; eauto.
  - cbn [ref_links length app]. cbn [run_from]. cbn [step]. rewrite Hn, Hk, Ht, Ha, Hc. cbn [orb andb].
    destruct rc; cbn [negb].
    + replace (n + S (length ls))%nat with (S n + length ls)%nat by lia.
      eapply (IH (add_handle s (mk_ref t true par _)) (S n) (mk_ref t true par _) t f m u rd (S i0) ob old);
        try solve [reflexivity | assumption].
      * cbn [ptrs add_handle]. rewrite <- Hl. apply nth_error_last.
      * cbn [ptrs add_handle]. rewrite app_length. cbn. lia.
    + cbn [snd]. eauto.
Qed.

(* the same for an array parameter that has a const somewhere up its chain of calls *)
Lemma alias_tail_rejected pol : all_checked pol -> forall ls s n hp o ob fin i0,
  nth_error (ptrs s) n = Some hp -> length (ptrs s) = S n -> pkind hp = HAlias -> ptgt hp = Some (TObj o) -> hconst hp = true ->
  nth_error (objs s) o = Some ob -> has_cmember ob = false -> length (ovals ob) = 3%nat ->
  exists i st, snd (run_from pol i0 s (ref_links (S n) (HVia n) (map (fun rc => (true, rc)) ls) ++
                     [match fin with Some f => OHStore f (n + length ls) 1 1 | None => OHWhole (n + length ls) [4; 5; 6] end])) = RejectedAt i st.
Proof.
  intros Ha. induction ls as [|rc ls IH]; intros s n hp o ob fin i0 Hn Hl Hk Ht Hc Ho Hcm Hlen.
  - cbn [map ref_links length app]. rewrite Nat.add_0_r. cbn [run_from]. destruct fin as [f|]; cbn [step]; rewrite Hn, Hk, Ht, Ho.
    + destruct (ovals ob) as [|a [|b r]]; cbn in Hlen; try lia. cbn [nth_error].
      destruct (alias_site_const false f hp Hc) as (st & ->). rewrite Ha. cbn [snd]. eauto.
    + cbn [length]. rewrite Hlen, Hcm. cbn [Nat.eqb negb orb].
      destruct (alias_site_const true FAssign hp Hc) as (st & ->). rewrite Ha. cbn [snd]. eauto.
  - cbn [map ref_links length app]. cbn [run_from]. cbn [step]. rewrite Hn, Hk, Ht. cbn [negb].
    replace (n + S (length ls))%nat with (S n + length ls)%nat by lia.
    eapply (IH (add_handle s (mk_alias (TObj o) rc (ppc hp) (pp1 hp || ppd hp))) (S n) (mk_alias (TObj o) rc (ppc hp) (pp1 hp || ppd hp)) o ob fin (S i0));
      try solve [reflexivity | assumption].
    + cbn [ptrs add_handle]. rewrite <- Hl. apply nth_error_last.
    + cbn [ptrs add_handle]. rewrite app_length. cbn. lia.
    + apply hconst_mk_alias. exact Hc.
Qed.

