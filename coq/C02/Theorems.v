(* C02 - what the property theorems need beside the round trip: [strip] against [nopar], [full] and
   [eval]; the syntactic sufficient conditions for [safeb]. *)
From Coq Require Import List Arith Bool NArith.
From Cb Require Import C02.Model C02.Roundtrip C02.Tables.
Import ListNotations.

Lemma total_spec t : table_total t = true -> forall o, 1 <= lvl t o.
Proof.
  unfold table_total. intros H o. rewrite forallb_forall in H.
  apply Nat.leb_le, H, in_all_binops.
Qed.

Fixpoint nopar (e : expr) : bool :=
  match e with
  | Num _ | Var _ => true
  | Par _ => false
  | Un _ a | Pre _ a | Post _ a | Mem a _ | Arrow a _ | EProp a | Cast _ a | Generic _ a => nopar a
  | Bin _ a b | Idx a b | Asg _ a b => nopar a && nopar b
  | Call _ args => forallb nopar args
  | MCall _ a _ args => nopar a && forallb nopar args
  | Tern c a b => nopar c && nopar a && nopar b
  | SizeofT => true
  | ArrLit l => forallb nopar l
  end.

Lemma map_strip_nopar l : Forall (fun e => nopar e = true -> strip e = e) l ->
  forallb nopar l = true -> map strip l = l.
Proof.
  induction 1 as [|a l Ha Hl IH]; intros Hn; [reflexivity|].
  cbn [forallb] in Hn. apply andb_true_iff in Hn. destruct Hn as [Hna Hnl].
  cbn [map]. rewrite (Ha Hna), (IH Hnl). reflexivity.
Qed.

Lemma strip_nopar : forall e, nopar e = true -> strip e = e.
Proof.
  induction e using expr_ind2; intros Hn; cbn [nopar strip] in *; try discriminate Hn;
    repeat match goal with H : _ && _ = true |- _ => apply andb_true_iff in H; destruct H end;
    try reflexivity;
    repeat match goal with IH : nopar ?a = true -> _, H : nopar ?a = true |- _ => rewrite (IH H); clear IH end;
    try reflexivity.
  - rewrite (map_strip_nopar args H Hn). reflexivity.
  - rewrite (map_strip_nopar args H H1). reflexivity.
  - rewrite (map_strip_nopar l H Hn). reflexivity.
Qed.

Lemma strip_wrap e : strip (wrap e) = strip e.
Proof. unfold wrap. destruct (atomic e); reflexivity. Qed.

Lemma map_strip_full l : Forall (fun e => strip (full e) = strip e) l -> map strip (map full l) = map strip l.
Proof. rewrite map_map. apply map_ext_Forall. Qed.

Lemma strip_full : forall e, strip (full e) = strip e.
Proof.
  induction e using expr_ind2; cbn [full strip]; rewrite ?strip_wrap; try congruence.
  - rewrite (map_strip_full args H). reflexivity.
  - rewrite (map_strip_full args H), IHe. reflexivity.
  - rewrite (map_strip_full l H). reflexivity.
Qed.

Lemma wf_wrap e : wf (wrap e) = wf e.
Proof. unfold wrap. destruct (atomic e); reflexivity. Qed.

Lemma forallb_wf_full l : Forall (fun e => wf e = true -> wf (full e) = true) l ->
  forallb wf l = true -> forallb wf (map full l) = true.
Proof.
  induction 1 as [|a l Ha Hl IH]; intros Hw; [reflexivity|].
  cbn [forallb] in Hw. apply andb_true_iff in Hw. destruct Hw as [Hwa Hwl].
  cbn [map forallb]. rewrite (Ha Hwa), (IH Hwl). reflexivity.
Qed.

Lemma wf_full : forall e, wf e = true -> wf (full e) = true.
Proof.
  induction e using expr_ind2; intros Hw; cbn [full wf] in *; rewrite ?wf_wrap; try discriminate Hw;
    repeat match goal with H : _ && _ = true |- _ => apply andb_true_iff in H; destruct H end;
    auto;
    repeat (apply andb_true_iff; split); auto using forallb_wf_full.
  - rewrite map_length. assumption.
  - rewrite strip_full. assumption.
Qed.

(* fully parenthesised: every operand of every operator is a literal, an identifier or in explicit
   parentheses (call arguments, index expressions and assignment targets are delimited already) *)
Definition opnd (e : expr) : bool := match e with Par _ => true | _ => atomic e end.
Fixpoint fullpar (e : expr) : bool :=
  match e with
  | Num _ | Var _ => true
  | Par a => fullpar a
  | Bin _ a b => opnd a && opnd b && fullpar a && fullpar b
  | Un _ a | Pre _ a | Post _ a | Mem a _ | Arrow a _ => opnd a && fullpar a
  | Idx a i => opnd a && fullpar a && fullpar i
  | Call _ args => forallb fullpar args
  | MCall _ a _ args => opnd a && fullpar a && forallb fullpar args
  | Tern c a b => opnd c && opnd a && opnd b && fullpar c && fullpar a && fullpar b
  | Asg _ l r => fullpar l && opnd r && fullpar r
  | Cast _ a => opnd a && fullpar a
  | EProp a | Generic _ a => fullpar a
  | SizeofT => true
  | ArrLit l => forallb fullpar l
  end.

Lemma opnd_wrap e : opnd (wrap e) = true.
Proof. unfold wrap. destruct (atomic e) eqn:E; [|reflexivity]. unfold opnd. rewrite E. destruct e; reflexivity. Qed.
Lemma fullpar_wrap e : fullpar (wrap e) = fullpar e.
Proof. unfold wrap. destruct (atomic e); reflexivity. Qed.

Lemma forallb_fullpar_full l : Forall (fun e => fullpar (full e) = true) l -> forallb fullpar (map full l) = true.
Proof. induction 1 as [|a l Ha Hl IH]; [reflexivity|]. cbn [map forallb]. rewrite Ha, IH. reflexivity. Qed.

Lemma fullpar_full : forall e, fullpar (full e) = true.
Proof.
  induction e using expr_ind2; cbn [full fullpar]; rewrite ?opnd_wrap, ?fullpar_wrap; cbn [andb];
    repeat match goal with IH : fullpar _ = true |- _ => rewrite IH; clear IH end; try reflexivity;
    apply forallb_fullpar_full; assumption.
Qed.

Lemma eval_fn_strip fn env : forall e, eval_fn fn env (strip e) = eval_fn fn env e.
Proof.
  induction e using expr_ind2; cbn [strip eval_fn]; try reflexivity; try congruence.
  - rewrite IHe1, IHe2. reflexivity.
  - destruct u; try reflexivity; rewrite IHe; reflexivity.
  - (* the values of the arguments, whatever is done with them *)
    match goal with |- match ?go _ with _ => _ end = _ =>
      enough (E : go (map strip args) = go args) by (rewrite E; reflexivity) end.
    induction H as [|a l Ha _ IH]; [reflexivity|]. cbn [map]. rewrite Ha, IH. reflexivity.
  - rewrite IHe1, IHe2, IHe3. reflexivity.
  - rewrite IHe. reflexivity.
Qed.

Lemma eval_strip env e : eval env (strip e) = eval env e.
Proof. apply eval_fn_strip. Qed.

(* the look-ahead answers "call" only on reaching a `>` that stands directly before `(` *)
Lemma no_gt_lp_scan ts : forall d, generic_scan d ts = true -> no_gt_lp ts = false.
Proof.
  induction ts as [|t r IH]; intros d H; [discriminate H|].
  assert (Hdef : no_gt_lp r = false -> no_gt_lp (t :: r) = false).
  { intros E. cbn [no_gt_lp]. destruct t; try exact E. destruct o; try exact E.
    destruct r as [|t' r']; [exact E|]. destruct t'; try exact E. reflexivity. }
  destruct t; cbn [generic_scan] in H; try discriminate H; try (apply Hdef; eapply IH; exact H).
  - destruct o; try discriminate H; try (apply Hdef; eapply IH; exact H).
    destruct d as [|[|d]]; try (apply Hdef; eapply IH; exact H);
      (destruct r as [|t' r']; [discriminate H|]; destruct t'; try discriminate H; reflexivity).
  - destruct o; try discriminate H; apply Hdef; eapply IH; exact H.
Qed.

Theorem no_gt_lp_generic_safe_l : forall ts, no_gt_lp ts = true -> forall d, generic_scan d ts = false.
Proof.
  intros ts H d. destruct (generic_scan d ts) eqn:E; [|reflexivity].
  rewrite (no_gt_lp_scan ts d E) in H. discriminate H.
Qed.

Lemma syn_safe_tail t r : syn_safe (t :: r) = true -> syn_safe r = true.
Proof. cbn [syn_safe]. intros H. apply andb_true_iff in H. apply H. Qed.

Lemma syn_safe_no_gt_lp ts : syn_safe ts = true -> no_gt_lp ts = true.
Proof.
  induction ts as [|t r IH]; intros H; [reflexivity|].
  pose proof (IH (syn_safe_tail t r H)) as Hr. cbn [syn_safe] in H. apply andb_true_iff in H. destruct H as [H _].
  cbn [no_gt_lp]. destruct t; try exact Hr. destruct o; try exact Hr.
  destruct r as [|t' r']; [exact Hr|]. destruct t'; try exact Hr. discriminate H.
Qed.

(* the whole hazard predicate: a stream is safe when no `>` stands directly before `(`, no upper-case
   identifier directly before `<` or directly after `sizeof (`, and no type-named identifier directly
   after `(` *)
Lemma syn_safe_from ts : syn_safe ts = true -> forall p, safe_from p ts = true.
Proof.
  induction ts as [|t r IH]; intros H p; [reflexivity|].
  pose proof (syn_safe_tail t r H) as Hr. cbn [safe_from]. rewrite (IH Hr), andb_true_r.
  cbn [syn_safe] in H. apply andb_true_iff in H. destruct H as [H _]. apply negb_true_iff in H.
  apply negb_true_iff. destruct t; try reflexivity.
  - (* identifier *)
    cbn [hazard]. destruct p; try reflexivity;
      (destruct r as [|t' r']; [reflexivity|]; destruct t'; try reflexivity;
       [ destruct o; try reflexivity; rewrite H; cbn [orb];
         apply no_gt_lp_generic_safe_l; apply syn_safe_no_gt_lp; exact (syn_safe_tail _ _ Hr)
       | destruct r' as [|t2 r2]; [reflexivity|]; destruct t2; try reflexivity; exact H ]).
  - (* ( *)
    cbn [hazard]. destruct p; try reflexivity;
      (destruct r as [|t' r']; [reflexivity|]; destruct t'; try reflexivity;
       cbn [cast_type]; rewrite H; reflexivity).
Qed.

Theorem syn_safe_l : forall ts, syn_safe ts = true -> safeb ts = true.
Proof. intros ts H. apply syn_safe_from. exact H. Qed.

(* streams without `(` in which no upper-case identifier stands before `<` *)
Fixpoint nolp (ts : list tok) : bool :=
  match ts with [] => true | TLP :: _ => false | _ :: r => nolp r end.
Fixpoint no_upper_lt (ts : list tok) : bool :=
  match ts with
  | [] => true
  | TId x :: ((TOp LtO :: _) as r) => negb (id_upper x) && no_upper_lt r
  | _ :: r => no_upper_lt r
  end.

Lemma nolp_syn_safe ts : nolp ts = true -> no_upper_lt ts = true -> syn_safe ts = true.
Proof.
  induction ts as [|t r IH]; intros Hn Hu; [reflexivity|].
  assert (Hn' : nolp r = true) by (destruct t; try exact Hn; discriminate Hn).
  assert (Hu' : no_upper_lt r = true).
  { destruct t; try exact Hu. cbn [no_upper_lt] in Hu. destruct r as [|t' r']; [reflexivity|].
    destruct t'; try exact Hu. destruct o; try exact Hu. apply andb_true_iff in Hu. apply Hu. }
  cbn [syn_safe]. rewrite (IH Hn' Hu'), andb_true_r.
  destruct t; try reflexivity; try discriminate Hn.
  - destruct r as [|t' r']; [reflexivity|]. destruct t'; try reflexivity; try discriminate Hn'.
    destruct o; try reflexivity. cbn [no_upper_lt] in Hu. apply andb_true_iff in Hu. destruct Hu as [Hu _].
    exact Hu.
  - destruct o; try reflexivity. destruct r as [|t' r']; [reflexivity|]. destruct t'; try reflexivity. discriminate Hn'.
Qed.

Lemma nolp_safe ts : nolp ts = true -> no_upper_lt ts = true -> safeb ts = true.
Proof. intros. apply syn_safe_l, nolp_syn_safe; assumption. Qed.
