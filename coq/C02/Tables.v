(* C02 - the concrete level tables (spec = docs/spec.md:309 / docs/BNF.md:407 = pinned, the ladder the
   model is written against since fix 4d0a4b7; old_table = the ladder before it), the identifiers and
   the sample tree of the examples, and what Model.v assumes about the generated description of the C++. *)
From Coq Require Import List ZArith String.
From Cb Require Import C02.Model.
Import ListNotations.

Lemma pinned_total_l : table_total pinned_table = true.
Proof. vm_compute. reflexivity. Qed.
Lemma spec_total_l : table_total spec_table = true.
Proof. exact pinned_total_l. Qed.

(* nothing here mentions the generated Gen_LadderTable.v: the theorems about ladder_table are closed in
   Properties_C02.v by conversion (ladder_table unfolds to spec_table as long as the C++ is unchanged),
   so that a changed table breaks a NAMED obligation there and nothing else *)
Lemma pinned_is_spec_l : pinned_table = spec_table.
Proof. reflexivity. Qed.

(* the ladder before fix 4d0a4b7 was not the documented one *)
Lemma old_is_not_spec_l : old_table <> spec_table.
Proof. intros H. discriminate H. Qed.

Definition is_eq (o : binop) : bool := match o with EqO | NeO => true | _ => false end.
Definition is_rel (o : binop) : bool := match o with LtO | LeO | GtO | GeO => true | _ => false end.

Lemma in_all_binops o : In o all_binops.
Proof. destruct o; cbn; tauto. Qed.

(* identifiers of the four classes used in the examples: lower-case a b c d, upper-case N M (no type),
   a lower-case and an upper-case declared type name *)
Definition ia := 4. Definition ib := 8. Definition ic := 12. Definition id_ := 16.
Definition iN := 21. Definition iM := 25. Definition it_ := 30. Definition iT := 35.
Lemma id_classes_l :
  (id_upper ia, id_type ia) = (false, false) /\ (id_upper iN, id_type iN) = (true, false) /\
  (id_upper it_, id_type it_) = (false, true) /\ (id_upper iT, id_type iT) = (true, true) /\
  is_sizeof 0 = true /\ is_sizeof ia = false.
Proof. repeat split. Qed.

(* hypotheses of the round trip are satisfiable, and the fuel of [parse] is enough, on a stream
   that exercises every construct (identifiers of all four classes, method calls, sizeof, casts, an array literal) *)
Definition sample : expr :=
  Asg (Some Add) (Idx (Var ia) (Bin Add (Var iN) (Num 1)))
      (Tern (Bin Or (Bin LeO (Par (Var iN)) (Num 3)) (Un Not (Var iT)))
            (Bin Mul (Par (Bin Sub (Par (Var iM)) (Un Neg (Post true (Var ib)))))
                     (Call 20 [Var ic; Bin Shl (Num 1) (Call 0 [Var ia])]))
            (Tern (Bin EqO (Var ib) (Bin GeO (Par (Bin Add (Var it_) (Num 0))) (Var id_)))
                  (Mem (Arrow (Var 40) 44) 49)
                  (Bin Sub (Cast [TKw 0; TOp Mul] (MCall false (Par (Var iN)) 52 [Var iT; Par (Var iN)]))
                           (Pre false (Par (Idx (ArrLit [Var ia; Bin Add (Var iN) (Num 2)]) (Num 0))))))).

Local Open Scope string_scope.

Fixpoint chain_ok (l : list (string * string * string * string)) : bool :=
  match l with
  | [] => false
  | [(_, opd, rhs, kind)] => String.eqb opd rhs && String.eqb kind "while" && String.eqb opd "parseUnary"
  | (_, opd, rhs, kind) :: (((fn', _, _, _) :: _) as l') =>
      String.eqb opd rhs && String.eqb kind "while" && String.eqb opd fn' && chain_ok l'
  end.

Definition list_string_eqb (a b : list string) : bool :=
  (List.length a =? List.length b)%nat && forallb (fun p => String.eqb (fst p) (snd p)) (combine a b).

(* what Model.v assumes about the code around the table: every level is a `while` loop whose
   right operand is parsed by the same callee as its left operand (left associative), the levels
   form one chain from parseTernary's condition callee down to parseUnary; ?: parses its branches
   with parseTernary; assignment is parseTernary = parseAssignment; prefix operators recurse into
   parseUnary, ++/-- and the fall-through use parsePostfix *)
Definition structure_ok (shape : list (string * string * string * string)) (ternary : list string)
    (entry : string) (assign unary_prefix unary_calls generic_stops : list string) (generic_bound : nat) (cast_guard : bool)
    (t : table) : bool :=
  chain_ok shape &&
  match shape, ternary with
  | (fn, _, _, _) :: _, [c; th; el] => String.eqb fn c && String.eqb th "parseTernary" && String.eqb el "parseTernary"
  | _, _ => false
  end &&
  String.eqb entry "parseAssignment" &&
  list_string_eqb assign ["parseTernary"; "parseAssignment"] &&
  list_string_eqb unary_prefix ["TOK_BIT_AND"; "TOK_BIT_NOT"; "TOK_MINUS"; "TOK_MUL"; "TOK_NOT"] &&
  list_string_eqb unary_calls ["parseUnary"; "parsePostfix"; "parsePostfix"] &&
  list_string_eqb generic_stops ["TOK_AND"; "TOK_ASSIGN"; "TOK_LBRACE"; "TOK_LPAREN"; "TOK_MINUS"; "TOK_OR";
                                  "TOK_PLUS"; "TOK_RBRACE"; "TOK_RPAREN"; "TOK_SEMICOLON"] &&
  (generic_bound =? scan_bound)%nat &&
  cast_guard &&
  (List.length shape =? List.length t)%nat.

(* what Model.v assumes about the two look-aheads of parsePrimary and about parsePostfix:
   `( identifier` is a type exactly for the five declaration maps (plus the type-parameter loop): three
   assignments to may_be_type in all - a fourth would be a further rule, e.g. one on the spelling of the
   name; the spelling is tested (std::isupper) in exactly two places, the sizeof operand and `Name<`
   ([sizeof_type_start], [name_skip]); a cast operand is parsed by parseUnary; a cast type starts with
   one of the ten keyword types (TOK_CHAR, the char literal, is in the list of the code but parseType
   rejects it) or an identifier; parsePostfix tests ( [ . -> and ++ (with --); the keyword prefix
   operators await and try / checked take a parseUnary operand *)
Definition primary_ok (maps : list string) (assigns isupper : nat) (operand : string) (starts postfix kwcalls : list string) : bool :=
  list_string_eqb maps ["enum_definitions_"; "interface_definitions_"; "struct_definitions_"; "typedef_map_";
                        "union_definitions_"] &&
  (assigns =? 3)%nat && (isupper =? 2)%nat && String.eqb operand "parseUnary" &&
  list_string_eqb starts ["TOK_BOOL"; "TOK_CHAR"; "TOK_CHAR_TYPE"; "TOK_DOUBLE"; "TOK_FLOAT"; "TOK_IDENTIFIER"; "TOK_INT";
                          "TOK_LONG"; "TOK_SHORT"; "TOK_STRING_TYPE"; "TOK_TINY"; "TOK_VOID"] &&
  list_string_eqb postfix ["TOK_ARROW"; "TOK_DOT"; "TOK_INCR"; "TOK_LBRACKET"; "TOK_LPAREN"] &&
  list_string_eqb kwcalls ["parseUnary"; "parseUnary"].
