(* C02 - property theorems only.  Statements are about the Mech model of expression_parser.cpp,
   RecursiveParser::parseTernary and parsePrimary (Model.v); the induction behind them is
   Roundtrip.roundtrip_all, over the fuel-free view of the parser of Rules.v.  ladder_table is re-extracted
   from the C++ text on every run (Gen_LadderTable.v).

   Vocabulary: [pr tbl 0 e] prints a source tree with the parentheses the table [tbl] requires plus
   every explicit [Par]; [strip] erases [Par]; [wf] = built from the documented operators with
   assignment targets the parser accepts; [folb tbl 0 rest] = [rest] starts with a token that can
   follow a complete expression.  Identifiers carry the two facts the parser looks at: [id_upper]
   (upper-case initial) and [id_type] (names a declared type); identifier 0 is sizeof.
   [safeb ts] = the stream trips none of the four token-shape heuristics of parsePrimary, each a known
   finding and each clause exact: `ident < type-argument-like tokens > (` (C02-generic-lookahead),
   `Upper <` (C02-upper-ident-lt), `sizeof ( Upper` (C02-sizeof-upper-ident), `( T '*'* )` with a
   type-named T (C02-type-named-variable-cast); computable, implied by the syntactic [syn_safe].
   Since the fixes 4d0a4b7 / 9bd33cd / 34a2124 the ladder is the documented table, the look-ahead
   stops at ; ( ) { } = + - && || and a parenthesised identifier that names no type is never a
   cast - whatever its spelling ([paren_nontype_identifier]). *)
From Coq Require Import List Lia ZArith.
From Cb Require Import C02.Model C02.Mono C02.Rules C02.Roundtrip C02.Theorems C02.Gen_LadderTable C02.Tables.
Import ListNotations.

(* MAIN: for EVERY level table that gives each binary operator a level, EVERY well-formed expression
   tree (any depth, any placement of redundant parentheses) and EVERY admissible follow context:
   parsing the printed stream returns the tree without its parentheses and leaves the context. *)
Theorem roundtrip_general : forall tbl e rest,
  table_total tbl = true -> wf e = true -> folb tbl 0 rest = true ->
  safeb (pr tbl 0 e ++ rest) = true ->
  exists fuel, p_assign tbl fuel (pr tbl 0 e ++ rest) = Ok (strip e, rest).
Proof.
  intros tbl e rest Ht Hw Hf Hs.
  destruct (roundtrip_all tbl (total_spec tbl Ht) e Hw) as (HP & _ & _).
  apply (HP 0 rest); [lia|exact Hf|exact Hs].
Qed.
Print Assumptions roundtrip_general.

(* minimal parentheses: a tree without explicit parentheses comes back unchanged *)
Theorem roundtrip_min : forall tbl e rest,
  table_total tbl = true -> wf e = true -> nopar e = true -> folb tbl 0 rest = true ->
  safeb (pr tbl 0 e ++ rest) = true ->
  exists fuel, p_assign tbl fuel (pr tbl 0 e ++ rest) = Ok (e, rest).
Proof.
  intros tbl e rest Ht Hw Hn Hf Hs.
  destruct (roundtrip_general tbl e rest Ht Hw Hf Hs) as [f H].
  rewrite (strip_nopar e Hn) in H. exists f. exact H.
Qed.
Print Assumptions roundtrip_min.

(* full parentheses: [full e] puts every operand in parentheses ([fullpar_full]) and parses to the
   same tree *)
Theorem roundtrip_full : forall tbl e rest,
  table_total tbl = true -> wf e = true -> folb tbl 0 rest = true ->
  safeb (pr tbl 0 (full e) ++ rest) = true ->
  exists fuel, p_assign tbl fuel (pr tbl 0 (full e) ++ rest) = Ok (strip e, rest).
Proof.
  intros tbl e rest Ht Hw Hf Hs. rewrite <- (strip_full e).
  apply roundtrip_general; auto using wf_full.
Qed.
Print Assumptions roundtrip_full.

Theorem full_is_fully_parenthesised : forall e, fullpar (full e) = true /\ strip (full e) = strip e.
Proof. intros e. split; [apply fullpar_full|apply strip_full]. Qed.
Print Assumptions full_is_fully_parenthesised.

(* adding or removing ANY redundant parentheses never changes the parse ... *)
Theorem redundant_parens : forall tbl e e' rest,
  table_total tbl = true -> wf e = true -> wf e' = true -> strip e = strip e' ->
  folb tbl 0 rest = true ->
  safeb (pr tbl 0 e ++ rest) = true -> safeb (pr tbl 0 e' ++ rest) = true ->
  exists fuel, p_assign tbl fuel (pr tbl 0 e ++ rest) = Ok (strip e, rest) /\
               p_assign tbl fuel (pr tbl 0 e' ++ rest) = Ok (strip e, rest).
Proof.
  intros tbl e e' rest Ht Hw Hw' E Hf Hs Hs'.
  destruct (roundtrip_general tbl e rest Ht Hw Hf Hs) as [f H].
  destruct (roundtrip_general tbl e' rest Ht Hw' Hf Hs') as [f' H'].
  exists (f + f'). split.
  - apply (up_assign tbl f); [exact H|lia].
  - rewrite E. apply (up_assign tbl f'); [exact H'|lia].
Qed.
Print Assumptions redundant_parens.

(* ... nor the value (pure integer fragment of the model evaluator) *)
Theorem parens_irrelevant_eval : forall tbl e e' rest env f f' x x' r r',
  table_total tbl = true -> wf e = true -> wf e' = true -> strip e = strip e' ->
  folb tbl 0 rest = true ->
  safeb (pr tbl 0 e ++ rest) = true -> safeb (pr tbl 0 e' ++ rest) = true ->
  p_assign tbl f (pr tbl 0 e ++ rest) = Ok (x, r) -> p_assign tbl f' (pr tbl 0 e' ++ rest) = Ok (x', r') ->
  x = x' /\ r = r' /\ eval env x = eval env e /\ eval env x' = eval env e.
Proof.
  intros tbl e e' rest env f f' x x' r r' Ht Hw Hw' E Hf Hs Hs' H H'.
  destruct (redundant_parens tbl e e' rest Ht Hw Hw' E Hf Hs Hs') as (g & G & G').
  pose proof (p_assign_unique tbl _ _ _ _ _ H G) as E1.
  pose proof (p_assign_unique tbl _ _ _ _ _ H' G') as E2.
  inversion E1; inversion E2; subst. rewrite eval_strip. auto.
Qed.
Print Assumptions parens_irrelevant_eval.

(* the same at full strength with a purely syntactic side condition on both texts: no `>` directly
   before `(`, no upper-case identifier directly before `<` or directly after `sizeof (`, no type-named
   identifier directly after `(` *)
Theorem redundant_parens_syntactic : forall tbl e e' rest,
  table_total tbl = true -> wf e = true -> wf e' = true -> strip e = strip e' ->
  folb tbl 0 rest = true ->
  syn_safe (pr tbl 0 e ++ rest) = true -> syn_safe (pr tbl 0 e' ++ rest) = true ->
  exists fuel, p_assign tbl fuel (pr tbl 0 e ++ rest) = Ok (strip e, rest) /\
               p_assign tbl fuel (pr tbl 0 e' ++ rest) = Ok (strip e, rest).
Proof. intros. apply redundant_parens; auto using syn_safe_l. Qed.
Print Assumptions redundant_parens_syntactic.

(* fuel is only recursion depth: with ANY fuel the answer is that tree or an explicit out-of-fuel
   report - never another tree and never a parse error (the driver doubles the fuel until the answer is
   not out-of-fuel; [roundtrip_general] says such a fuel exists) *)
Theorem roundtrip_any_fuel : forall tbl e rest,
  table_total tbl = true -> wf e = true -> folb tbl 0 rest = true ->
  safeb (pr tbl 0 e ++ rest) = true ->
  forall g, p_assign tbl g (pr tbl 0 e ++ rest) = Ok (strip e, rest) \/
            p_assign tbl g (pr tbl 0 e ++ rest) = Fuel.
Proof.
  intros tbl e rest Ht Hw Hf Hs g.
  destruct (roundtrip_general tbl e rest Ht Hw Hf Hs) as [f H].
  destruct (Nat.le_gt_cases f g) as [Hle|Hgt].
  - left. eapply up_assign; eassumption.
  - destruct (proj1 (mono tbl g f (Nat.lt_le_incl _ _ Hgt)) (pr tbl 0 e ++ rest)) as [E|E]; [right; exact E|].
    left. rewrite E. exact H.
Qed.
Print Assumptions roundtrip_any_fuel.

(* PARTIAL (missing: a proof that the closed-form bound [enough_fuel] always suffices; it is the first
   fuel the driver tries) *)
Theorem enough_fuel_partial : forall tbl e rest,
  table_total tbl = true -> wf e = true -> folb tbl 0 rest = true ->
  safeb (pr tbl 0 e ++ rest) = true ->
  parse tbl (pr tbl 0 e ++ rest) = Ok (strip e, rest) \/ parse tbl (pr tbl 0 e ++ rest) = Fuel.
Proof. intros. apply roundtrip_any_fuel; assumption. Qed.
Print Assumptions enough_fuel_partial.

(* a stream that is the print of a tree parses as that tree *)
Lemma parses_as tbl e : table_total tbl = true -> wf e = true -> forall ts, safeb ts = true ->
  pr tbl 0 e = ts -> exists fuel, p_assign tbl fuel ts = Ok (strip e, []).
Proof.
  intros Ht Hw ts Hs <-. rewrite <- (app_nil_r (pr tbl 0 e)) in *.
  apply roundtrip_general; [exact Ht|exact Hw|reflexivity|exact Hs].
Qed.

(* the print of a concrete tree none of whose operands needs parentheses: every test of [pr] succeeds *)
Ltac print_min := cbn [pr lev]; rewrite !leb_correct by lia; reflexivity.

(* the documented groupings, on concrete streams, for any total table and any identifiers; the
   [safeb] hypothesis only excludes an upper-case identifier directly before `<` (C02-upper-ident-lt):
   streams without `(` and without that pair are safe ([plain_streams_are_safe]).  Each stream is the
   print of the tree it groups to. *)
Theorem binary_left_assoc : forall tbl, table_total tbl = true ->
  forall o1 o2 x y z, lvl tbl o1 = lvl tbl o2 ->
  safeb [TId x; TOp o1; TId y; TOp o2; TId z] = true ->
  exists fuel, p_assign tbl fuel [TId x; TOp o1; TId y; TOp o2; TId z] =
               Ok (Bin o2 (Bin o1 (Var x) (Var y)) (Var z), []).
Proof.
  intros tbl Ht o1 o2 x y z E Hs. pose proof (total_spec tbl Ht o1). pose proof (lvl_le tbl o1).
  apply (parses_as tbl (Bin o2 (Bin o1 (Var x) (Var y)) (Var z)) Ht eq_refl _ Hs). print_min.
Qed.
Print Assumptions binary_left_assoc.

Theorem higher_level_binds_tighter : forall tbl, table_total tbl = true ->
  forall o1 o2 x y z, lvl tbl o1 < lvl tbl o2 ->
  (safeb [TId x; TOp o1; TId y; TOp o2; TId z] = true ->
   exists fuel, p_assign tbl fuel [TId x; TOp o1; TId y; TOp o2; TId z] =
                Ok (Bin o1 (Var x) (Bin o2 (Var y) (Var z)), [])) /\
  (safeb [TId x; TOp o2; TId y; TOp o1; TId z] = true ->
   exists fuel, p_assign tbl fuel [TId x; TOp o2; TId y; TOp o1; TId z] =
                Ok (Bin o1 (Bin o2 (Var x) (Var y)) (Var z), [])).
Proof.
  intros tbl Ht o1 o2 x y z E. pose proof (total_spec tbl Ht o1). pose proof (lvl_le tbl o2).
  split; intros Hs.
  - apply (parses_as tbl (Bin o1 (Var x) (Bin o2 (Var y) (Var z))) Ht eq_refl _ Hs). print_min.
  - apply (parses_as tbl (Bin o1 (Bin o2 (Var x) (Var y)) (Var z)) Ht eq_refl _ Hs). print_min.
Qed.
Print Assumptions higher_level_binds_tighter.

Theorem ternary_right_assoc : forall tbl, table_total tbl = true -> forall a b c d e,
  safeb [TId a; TQ; TId b; TColon; TId c; TQ; TId d; TColon; TId e] = true ->
  exists fuel, p_assign tbl fuel [TId a; TQ; TId b; TColon; TId c; TQ; TId d; TColon; TId e] =
               Ok (Tern (Var a) (Var b) (Tern (Var c) (Var d) (Var e)), []).
Proof.
  intros tbl Ht a b c d e Hs.
  apply (parses_as tbl (Tern (Var a) (Var b) (Tern (Var c) (Var d) (Var e))) Ht eq_refl _ Hs). print_min.
Qed.
Print Assumptions ternary_right_assoc.

Theorem assignment_right_assoc : forall tbl, table_total tbl = true -> forall o1 o2 x y z,
  safeb [TId x; TAsg o1; TId y; TAsg o2; TId z] = true ->
  exists fuel, p_assign tbl fuel [TId x; TAsg o1; TId y; TAsg o2; TId z] =
               Ok (Asg o1 (Var x) (Asg o2 (Var y) (Var z)), []).
Proof.
  intros tbl Ht o1 o2 x y z Hs.
  apply (parses_as tbl (Asg o1 (Var x) (Asg o2 (Var y) (Var z))) Ht eq_refl _ Hs). print_min.
Qed.
Print Assumptions assignment_right_assoc.

Theorem binary_above_ternary_above_assignment : forall tbl, table_total tbl = true -> forall o x a b c d,
  safeb [TId x; TAsg None; TId a; TOp o; TId b; TQ; TId c; TColon; TId d] = true ->
  exists fuel, p_assign tbl fuel [TId x; TAsg None; TId a; TOp o; TId b; TQ; TId c; TColon; TId d] =
               Ok (Asg None (Var x) (Tern (Bin o (Var a) (Var b)) (Var c) (Var d)), []).
Proof.
  intros tbl Ht o x a b c d Hs. pose proof (total_spec tbl Ht o). pose proof (lvl_le tbl o).
  apply (parses_as tbl (Asg None (Var x) (Tern (Bin o (Var a) (Var b)) (Var c) (Var d))) Ht eq_refl _ Hs).
  print_min.
Qed.
Print Assumptions binary_above_ternary_above_assignment.

Theorem unary_binds_tighter_than_binary : forall tbl, table_total tbl = true -> forall u o x y,
  (safeb [utok u; TId x; TOp o; TId y] = true ->
   exists fuel, p_assign tbl fuel [utok u; TId x; TOp o; TId y] = Ok (Bin o (Un u (Var x)) (Var y), [])) /\
  (safeb [TId x; TOp o; utok u; TId y] = true ->
   exists fuel, p_assign tbl fuel [TId x; TOp o; utok u; TId y] = Ok (Bin o (Var x) (Un u (Var y)), [])).
Proof.
  intros tbl Ht u o x y. pose proof (total_spec tbl Ht o). pose proof (lvl_le tbl o). split; intros Hs.
  - apply (parses_as tbl (Bin o (Un u (Var x)) (Var y)) Ht eq_refl _ Hs). print_min.
  - apply (parses_as tbl (Bin o (Var x) (Un u (Var y))) Ht eq_refl _ Hs). print_min.
Qed.
Print Assumptions unary_binds_tighter_than_binary.

Theorem postfix_binds_tighter_than_unary : forall tbl, table_total tbl = true -> forall u x i m d,
  (exists fuel, p_assign tbl fuel [utok u; TId x; TLB; TId i; TRB] = Ok (Un u (Idx (Var x) (Var i)), [])) /\
  (exists fuel, p_assign tbl fuel [utok u; TId x; itok d] = Ok (Un u (Post d (Var x)), [])) /\
  (exists fuel, p_assign tbl fuel [utok u; TId x; TDot; TId m] = Ok (Un u (Mem (Var x) m), [])).
Proof.
  intros tbl Ht u x i m d. repeat split.
  - apply (parses_as tbl (Un u (Idx (Var x) (Var i))) Ht eq_refl); [apply nolp_safe; destruct u; reflexivity|print_min].
  - apply (parses_as tbl (Un u (Post d (Var x))) Ht eq_refl); [apply nolp_safe; destruct u, d; reflexivity|print_min].
  - apply (parses_as tbl (Un u (Mem (Var x) m)) Ht eq_refl); [apply nolp_safe; destruct u; reflexivity|print_min].
Qed.
Print Assumptions postfix_binds_tighter_than_unary.

(* no `>` directly before `(` implies that the generic look-ahead never fires; with the other three
   syntactic conditions the stream is safe *)
Theorem no_gt_before_lparen_is_safe : forall ts,
  (no_gt_lp ts = true -> forall d, generic_scan d ts = false) /\
  (syn_safe ts = true -> safeb ts = true).
Proof. intros ts. split; [exact (no_gt_lp_generic_safe_l ts)|exact (syn_safe_l ts)]. Qed.
Print Assumptions no_gt_before_lparen_is_safe.

Theorem plain_streams_are_safe : forall ts, nolp ts = true -> no_upper_lt ts = true -> safeb ts = true.
Proof. exact nolp_safe. Qed.
Print Assumptions plain_streams_are_safe.

(* THE SPELLING OF A NAME DOES NOT MAKE IT A TYPE: `( x )` is the variable x for every identifier that
   names no declared type - upper-case initial or not - and for EVERY continuation of the stream *)
Theorem paren_nontype_identifier : forall tbl x r, table_total tbl = true -> id_type x = false ->
  exists fuel, p_primary tbl fuel (TLP :: TId x :: TRP :: r) = Ok (Var x, r).
Proof. intros tbl x r _ Hx. exact (paren_ident tbl x r Hx). Qed.
Print Assumptions paren_nontype_identifier.

(* The table of the code.  ladder_table, ladder_shape, ... are GENERATED from expression_parser.cpp /
   recursive_parser.cpp / primary_expression_parser.cpp on every run; the next obligations are closed by
   conversion against them, so a change of any `while` token set, call structure or look-ahead guard
   breaks the obligation that names it. *)
(* the generated table IS the documented table (docs/spec.md:309, docs/BNF.md:407), and it is total:
   every theorem above applies to it *)
Theorem ladder_is_spec : ladder_table = spec_table /\ table_total ladder_table = true.
Proof. exact (conj (eq_refl spec_table) spec_total_l). Qed.
Print Assumptions ladder_is_spec.

Theorem primary_lookaheads_are_modelled :
  primary_ok ladder_cast_guard_maps ladder_cast_guard_assigns ladder_primary_isupper ladder_cast_operand
             ladder_cast_starts ladder_postfix_tests ladder_unary_kw_calls = true.
Proof. exact (eq_refl true). Qed.
Print Assumptions primary_lookaheads_are_modelled.

(* the functions around the table have the shape Model.v assumes: every level a left-associative
   `while` loop (right operand parsed by the same callee as the left one), one chain from
   parseTernary's condition callee down to parseUnary; ?: parses both branches with parseTernary;
   assignment is parseTernary [op parseAssignment]; prefix operators recurse into parseUnary, ++/--
   and the fall-through use parsePostfix; the generic look-ahead gives up at ; ( ) { } = + - && ||
   and after scan_bound = 256 tokens; `( identifier` is tried as a type only for a type name *)
Theorem ladder_structure_is_modelled :
  structure_ok ladder_shape ladder_ternary ladder_entry ladder_assign ladder_unary_prefix
               ladder_unary_calls ladder_generic_stops ladder_generic_bound ladder_cast_guard ladder_table = true.
Proof. exact (eq_refl true). Qed.
Print Assumptions ladder_structure_is_modelled.

(* printing by the DOCUMENTED table round-trips through the code's ladder: every expression groups
   as the specification table says *)
Theorem ladder_conforms_to_spec : forall e rest,
  wf e = true -> folb spec_table 0 rest = true -> safeb (pr spec_table 0 e ++ rest) = true ->
  exists fuel, p_assign ladder_table fuel (pr spec_table 0 e ++ rest) = Ok (strip e, rest).
Proof. intros e rest Hw Hf Hs. exact (roundtrip_general spec_table e rest spec_total_l Hw Hf Hs). Qed.
Print Assumptions ladder_conforms_to_spec.

(* former finding C02-eq-rel-same-level (fixed by 4d0a4b7): == != bind looser than < <= > >= on either
   side; the former witness 3 == 3 > 0 is 3 == (3 > 0) = 0 (the ladder before the fix gave (3 == 3) > 0) *)
Theorem spec_grouping : forall oe orl x y z, is_eq oe = true -> is_rel orl = true ->
  (safeb [TId x; TOp oe; TId y; TOp orl; TId z] = true ->
   exists fuel, p_assign ladder_table fuel [TId x; TOp oe; TId y; TOp orl; TId z] =
                Ok (Bin oe (Var x) (Bin orl (Var y) (Var z)), [])) /\
  (safeb [TId x; TOp orl; TId y; TOp oe; TId z] = true ->
   exists fuel, p_assign ladder_table fuel [TId x; TOp orl; TId y; TOp oe; TId z] =
                Ok (Bin oe (Bin orl (Var x) (Var y)) (Var z), [])).
Proof.
  intros oe orl x y z He Hr. apply (higher_level_binds_tighter spec_table spec_total_l).
  destruct oe; try discriminate He; destruct orl; try discriminate Hr; apply Nat.ltb_lt; reflexivity.
Qed.
Print Assumptions spec_grouping.

Theorem spec_grouping_witness :
  parse ladder_table [TNum 3; TOp EqO; TNum 3; TOp GtO; TNum 0] =
    Ok (Bin EqO (Num 3) (Bin GtO (Num 3) (Num 0)), []) /\
  eval (fun _ => 0%Z) (Bin EqO (Num 3) (Bin GtO (Num 3) (Num 0))) = Some 0%Z /\
  parse old_table [TNum 3; TOp EqO; TNum 3; TOp GtO; TNum 0] =
    Ok (Bin GtO (Bin EqO (Num 3) (Num 3)) (Num 0), []).
Proof. repeat split. Qed.
Print Assumptions spec_grouping_witness.

(* former finding C02-paren-ident-cast (fixed by 34a2124): the former witnesses (a) - 1, (a[1]) - 1 and
   ((a) * 2) parse as the expressions they are, and so do (N) - 1 and 100 - (N) - 1 with an upper-case
   name (the general laws are [redundant_parens] and [paren_nontype_identifier]) *)
Theorem paren_identifier_is_not_a_cast :
  parse pinned_table (pr pinned_table 0 (Bin Sub (Par (Var ia)) (Num 1))) = Ok (Bin Sub (Var ia) (Num 1), []) /\
  pr pinned_table 0 (Bin Sub (Par (Var ia)) (Num 1)) = [TLP; TId ia; TRP; TOp Sub; TNum 1] /\
  parse pinned_table [TLP; TId ia; TLB; TNum 1; TRB; TRP; TOp Sub; TNum 1] =
    Ok (Bin Sub (Idx (Var ia) (Num 1)) (Num 1), []) /\
  parse pinned_table [TLP; TLP; TId ia; TRP; TOp Mul; TNum 2; TRP] = Ok (Bin Mul (Var ia) (Num 2), []) /\
  parse pinned_table [TLP; TId iN; TRP; TOp Sub; TNum 1] = Ok (Bin Sub (Var iN) (Num 1), []) /\
  parse pinned_table [TNum 100; TOp Sub; TLP; TId iN; TRP; TOp Sub; TNum 1] =
    Ok (Bin Sub (Bin Sub (Num 100) (Var iN)) (Num 1), []).
Proof. repeat split. Qed.
Print Assumptions paren_identifier_is_not_a_cast.

(* casts to keyword types are prefix-level: (int) a * b = ((int) a) * b, (int) - a = (int) (- a),
   - (long* ) a[1] = - ((long* ) (a[1])) (the general law is [roundtrip_general]: Cast is a source construct) *)
Theorem cast_binds_like_unary :
  parse pinned_table [TLP; TKw 0; TRP; TId ia; TOp Mul; TId ib] = Ok (Bin Mul (Cast [TKw 0] (Var ia)) (Var ib), []) /\
  parse pinned_table [TLP; TKw 0; TRP; TOp Sub; TId ia] = Ok (Cast [TKw 0] (Un Neg (Var ia)), []) /\
  parse pinned_table [TOp Sub; TLP; TKw 1; TOp Mul; TRP; TId ia; TLB; TNum 1; TRB] =
    Ok (Un Neg (Cast [TKw 1; TOp Mul] (Idx (Var ia) (Num 1))), []).
Proof. repeat split. Qed.
Print Assumptions cast_binds_like_unary.

(* C02-generic-lookahead after 9bd33cd: the look-ahead gives up at + and at a statement boundary ... *)
Theorem generic_lookahead_is_bounded :
  parse pinned_table [TId ia; TOp LtO; TId ib; TOp Add; TNum 1; TOp GtO; TLP; TId ic; TRP] =
    Ok (Bin GtO (Bin LtO (Var ia) (Bin Add (Var ib) (Num 1))) (Var ic), []) /\
  generic_scan 1 [TId ib; TRP; TSemi; TOther; TLP; TId ib; TOp GtO; TLP; TId ia; TRP] = false.
Proof. split; reflexivity. Qed.
Print Assumptions generic_lookahead_is_bounded.

(* ... but REFUTED without the [safeb] hypothesis (known finding C02-generic-lookahead, what is left of
   DESIGN #37): a < b > (c & d), printed with minimal parentheses, still parses as the generic call
   a<b>(c & d) - nothing at parse time tells a generic function name from a variable *)
Theorem roundtrip_min_refuted_generic :
  exists e, wf e = true /\ nopar e = true /\
    pr pinned_table 0 e = [TId ia; TOp LtO; TId ib; TOp GtO; TLP; TId ic; TOp BAnd; TId id_; TRP] /\
    parse pinned_table (pr pinned_table 0 e) = Ok (Generic 1 (Call ia [Bin BAnd (Var ic) (Var id_)]), []) /\
    safeb (pr pinned_table 0 e) = false.
Proof.
  exists (Bin GtO (Bin LtO (Var ia) (Var ib)) (Bin BAnd (Var ic) (Var id_))). repeat split.
Qed.
Print Assumptions roundtrip_min_refuted_generic.

(* REFUTED without [safeb] (known finding C02-upper-ident-lt): an upper-case variable directly before `<`
   is taken for a generic type name - N < 5 is a parse error while (N) < 5 is the comparison, and
   N < M > - 1 silently parses as N - 1 *)
Theorem roundtrip_min_refuted_upper_lt :
  wf (Bin LtO (Var iN) (Num 5)) = true /\
  parse pinned_table (pr pinned_table 0 (Bin LtO (Var iN) (Num 5)) ++ [TRP; TSemi]) = Err /\
  parse pinned_table (pr pinned_table 0 (Bin LtO (Par (Var iN)) (Num 5)) ++ [TRP; TSemi]) =
    Ok (Bin LtO (Var iN) (Num 5), [TRP; TSemi]) /\
  pr pinned_table 0 (Bin GtO (Bin LtO (Var iN) (Var iM)) (Un Neg (Num 1))) =
    [TId iN; TOp LtO; TId iM; TOp GtO; TOp Sub; TNum 1] /\
  parse pinned_table [TId iN; TOp LtO; TId iM; TOp GtO; TOp Sub; TNum 1] = Ok (Bin Sub (Var iN) (Num 1), []) /\
  safeb [TId iN; TOp LtO; TNum 5] = false.
Proof. repeat split. Qed.
Print Assumptions roundtrip_min_refuted_upper_lt.

(* REFUTED without [safeb] (known finding C02-sizeof-upper-ident): sizeof(N) takes an upper-case variable
   for a type name (sizeof(N + 1) is a parse error), sizeof((N)) does not *)
Theorem roundtrip_refuted_sizeof_upper :
  wf (Call 0 [Var iN]) = true /\
  parse pinned_table (pr pinned_table 0 (Call 0 [Var iN])) = Ok (SizeofT, []) /\
  parse pinned_table (pr pinned_table 0 (Call 0 [Par (Var iN)])) = Ok (Call 0 [Var iN], []) /\
  parse pinned_table (pr pinned_table 0 (Call 0 [Bin Add (Var iN) (Num 1)])) = Err /\
  safeb (pr pinned_table 0 (Call 0 [Var iN])) = false.
Proof. repeat split. Qed.
Print Assumptions roundtrip_refuted_sizeof_upper.

(* REFUTED without [safeb] (known finding C02-type-named-variable-cast): a variable that shares its name with
   a declared type, alone in parentheses before a token that can start a unary expression, is a cast;
   as a call argument, or with more than the name inside the parentheses, it is not *)
Theorem roundtrip_refuted_type_named :
  wf (Bin Sub (Par (Var iT)) (Num 1)) = true /\
  parse pinned_table (pr pinned_table 0 (Bin Sub (Par (Var iT)) (Num 1))) = Ok (Cast [TId iT] (Un Neg (Num 1)), []) /\
  parse pinned_table (pr pinned_table 0 (Bin Sub (Var iT) (Num 1))) = Ok (Bin Sub (Var iT) (Num 1), []) /\
  parse pinned_table (pr pinned_table 0 (Bin Sub (Par (Var it_)) (Num 1))) = Ok (Cast [TId it_] (Un Neg (Num 1)), []) /\
  safeb (pr pinned_table 0 (Bin Sub (Par (Var iT)) (Num 1))) = false /\
  safeb (pr pinned_table 0 (Bin Sub (Call ia [Var iT]) (Num 1))) = true /\
  safeb (pr pinned_table 0 (Bin Sub (Par (Bin Add (Var iT) (Num 0))) (Num 1))) = true.
Proof. repeat split. Qed.
Print Assumptions roundtrip_refuted_type_named.

(* the hypotheses are satisfiable and [enough_fuel] suffices on a stream using every construct *)
Example sample_roundtrip :
  wf sample = true /\ folb pinned_table 0 [TRP; TSemi] = true /\
  safeb (pr pinned_table 0 sample ++ [TRP; TSemi]) = true /\
  parse pinned_table (pr pinned_table 0 sample ++ [TRP; TSemi]) = Ok (strip sample, [TRP; TSemi]) /\
  parse pinned_table (pr pinned_table 0 (full sample) ++ [TRP; TSemi]) = Ok (strip sample, [TRP; TSemi]).
Proof. repeat split. Qed.
