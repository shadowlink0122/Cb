(* C02 - fuel-free view of the parser: [P... ts v] = "with enough fuel the function returns Ok v",
   with one introduction rule per success path. *)
From Coq Require Import List Arith Lia Bool.
From Cb Require Import C02.Model C02.Mono.
Import ListNotations.

Section Rules.
Variable tbl : table.
Notation L := (length tbl).

Definition PAsg ts v := exists f, p_assign tbl f ts = Ok v.
Definition PTern ts v := exists f, p_tern tbl f ts = Ok v.
Definition PBin l ts v := exists f, p_bin tbl f l ts = Ok v.
Definition PLoop l acc ts v := exists f, bin_loop tbl f l acc ts = Ok v.
Definition PUn ts v := exists f, p_unary tbl f ts = Ok v.
Definition PPostL e ts v := exists f, post_loop tbl f e ts = Ok v.
Definition PPrim ts v := exists f, p_primary tbl f ts = Ok v.
Definition PArgs trail ts v := exists f, p_args tbl f trail ts = Ok v.
Definition PPostfix ts v := exists f, p_postfix tbl f ts = Ok v.
Definition PElems ts v := exists f, p_elems tbl f ts = Ok v.

Lemma up_assign f f' ts v : p_assign tbl f ts = Ok v -> f <= f' -> p_assign tbl f' ts = Ok v.
Proof. intros H Hle. destruct (mono tbl f f' Hle) as [M _]. exact (rle_ok _ _ v (M ts) H). Qed.
Lemma up_tern f f' ts v : p_tern tbl f ts = Ok v -> f <= f' -> p_tern tbl f' ts = Ok v.
Proof. intros H Hle. destruct (mono tbl f f' Hle) as (_ & M & _). exact (rle_ok _ _ v (M ts) H). Qed.
Lemma up_bin f f' l ts v : p_bin tbl f l ts = Ok v -> f <= f' -> p_bin tbl f' l ts = Ok v.
Proof. intros H Hle. destruct (mono tbl f f' Hle) as (_ & _ & M & _). exact (rle_ok _ _ v (M l ts) H). Qed.
Lemma up_loop f f' l a ts v : bin_loop tbl f l a ts = Ok v -> f <= f' -> bin_loop tbl f' l a ts = Ok v.
Proof. intros H Hle. destruct (mono tbl f f' Hle) as (_ & _ & _ & M & _). exact (rle_ok _ _ v (M l a ts) H). Qed.
Lemma up_unary f f' ts v : p_unary tbl f ts = Ok v -> f <= f' -> p_unary tbl f' ts = Ok v.
Proof. intros H Hle. destruct (mono tbl f f' Hle) as (_ & _ & _ & _ & M & _). exact (rle_ok _ _ v (M ts) H). Qed.
Lemma up_postl f f' e ts v : post_loop tbl f e ts = Ok v -> f <= f' -> post_loop tbl f' e ts = Ok v.
Proof. intros H Hle. destruct (mono tbl f f' Hle) as (_ & _ & _ & _ & _ & M & _). exact (rle_ok _ _ v (M e ts) H). Qed.
Lemma up_prim f f' ts v : p_primary tbl f ts = Ok v -> f <= f' -> p_primary tbl f' ts = Ok v.
Proof. intros H Hle. destruct (mono tbl f f' Hle) as (_ & _ & _ & _ & _ & _ & M & _). exact (rle_ok _ _ v (M ts) H). Qed.
Lemma up_args f f' trail ts v : p_args tbl f trail ts = Ok v -> f <= f' -> p_args tbl f' trail ts = Ok v.
Proof. intros H Hle. destruct (mono tbl f f' Hle) as (_ & _ & _ & _ & _ & _ & _ & M & _). exact (rle_ok _ _ v (M trail ts) H). Qed.
Lemma up_elems f f' ts v : p_elems tbl f ts = Ok v -> f <= f' -> p_elems tbl f' ts = Ok v.
Proof. intros H Hle. destruct (mono tbl f f' Hle) as (_ & _ & _ & _ & _ & _ & _ & _ & M). exact (rle_ok _ _ v (M ts) H). Qed.

Lemma p_assign_unique f f' ts v v' : p_assign tbl f ts = Ok v -> p_assign tbl f' ts = Ok v' -> v = v'.
Proof.
  intros H H'. pose proof (up_assign f (f + f') ts v H ltac:(lia)) as E.
  rewrite (up_assign f' (f + f') ts v' H') in E by lia. inversion E. reflexivity.
Qed.

Lemma postfix_intro ts e r v : PPrim ts (e, r) -> PPostL e r v -> PPostfix ts v.
Proof.
  intros [f1 H1] [f2 H2]. exists (f1 + f2). unfold p_postfix.
  rewrite (up_prim _ (f1 + f2) _ _ H1) by lia. cbn [bind]. apply (up_postl _ _ _ _ _ H2). lia.
Qed.

Lemma R_assign_plain ts l r : PTern ts (l, r) -> (forall o r', r <> TAsg o :: r') -> PAsg ts (l, r).
Proof.
  intros [f H] Hn. exists (S f). rewrite p_assign_S. unfold F_assign. rewrite H. cbn [bind].
  destruct r as [|t r]; [reflexivity|]. destruct t; try reflexivity. exfalso. eapply Hn; reflexivity.
Qed.

Lemma R_assign ts l o r v r' :
  PTern ts (l, TAsg o :: r) -> PAsg r (v, r') -> valid_target o l = true -> PAsg ts (Asg o l v, r').
Proof.
  intros [f1 H1] [f2 H2] Hv. exists (S (f1 + f2)). rewrite p_assign_S. unfold F_assign.
  rewrite (up_tern _ (f1 + f2) _ _ H1) by lia. cbn [bind].
  rewrite (up_assign _ (f1 + f2) _ _ H2) by lia. cbn [bind]. rewrite Hv. reflexivity.
Qed.

Lemma R_tern_plain ts c r : PBin 1 ts (c, r) -> (forall r', r <> TQ :: r') -> PTern ts (c, r).
Proof.
  intros [f H] Hn. exists (S f). rewrite p_tern_S. unfold F_tern. rewrite H. cbn [bind].
  destruct r as [|t r]; [reflexivity|]. destruct t; try reflexivity. exfalso. eapply Hn; reflexivity.
Qed.

Lemma R_tern ts c r a r2 b r3 :
  PBin 1 ts (c, TQ :: r) -> closer r = false -> PTern r (a, TColon :: r2) -> PTern r2 (b, r3) ->
  PTern ts (Tern c a b, r3).
Proof.
  intros [f1 H1] Hc [f2 H2] [f3 H3]. exists (S (f1 + f2 + f3)). rewrite p_tern_S. unfold F_tern.
  rewrite (up_bin _ (f1 + f2 + f3) _ _ _ H1) by lia. cbn [bind]. rewrite Hc.
  rewrite (up_tern _ (f1 + f2 + f3) _ _ H2) by lia.
  rewrite (up_tern _ (f1 + f2 + f3) _ _ H3) by lia. reflexivity.
Qed.

Lemma R_bin_top l ts v : L < l -> PUn ts v -> PBin l ts v.
Proof.
  intros Hl [f H]. exists (S f). rewrite p_bin_S. unfold F_bin.
  destruct (Nat.ltb_spec L l); [exact H|lia].
Qed.

Lemma R_bin l ts a r v : l <= L -> PBin (S l) ts (a, r) -> PLoop l a r v -> PBin l ts v.
Proof.
  intros Hl [f1 H1] [f2 H2]. exists (S (f1 + f2)). rewrite p_bin_S. unfold F_bin.
  destruct (Nat.ltb_spec L l); [lia|].
  rewrite (up_bin _ (f1 + f2) _ _ _ H1) by lia. cbn [bind]. apply (up_loop _ _ _ _ _ _ H2). lia.
Qed.

Lemma R_loop_stop l acc ts :
  (forall o r, ts = TOp o :: r -> lvl tbl o <> l) -> PLoop l acc ts (acc, ts).
Proof.
  intros Hn. exists 1. rewrite bin_loop_S. unfold F_loop. destruct ts as [|t r]; [reflexivity|].
  destruct t; try reflexivity. destruct (Nat.eqb_spec (lvl tbl o) l); [|reflexivity].
  exfalso. eapply Hn; eauto.
Qed.

Lemma R_loop_step l acc o r b r' v :
  lvl tbl o = l -> PBin (S l) r (b, r') -> PLoop l (Bin o acc b) r' v -> PLoop l acc (TOp o :: r) v.
Proof.
  intros Hl [f1 H1] [f2 H2]. exists (S (f1 + f2)). rewrite bin_loop_S. unfold F_loop.
  rewrite (proj2 (Nat.eqb_eq _ _) Hl).
  rewrite (up_bin _ (f1 + f2) _ _ _ H1) by lia. cbn [bind]. apply (up_loop _ _ _ _ _ _ H2). lia.
Qed.

Lemma R_un ts u r a r' : unary_tok ts = Some (u, r) -> PUn r (a, r') -> PUn ts (Un u a, r').
Proof.
  intros Hu [f H]. exists (S f). rewrite p_unary_S. unfold F_unary. rewrite Hu, H. reflexivity.
Qed.

Lemma R_pre d r a r' : PPostfix r (a, r') -> PUn (itok d :: r) (Pre d a, r').
Proof.
  intros [f H]. exists (S f). rewrite p_unary_S. destruct d; cbn [itok F_unary unary_tok]; rewrite H; reflexivity.
Qed.

Definition unary_start (ts : list tok) : bool :=
  match ts with
  | (TNot | TTilde | TInc | TDec | TOp Sub | TOp BAnd | TOp Mul | TAwait | TTry | TChecked) :: _ => true
  | _ => false
  end.

Lemma R_un_post ts v : unary_start ts = false -> PPostfix ts v -> PUn ts v.
Proof.
  intros Hs [f H]. exists (S f). rewrite p_unary_S. unfold F_unary.
  destruct ts as [|t r]; [exact H|].
  destruct t; try exact H; try discriminate Hs.
  destruct o; try exact H; discriminate Hs.
Qed.

Lemma R_post_idx e r i r' v : PAsg r (i, TRB :: r') -> PPostL (Idx e i) r' v -> PPostL e (TLB :: r) v.
Proof.
  intros [f1 H1] [f2 H2]. exists (S (f1 + f2)). rewrite post_loop_S. cbn [F_postl F_member].
  rewrite (up_assign _ (f1 + f2) _ _ H1) by lia. cbn [bind]. apply (up_postl _ _ _ _ _ H2). lia.
Qed.

Lemma R_post_mem e m r v : starts_lp r = false -> PPostL (Mem e m) r v -> PPostL e (TDot :: TId m :: r) v.
Proof.
  intros Hs [f H]. exists (S f). rewrite post_loop_S. cbn [F_postl F_member].
  destruct r as [|t r]; [exact H|]. destruct t; try exact H. discriminate Hs.
Qed.

Lemma R_post_arrow e m r v : starts_lp r = false -> PPostL (Arrow e m) r v -> PPostL e (TArrow :: TId m :: r) v.
Proof.
  intros Hs [f H]. exists (S f). rewrite post_loop_S. cbn [F_postl F_member].
  destruct r as [|t r]; [exact H|]. destruct t; try exact H. discriminate Hs.
Qed.

(* a method call a.m(args) / a->m(args) inside the postfix chain *)
Lemma R_post_mcall ar e m r args r2 v :
  PArgs true r (args, r2) -> PPostL (MCall ar e m args) r2 v ->
  PPostL e ((if ar then TArrow else TDot) :: TId m :: TLP :: r) v.
Proof.
  intros [f1 H1] [f2 H2]. exists (S (f1 + f2)). rewrite post_loop_S. cbn [F_postl F_member].
  destruct ar; rewrite (up_args _ (f1 + f2) _ _ _ H1) by lia; cbn [bind];
    apply (up_postl _ _ _ _ _ H2); lia.
Qed.

Lemma R_post_incdec e d r : PPostL e (itok d :: r) (Post d e, r).
Proof. exists 1. rewrite post_loop_S. destruct d; reflexivity. Qed.

Definition postfix_start (ts : list tok) : bool :=
  match ts with
  | (TLB | TDot | TArrow | TInc | TDec | TLP) :: _ => true
  | _ => false
  end.

Lemma R_post_stop e ts : postfix_start ts = false -> PPostL e ts (e, ts).
Proof.
  intros Hs. exists 1. rewrite post_loop_S. destruct ts as [|t r]; [reflexivity|].
  destruct t; try reflexivity; discriminate Hs.
Qed.

Lemma R_prim_num n r : PPrim (TNum n :: r) (Num n, r).
Proof. exists 1. rewrite p_primary_S. reflexivity. Qed.

(* the `Name<T>` heuristic skips nothing unless an upper-case name stands before `<` *)
Lemma name_skip_id x r : (forall r1, r = TOp LtO :: r1 -> id_upper x = false) -> name_skip x r = Some r.
Proof.
  intros H. unfold name_skip. destruct (id_upper x); [|reflexivity].
  destruct r as [|[] r]; try reflexivity. destruct o; try reflexivity. discriminate (H r eq_refl).
Qed.

Lemma R_prim_var x r :
  starts_lp r = false ->
  (forall r1, r = TOp LtO :: r1 -> id_upper x = false /\ generic_scan 1 r1 = false) ->
  PPrim (TId x :: r) (Var x, r).
Proof.
  intros Hs Hg. exists 1. rewrite p_primary_S. cbn [F_primary]. rewrite Hs, andb_false_r.
  rewrite name_skip_id by (intros r1 E; apply (Hg r1 E)).
  destruct r as [|[] r]; try reflexivity; try discriminate Hs. destruct o; try reflexivity.
  rewrite (scan_false_b _ _ _ (proj2 (Hg r eq_refl))). reflexivity.
Qed.

Lemma R_prim_call x r args r2 :
  is_sizeof x = false ->
  PArgs false r (args, r2) -> starts_lp r2 = false -> PPrim (TId x :: TLP :: r) (Call x args, r2).
Proof.
  intros Hz [f H] Hs. exists (S f). rewrite p_primary_S. cbn [F_primary]. rewrite Hz. cbn [andb].
  unfold name_skip, F_call. destruct (id_upper x); rewrite H; cbn [bind]; rewrite Hs; reflexivity.
Qed.

(* sizeof ( expression ) *)
Lemma R_prim_sizeof x r e r2 :
  is_sizeof x = true -> sizeof_type_start r = false ->
  PAsg r (e, TRP :: r2) -> PPrim (TId x :: TLP :: r) (Call x [e], r2).
Proof.
  intros Hz Ht [f H]. exists (S f). rewrite p_primary_S. cbn [F_primary]. rewrite Hz. cbn [starts_lp andb].
  rewrite Ht, H. reflexivity.
Qed.

Lemma R_prim_paren r e r' :
  cast_type r = None -> PAsg r (e, TRP :: r') -> PPrim (TLP :: r) (e, r').
Proof.
  intros Hc [f H]. exists (S f). rewrite p_primary_S. cbn [F_primary]. rewrite Hc, H. reflexivity.
Qed.

(* ( type ) unary *)
Lemma R_prim_cast r ty r' a r2 :
  cast_type r = Some (ty, r') -> PUn r' (a, r2) -> PPrim (TLP :: r) (Cast ty a, r2).
Proof.
  intros Hc [f H]. exists (S f). rewrite p_primary_S. cbn [F_primary]. rewrite Hc, H. reflexivity.
Qed.

Lemma R_prim_arr r l r' : PElems r (l, r') -> PPrim (TLB :: r) (ArrLit l, r').
Proof. intros [f H]. exists (S f). rewrite p_primary_S. cbn [F_primary]. rewrite H. reflexivity. Qed.

Lemma R_elems_nil r : PElems (TRB :: r) ([], r).
Proof. exists 1. rewrite p_elems_S. reflexivity. Qed.

Lemma F_elems_go assign elems ts :
  (forall r0, ts <> TRB :: r0) -> F_elems assign elems ts = bind (assign ts) (K_elems elems).
Proof. intros Hn. destruct ts as [|[] r]; try reflexivity. exfalso. eapply Hn; reflexivity. Qed.

Lemma R_elems_last ts a r : (forall r0, ts <> TRB :: r0) -> PAsg ts (a, TRB :: r) -> PElems ts ([a], r).
Proof.
  intros Hn [f H]. exists (S f). rewrite p_elems_S, (F_elems_go _ _ _ Hn), H. reflexivity.
Qed.

Lemma R_elems_cons ts a r l r' :
  (forall r0, ts <> TRB :: r0) -> PAsg ts (a, TComma :: r) -> PElems r (l, r') -> PElems ts (a :: l, r').
Proof.
  intros Hn [f1 H1] [f2 H2]. exists (S (f1 + f2)). rewrite p_elems_S, (F_elems_go _ _ _ Hn).
  rewrite (up_assign _ (f1 + f2) _ _ H1) by lia. cbn [bind K_elems].
  rewrite (up_elems _ (f1 + f2) _ _ H2) by lia. reflexivity.
Qed.

Lemma R_args_nil trail r : PArgs trail (TRP :: r) ([], r).
Proof. exists 1. rewrite p_args_S. reflexivity. Qed.

Lemma F_args_go assign args trail ts :
  (forall r0, ts <> TRP :: r0) -> F_args assign args trail ts = bind (assign ts) (K_args args trail).
Proof. intros Hn. destruct ts as [|[] r]; try reflexivity. exfalso. eapply Hn; reflexivity. Qed.

Lemma R_args_last trail ts a r : (forall r0, ts <> TRP :: r0) -> PAsg ts (a, TRP :: r) -> PArgs trail ts ([a], r).
Proof.
  intros Hn [f H]. exists (S f). rewrite p_args_S, (F_args_go _ _ _ _ Hn), H. reflexivity.
Qed.

Lemma R_args_cons trail ts a r l r' :
  (forall r0, ts <> TRP :: r0) -> (forall r0, r <> TRP :: r0) ->
  PAsg ts (a, TComma :: r) -> PArgs trail r (l, r') -> PArgs trail ts (a :: l, r').
Proof.
  intros Hn Hn2 [f1 H1] [f2 H2]. exists (S (f1 + f2)). rewrite p_args_S, (F_args_go _ _ _ _ Hn).
  rewrite (up_assign _ (f1 + f2) _ _ H1) by lia. cbn [bind K_args].
  pose proof (up_args _ (f1 + f2) _ _ _ H2 ltac:(lia)) as E.
  destruct r as [|[] r0]; try (rewrite E; reflexivity). exfalso. eapply Hn2; reflexivity.
Qed.

(* a lone identifier before `)` passes every level of any table untouched *)
Lemma ident_bin x r : forall n l, l + n = L + 1 -> PBin l (TId x :: TRP :: r) (Var x, TRP :: r).
Proof.
  induction n as [|n IH]; intros l Hl.
  - apply R_bin_top; [lia|]. apply R_un_post; [reflexivity|].
    apply (postfix_intro _ (Var x) (TRP :: r)).
    + apply R_prim_var; [reflexivity|]. intros r1 E. discriminate E.
    + apply R_post_stop. reflexivity.
  - apply (R_bin l _ (Var x) (TRP :: r)); [lia|apply IH; lia|].
    apply R_loop_stop. intros o r0 E. discriminate E.
Qed.

(* `( x )` with an identifier that names no declared type is the variable x - for EVERY table, EVERY
   spelling of the name (upper-case initial or not) and EVERY continuation r of the stream, safe or not:
   the cast look-ahead consults the declared types only *)
Lemma paren_ident x r : id_type x = false -> PPrim (TLP :: TId x :: TRP :: r) (Var x, r).
Proof.
  intros Ht. apply R_prim_paren; [cbn [cast_type]; rewrite Ht; reflexivity|].
  apply R_assign_plain; [|intros o r' E; discriminate E].
  apply R_tern_plain; [|intros r' E; discriminate E].
  apply (ident_bin x r L). lia.
Qed.

End Rules.
