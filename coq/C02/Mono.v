(* C02 - the parser's steps as functionals of the functions they call, the one-step unfolding equations
   of the fuelled parser in terms of them, and fuel monotonicity. *)
From Coq Require Import List Arith Lia Bool.
From Cb Require Import C02.Model.
Import ListNotations.

Definition rle {A} (x y : res A) : Prop := x = Fuel \/ x = y.

Lemma rle_refl {A} (x : res A) : rle x x.
Proof. right; reflexivity. Qed.

Lemma rle_bind {A B} (x x' : res A) (k k' : A -> res B) :
  rle x x' -> (forall a, rle (k a) (k' a)) -> rle (bind x k) (bind x' k').
Proof.
  intros [->| ->] H; [left; reflexivity|].
  destruct x'; cbn; auto using rle_refl.
Qed.

Lemma rle_ok {A} (x y : res A) v : rle x y -> x = Ok v -> y = Ok v.
Proof. intros [->| ->]; [discriminate|auto]. Qed.

(* One functional per function of the nest: the body of Model.v with the recursive calls as parameters
   (the match skeletons are the model's; continuations and the two call forms that occur twice have names). *)
Section Step.
Variable tbl : table.
Notation R := (res (expr * list tok)).
Notation RL := (res (list expr * list tok)).

Definition F_assign (tern assign : list tok -> R) (ts : list tok) : R :=
  bind (tern ts) (fun lr =>
    match lr with
    | (l, TAsg o :: r) =>
        bind (assign r) (fun vr =>
          let (v, r') := vr in
          if valid_target o l then Ok (Asg o l v, r') else Err)
    | _ => Ok lr
    end).

Definition F_tern (bin : nat -> list tok -> R) (tern : list tok -> R) (ts : list tok) : R :=
  bind (bin 1 ts) (fun cr =>
    match cr with
    | (c, TQ :: r) =>
        if closer r then Ok (EProp c, r)
        else
          match tern r with
          | Ok (a, TColon :: r2) =>
              match tern r2 with
              | Ok (b, r3) => Ok (Tern c a b, r3)
              | Err => Ok (EProp c, r)
              | Fuel => Fuel
              end
          | Ok _ => Ok (EProp c, r)
          | Err => Ok (EProp c, r)
          | Fuel => Fuel
          end
    | _ => Ok cr
    end).

Definition F_bin (unary : list tok -> R) (bin : nat -> list tok -> R) (loop : nat -> expr -> list tok -> R)
    (l : nat) (ts : list tok) : R :=
  if length tbl <? l then unary ts
  else bind (bin (S l) ts) (fun ar => let (a, r) := ar in loop l a r).

Definition F_loop (bin : nat -> list tok -> R) (loop : nat -> expr -> list tok -> R)
    (l : nat) (acc : expr) (ts : list tok) : R :=
  match ts with
  | TOp o :: r =>
      if lvl tbl o =? l then
        bind (bin (S l) r) (fun br => let (b, r') := br in loop l (Bin o acc b) r')
      else Ok (acc, ts)
  | _ => Ok (acc, ts)
  end.

Definition F_postfix (primary : list tok -> R) (postl : expr -> list tok -> R) (ts : list tok) : R :=
  bind (primary ts) (fun er => let (e, r1) := er in postl e r1).

Definition F_unary (unary : list tok -> R) (postfix : list tok -> R) (ts : list tok) : R :=
  match unary_tok ts with
  | Some (u, r) => bind (unary r) (fun ar => let (a, r') := ar in Ok (Un u a, r'))
  | None =>
      match ts with
      | TInc :: r => bind (postfix r) (fun ar => let (a, r') := ar in Ok (Pre true a, r'))
      | TDec :: r => bind (postfix r) (fun ar => let (a, r') := ar in Ok (Pre false a, r'))
      | _ => postfix ts
      end
  end.

Definition F_member (args : bool -> list tok -> RL) (postl : expr -> list tok -> R)
    (mk : list expr -> expr) (plain : expr) (r : list tok) : R :=
  match r with
  | TLP :: r1 => bind (args true r1) (fun ar => let (l, r2) := ar in postl (mk l) r2)
  | _ => postl plain r
  end.

Definition F_postl (assign : list tok -> R) (args : bool -> list tok -> RL) (postl : expr -> list tok -> R)
    (e : expr) (ts : list tok) : R :=
  match ts with
  | TLB :: r =>
      bind (assign r) (fun ir =>
        match ir with
        | (i, TRB :: r') => postl (Idx e i) r'
        | _ => Err
        end)
  | TDot :: TId m :: r => F_member args postl (MCall false e m) (Mem e m) r
  | TDot :: _ => Err
  | TArrow :: TId m :: r => F_member args postl (MCall true e m) (Arrow e m) r
  | TArrow :: _ => Err
  | TInc :: r => Ok (Post true e, r)
  | TDec :: r => Ok (Post false e, r)
  | TLP :: _ => match e with Un Deref _ => Err | _ => Ok (e, ts) end
  | _ => Ok (e, ts)
  end.

Definition F_call (args : bool -> list tok -> RL) (mk : list expr -> expr) (r : list tok) : R :=
  bind (args false r) (fun ar =>
    let (l, r') := ar in if starts_lp r' then Err else Ok (mk l, r')).

Definition F_primary (assign unary : list tok -> R) (args : bool -> list tok -> RL) (elems : list tok -> RL)
    (ts : list tok) : R :=
  match ts with
  | TNum n :: r => Ok (Num n, r)
  | TId x :: r =>
      if is_sizeof x && starts_lp r then
        match r with
        | TLP :: r1 =>
            if sizeof_type_start r1 then
              match sizeof_type r1 with
              | TRP :: r2 => Ok (SizeofT, r2)
              | _ => Err
              end
            else
              bind (assign r1) (fun er =>
                match er with
                | (e, TRP :: r2) => Ok (Call x [e], r2)
                | _ => Err
                end)
        | _ => Err
        end
      else
        match name_skip x r with
        | None => Err
        | Some (TOp LtO :: r1) =>
            if generic_scan_b scan_bound 1 r1 then
              match targs_list (S (length r1)) 0 r1 with
              | Some (n, TLP :: r2) => F_call args (fun l => Generic n (Call x l)) r2
              | Some (_, r2) => Ok (Var x, r2)
              | None => Err
              end
            else Ok (Var x, TOp LtO :: r1)
        | Some (TLP :: r1) => F_call args (Call x) r1
        | Some r0 => Ok (Var x, r0)
        end
  | TLB :: r => bind (elems r) (fun lr => let (l, r') := lr in Ok (ArrLit l, r'))
  | TLP :: r =>
      match cast_type r with
      | Some (ty, r') => bind (unary r') (fun ar => let (a, r2) := ar in Ok (Cast ty a, r2))
      | None =>
          bind (assign r) (fun er =>
            match er with
            | (e, TRP :: r') => Ok (e, r')
            | _ => Err
            end)
      end
  | _ => Err
  end.

Definition K_args (args : bool -> list tok -> RL) (trail : bool) (ar : expr * list tok) : RL :=
  match ar with
  | (a, TComma :: r) =>
      match r with
      | TRP :: r' => if trail then Ok ([a], r') else Err
      | _ => bind (args trail r) (fun asr => let (l, r') := asr in Ok (a :: l, r'))
      end
  | (a, TRP :: r) => Ok ([a], r)
  | _ => Err
  end.

Definition F_args (assign : list tok -> R) (args : bool -> list tok -> RL) (trail : bool) (ts : list tok) : RL :=
  match ts with
  | TRP :: r => Ok ([], r)
  | _ => bind (assign ts) (K_args args trail)
  end.

Definition K_elems (elems : list tok -> RL) (ar : expr * list tok) : RL :=
  match ar with
  | (a, TComma :: r) => bind (elems r) (fun lr => let (l, r') := lr in Ok (a :: l, r'))
  | (a, TRB :: r) => Ok ([a], r)
  | _ => Err
  end.

Definition F_elems (assign : list tok -> R) (elems : list tok -> RL) (ts : list tok) : RL :=
  match ts with
  | TRB :: r => Ok ([], r)
  | _ => bind (assign ts) (K_elems elems)
  end.

Fixpoint q_assign (f : nat) (ts : list tok) {struct f} : R :=
  match f with O => Fuel | S f => F_assign (q_tern f) (q_assign f) ts end
with q_tern (f : nat) (ts : list tok) {struct f} : R :=
  match f with O => Fuel | S f => F_tern (q_bin f) (q_tern f) ts end
with q_bin (f : nat) (l : nat) (ts : list tok) {struct f} : R :=
  match f with O => Fuel | S f => F_bin (q_unary f) (q_bin f) (q_loop f) l ts end
with q_loop (f : nat) (l : nat) (acc : expr) (ts : list tok) {struct f} : R :=
  match f with O => Fuel | S f => F_loop (q_bin f) (q_loop f) l acc ts end
with q_unary (f : nat) (ts : list tok) {struct f} : R :=
  match f with O => Fuel | S f => F_unary (q_unary f) (F_postfix (q_primary f) (q_postl f)) ts end
with q_postl (f : nat) (e : expr) (ts : list tok) {struct f} : R :=
  match f with O => Fuel | S f => F_postl (q_assign f) (q_args f) (q_postl f) e ts end
with q_primary (f : nat) (ts : list tok) {struct f} : R :=
  match f with O => Fuel | S f => F_primary (q_assign f) (q_unary f) (q_args f) (q_elems f) ts end
with q_args (f : nat) (trail : bool) (ts : list tok) {struct f} : RL :=
  match f with O => Fuel | S f => F_args (q_assign f) (q_args f) trail ts end
with q_elems (f : nat) (ts : list tok) {struct f} : RL :=
  match f with O => Fuel | S f => F_elems (q_assign f) (q_elems f) ts end.

(* [q] is the model's nest up to unfolding the step functionals: comparing one fixpoint with the other
   the kernel meets the recursive calls as bound variables.  (Comparing [p_args tbl (S f) trail ts]
   directly with its unfolded body instead costs one comparison of the whole nest per recursive call
   in the body, and the compiled matches hold some six hundred of them.) *)
Lemma p_assign_q : p_assign tbl = q_assign. Proof. reflexivity. Qed.
Lemma p_tern_q : p_tern tbl = q_tern. Proof. reflexivity. Qed.
Lemma p_bin_q : p_bin tbl = q_bin. Proof. reflexivity. Qed.
Lemma bin_loop_q : bin_loop tbl = q_loop. Proof. reflexivity. Qed.
Lemma p_unary_q : p_unary tbl = q_unary. Proof. reflexivity. Qed.
Lemma post_loop_q : post_loop tbl = q_postl. Proof. reflexivity. Qed.
Lemma p_primary_q : p_primary tbl = q_primary. Proof. reflexivity. Qed.
Lemma p_args_q : p_args tbl = q_args. Proof. reflexivity. Qed.
Lemma p_elems_q : p_elems tbl = q_elems. Proof. reflexivity. Qed.

Definition p_postfix (f : nat) (ts : list tok) : res (expr * list tok) :=
  bind (p_primary tbl f ts) (fun er => let (e, r1) := er in post_loop tbl f e r1).

Lemma p_assign_S f ts : p_assign tbl (S f) ts = F_assign (p_tern tbl f) (p_assign tbl f) ts.
Proof. rewrite p_assign_q, p_tern_q. reflexivity. Qed.
Lemma p_tern_S f ts : p_tern tbl (S f) ts = F_tern (p_bin tbl f) (p_tern tbl f) ts.
Proof. rewrite p_tern_q, p_bin_q. reflexivity. Qed.
Lemma p_bin_S f l ts : p_bin tbl (S f) l ts = F_bin (p_unary tbl f) (p_bin tbl f) (bin_loop tbl f) l ts.
Proof. rewrite p_bin_q, p_unary_q, bin_loop_q. reflexivity. Qed.
Lemma bin_loop_S f l acc ts : bin_loop tbl (S f) l acc ts = F_loop (p_bin tbl f) (bin_loop tbl f) l acc ts.
Proof. rewrite p_bin_q, bin_loop_q. reflexivity. Qed.
Lemma p_unary_S f ts : p_unary tbl (S f) ts = F_unary (p_unary tbl f) (p_postfix f) ts.
Proof. unfold p_postfix. rewrite p_unary_q, p_primary_q, post_loop_q. reflexivity. Qed.
Lemma post_loop_S f e ts :
  post_loop tbl (S f) e ts = F_postl (p_assign tbl f) (p_args tbl f) (post_loop tbl f) e ts.
Proof. rewrite post_loop_q, p_assign_q, p_args_q. reflexivity. Qed.
Lemma p_primary_S f ts :
  p_primary tbl (S f) ts = F_primary (p_assign tbl f) (p_unary tbl f) (p_args tbl f) (p_elems tbl f) ts.
Proof. rewrite p_primary_q, p_assign_q, p_unary_q, p_args_q, p_elems_q. reflexivity. Qed.
Lemma p_args_S f trail ts : p_args tbl (S f) trail ts = F_args (p_assign tbl f) (p_args tbl f) trail ts.
Proof. rewrite p_assign_q, p_args_q. reflexivity. Qed.
Lemma p_elems_S f ts : p_elems tbl (S f) ts = F_elems (p_assign tbl f) (p_elems tbl f) ts.
Proof. rewrite p_assign_q, p_elems_q. reflexivity. Qed.

(* every step is monotone in the functions it calls: a call that runs out of fuel makes the step run out
   of fuel, and calls that return return the same *)
Section StepMono.
Variables (assign assign' tern tern' unary unary' postfix postfix' primary primary' : list tok -> R)
  (bin bin' : nat -> list tok -> R) (loop loop' : nat -> expr -> list tok -> R)
  (postl postl' : expr -> list tok -> R) (args args' : bool -> list tok -> RL) (elems elems' : list tok -> RL).
Hypothesis Ha : forall ts, rle (assign ts) (assign' ts).
Hypothesis Ht : forall ts, rle (tern ts) (tern' ts).
Hypothesis Hb : forall l ts, rle (bin l ts) (bin' l ts).
Hypothesis Hl : forall l acc ts, rle (loop l acc ts) (loop' l acc ts).
Hypothesis Hu : forall ts, rle (unary ts) (unary' ts).
Hypothesis Hpf : forall ts, rle (postfix ts) (postfix' ts).
Hypothesis Hp : forall e ts, rle (postl e ts) (postl' e ts).
Hypothesis Hpr : forall ts, rle (primary ts) (primary' ts).
Hypothesis Har : forall trail ts, rle (args trail ts) (args' trail ts).
Hypothesis Hel : forall ts, rle (elems ts) (elems' ts).

Lemma F_assign_mono ts : rle (F_assign tern assign ts) (F_assign tern' assign' ts).
Proof.
  apply rle_bind; [apply Ht|]. intros [l [|[] r]]; try apply rle_refl.
  apply rle_bind; [apply Ha|]. intros [v r']. apply rle_refl.
Qed.

(* parseTernary catches errors of its branches, not exhaustion *)
Lemma F_tern_mono ts : rle (F_tern bin tern ts) (F_tern bin' tern' ts).
Proof.
  apply rle_bind; [apply Hb|]. intros [c [|[] r]]; try apply rle_refl.
  destruct (closer r); [apply rle_refl|].
  destruct (Ht r) as [E|E]; rewrite E; [left; reflexivity|].
  destruct (tern' r) as [[a [|[] r2]]| |]; try apply rle_refl.
  destruct (Ht r2) as [E2|E2]; rewrite E2; [left; reflexivity|apply rle_refl].
Qed.

Lemma F_bin_mono l ts : rle (F_bin unary bin loop l ts) (F_bin unary' bin' loop' l ts).
Proof.
  unfold F_bin. destruct (length tbl <? l); [apply Hu|].
  apply rle_bind; [apply Hb|]. intros [a r]. apply Hl.
Qed.

Lemma F_loop_mono l acc ts : rle (F_loop bin loop l acc ts) (F_loop bin' loop' l acc ts).
Proof.
  destruct ts as [|[] r]; try apply rle_refl. cbn [F_loop].
  destruct (lvl tbl o =? l); [|apply rle_refl].
  apply rle_bind; [apply Hb|]. intros [b r']. apply Hl.
Qed.

Lemma F_postfix_mono ts : rle (F_postfix primary postl ts) (F_postfix primary' postl' ts).
Proof. apply rle_bind; [apply Hpr|]. intros [e r1]. apply Hp. Qed.

Lemma F_unary_mono ts : rle (F_unary unary postfix ts) (F_unary unary' postfix' ts).
Proof.
  unfold F_unary. destruct (unary_tok ts) as [[u r]|].
  - apply rle_bind; [apply Hu|]. intros [a r']. apply rle_refl.
  - destruct ts as [|[] r]; try apply Hpf;
      (apply rle_bind; [apply Hpf|]; intros [a r']; apply rle_refl).
Qed.

Lemma F_member_mono mk plain r : rle (F_member args postl mk plain r) (F_member args' postl' mk plain r).
Proof.
  destruct r as [|[] r]; try apply Hp.
  apply rle_bind; [apply Har|]. intros [l r2]. apply Hp.
Qed.

Lemma F_postl_mono e ts : rle (F_postl assign args postl e ts) (F_postl assign' args' postl' e ts).
Proof.
  destruct ts as [|[] r]; try apply rle_refl.
  - apply rle_bind; [apply Ha|]. intros [i [|[] r']]; try apply rle_refl. apply Hp.
  - destruct r as [|[] r]; try apply rle_refl. apply F_member_mono.
  - destruct r as [|[] r]; try apply rle_refl. apply F_member_mono.
Qed.

Lemma F_call_mono mk r : rle (F_call args mk r) (F_call args' mk r).
Proof. apply rle_bind; [apply Har|]. intros [l r']. apply rle_refl. Qed.

Lemma F_primary_mono ts :
  rle (F_primary assign unary args elems ts) (F_primary assign' unary' args' elems' ts).
Proof.
  destruct ts as [|[] r]; try apply rle_refl; cbn [F_primary].
  - destruct (_ && _).
    + destruct r as [|[] r]; try apply rle_refl.
      destruct (sizeof_type_start r); [apply rle_refl|].
      apply rle_bind; [apply Ha|]. intros [e r']. apply rle_refl.
    + destruct (name_skip _ _) as [[|[] r0]|]; try apply rle_refl; [|apply F_call_mono].
      destruct o; try apply rle_refl.
      destruct (generic_scan_b _ _ _); [|apply rle_refl].
      destruct (targs_list _ _ _) as [[n [|[] r2]]|]; try apply rle_refl. apply F_call_mono.
  - destruct (cast_type r) as [[ty r']|].
    + apply rle_bind; [apply Hu|]. intros [a r2]. apply rle_refl.
    + apply rle_bind; [apply Ha|]. intros [e r']. apply rle_refl.
  - apply rle_bind; [apply Hel|]. intros [l r']. apply rle_refl.
Qed.

Lemma K_args_mono trail ar : rle (K_args args trail ar) (K_args args' trail ar).
Proof.
  destruct ar as [a [|[] r]]; try apply rle_refl.
  destruct r as [|[] r]; try apply rle_refl;
    (apply rle_bind; [apply Har|]; intros [l r']; apply rle_refl).
Qed.

Lemma F_args_mono trail ts : rle (F_args assign args trail ts) (F_args assign' args' trail ts).
Proof.
  destruct ts as [|[] r]; try (apply rle_bind; [apply Ha|apply K_args_mono]). apply rle_refl.
Qed.

Lemma K_elems_mono ar : rle (K_elems elems ar) (K_elems elems' ar).
Proof.
  destruct ar as [a [|[] r]]; try apply rle_refl.
  apply rle_bind; [apply Hel|]. intros [l r']. apply rle_refl.
Qed.

Lemma F_elems_mono ts : rle (F_elems assign elems ts) (F_elems assign' elems' ts).
Proof.
  destruct ts as [|[] r]; try (apply rle_bind; [apply Ha|apply K_elems_mono]). apply rle_refl.
Qed.
End StepMono.

Lemma mono : forall f f', f <= f' ->
  (forall ts, rle (p_assign tbl f ts) (p_assign tbl f' ts)) /\
  (forall ts, rle (p_tern tbl f ts) (p_tern tbl f' ts)) /\
  (forall l ts, rle (p_bin tbl f l ts) (p_bin tbl f' l ts)) /\
  (forall l acc ts, rle (bin_loop tbl f l acc ts) (bin_loop tbl f' l acc ts)) /\
  (forall ts, rle (p_unary tbl f ts) (p_unary tbl f' ts)) /\
  (forall e ts, rle (post_loop tbl f e ts) (post_loop tbl f' e ts)) /\
  (forall ts, rle (p_primary tbl f ts) (p_primary tbl f' ts)) /\
  (forall trail ts, rle (p_args tbl f trail ts) (p_args tbl f' trail ts)) /\
  (forall ts, rle (p_elems tbl f ts) (p_elems tbl f' ts)).
Proof.
  induction f as [|f IH]; intros f' Hle; [repeat split; intros; left; reflexivity|].
  destruct f' as [|f']; [lia|].
  destruct (IH f') as (IHa & IHt & IHb & IHl & IHu & IHp & IHpr & IHar & IHel); [lia|].
  repeat split; intros.
  - rewrite !p_assign_S. apply F_assign_mono; assumption.
  - rewrite !p_tern_S. apply F_tern_mono; assumption.
  - rewrite !p_bin_S. apply F_bin_mono; assumption.
  - rewrite !bin_loop_S. apply F_loop_mono; assumption.
  - rewrite !p_unary_S. apply F_unary_mono; [assumption|]. apply F_postfix_mono; assumption.
  - rewrite !post_loop_S. apply F_postl_mono; assumption.
  - rewrite !p_primary_S. apply F_primary_mono; assumption.
  - rewrite !p_args_S. apply F_args_mono; assumption.
  - rewrite !p_elems_S. apply F_elems_mono; assumption.
Qed.

End Step.

(* the bounded look-ahead (fix 98a0163) says "generic call" only where the bound-free scan does; hence
   every stream that is safe for the bound-free hazard predicate is safe for the code's bounded loop *)
Lemma scan_b_implies_scan n : forall d ts, generic_scan_b n d ts = true -> generic_scan d ts = true.
Proof.
  induction n as [|n IH]; intros d ts H; [discriminate H|].
  destruct ts as [|t r]; [discriminate H|].
  cbn [generic_scan_b] in H. cbn [generic_scan].
  destruct t; try discriminate H; try (apply IH; exact H).
  - destruct o; try discriminate H; try (apply IH; exact H).
    destruct d as [|[|d]]; try exact H. apply IH; exact H.
  - destruct o; try discriminate H; apply IH; exact H.
Qed.

Lemma scan_false_b n d ts : generic_scan d ts = false -> generic_scan_b n d ts = false.
Proof.
  intros H. destruct (generic_scan_b n d ts) eqn:E; [|reflexivity].
  rewrite (scan_b_implies_scan n d ts E) in H. discriminate H.
Qed.

(* and within the bound the two scans coincide: the bound only matters for `<` ... `>` more than
   [n] tokens apart *)
Lemma scan_b_exact n : forall d ts, (length ts <= n)%nat -> generic_scan_b n d ts = generic_scan d ts.
Proof.
  induction n as [|n IH]; intros d ts Hl.
  - destruct ts; [reflexivity|cbn [length] in Hl; lia].
  - destruct ts as [|t r]; [reflexivity|]. cbn [length] in Hl.
    cbn [generic_scan_b generic_scan].
    destruct t; try reflexivity; try (apply IH; lia).
    + destruct o; try reflexivity; try (apply IH; lia).
      destruct d as [|[|d]]; try reflexivity. apply IH; lia.
    + destruct o; try reflexivity; apply IH; lia.
Qed.
