(* C02 - the round-trip theorem: for every level table in which every binary operator has a level,
   every well-formed source expression e (any explicit parentheses), every follow context the
   grammar allows, if the printed token stream trips none of the four token-shape heuristics of
   parsePrimary ([safeb]) then the parser returns [strip e] and leaves exactly the follow context. *)
From Coq Require Import List Arith Lia Bool.
From Cb Require Import C02.Model C02.Rules.
Import ListNotations.

(* induction over [expr] with the hypothesis for every member of an argument or element list *)
Section ExprInd.
Variable P : expr -> Prop.
Hypothesis HNum : forall n, P (Num n).
Hypothesis HVar : forall x, P (Var x).
Hypothesis HPar : forall a, P a -> P (Par a).
Hypothesis HBin : forall o a b, P a -> P b -> P (Bin o a b).
Hypothesis HUn : forall u a, P a -> P (Un u a).
Hypothesis HPre : forall d a, P a -> P (Pre d a).
Hypothesis HPost : forall d a, P a -> P (Post d a).
Hypothesis HIdx : forall a i, P a -> P i -> P (Idx a i).
Hypothesis HMem : forall a m, P a -> P (Mem a m).
Hypothesis HArrow : forall a m, P a -> P (Arrow a m).
Hypothesis HCall : forall f args, Forall P args -> P (Call f args).
Hypothesis HMCall : forall ar a m args, P a -> Forall P args -> P (MCall ar a m args).
Hypothesis HTern : forall c a b, P c -> P a -> P b -> P (Tern c a b).
Hypothesis HAsg : forall o l r, P l -> P r -> P (Asg o l r).
Hypothesis HEProp : forall a, P a -> P (EProp a).
Hypothesis HCast : forall ty a, P a -> P (Cast ty a).
Hypothesis HGeneric : forall n a, P a -> P (Generic n a).
Hypothesis HSizeofT : P SizeofT.
Hypothesis HArrLit : forall l, Forall P l -> P (ArrLit l).

Fixpoint expr_ind2 (e : expr) : P e :=
  let all := fix all (l : list expr) : Forall P l :=
    match l with
    | [] => Forall_nil P
    | a :: l' => Forall_cons a (expr_ind2 a) (all l')
    end in
  match e with
  | Num n => HNum n
  | Var x => HVar x
  | Par a => HPar a (expr_ind2 a)
  | Bin o a b => HBin o a b (expr_ind2 a) (expr_ind2 b)
  | Un u a => HUn u a (expr_ind2 a)
  | Pre d a => HPre d a (expr_ind2 a)
  | Post d a => HPost d a (expr_ind2 a)
  | Idx a i => HIdx a i (expr_ind2 a) (expr_ind2 i)
  | Mem a m => HMem a m (expr_ind2 a)
  | Arrow a m => HArrow a m (expr_ind2 a)
  | Call f args => HCall f args (all args)
  | MCall ar a m args => HMCall ar a m args (expr_ind2 a) (all args)
  | Tern c a b => HTern c a b (expr_ind2 c) (expr_ind2 a) (expr_ind2 b)
  | Asg o l r => HAsg o l r (expr_ind2 l) (expr_ind2 r)
  | EProp a => HEProp a (expr_ind2 a)
  | Cast ty a => HCast ty a (expr_ind2 a)
  | Generic n a => HGeneric n a (expr_ind2 a)
  | SizeofT => HSizeofT
  | ArrLit l => HArrLit l (all l)
  end.
End ExprInd.

Lemma safe_from_after xs : forall p t ys, safe_from p (xs ++ t :: ys) = true -> safe_from (pk_of t) ys = true.
Proof.
  induction xs as [|x xs IH]; intros p t ys H.
  - cbn [app safe_from] in H. apply andb_true_iff in H. apply H.
  - cbn [app safe_from] in H. apply andb_true_iff in H. eapply IH. apply H.
Qed.

(* the tail after any token that is neither an identifier nor `.`/`->` is safe on its own: every
   sub-expression of a printed expression starts after such a token *)
Lemma safe_after xs t ys : pk_of t = PkNone -> safeb (xs ++ t :: ys) = true -> safeb ys = true.
Proof. intros Hk H. unfold safeb in *. rewrite <- Hk. eapply safe_from_after. exact H. Qed.

Lemma safe_var x R : safeb (TId x :: R) = true ->
  forall r1, R = TOp LtO :: r1 -> id_upper x = false /\ generic_scan 1 r1 = false.
Proof.
  intros H r1 ->. unfold safeb in H. cbn [safe_from hazard] in H. apply andb_true_iff in H. destruct H as [H _].
  apply negb_true_iff in H. apply orb_false_iff in H. exact H.
Qed.

(* first token of a printed expression *)
Definition head_ok (ts : list tok) : bool :=
  match ts with
  | (TNum _ | TId _ | TLP | TLB | TNot | TTilde | TInc | TDec | TOp Sub | TOp BAnd | TOp Mul | TAwait | TTry | TChecked) :: _ => true
  | _ => false
  end.

(* a primary parenthesis around a printed expression is a cast only through hazard (d) *)
Lemma safe_paren ts : head_ok ts = true -> safeb (TLP :: ts) = true -> cast_type ts = None.
Proof.
  intros Hh H. unfold safeb in H. cbn [safe_from hazard] in H. apply andb_true_iff in H. destruct H as [H _].
  apply negb_true_iff in H.
  destruct ts as [|t r]; [reflexivity|]. destruct t; try reflexivity; try discriminate Hh.
  destruct (cast_type (TId x :: r)); [discriminate H|reflexivity].
Qed.

(* sizeof ( printed expression ) takes its operand for a type only through hazard (c) *)
Lemma safe_sizeof x ts : is_sizeof x = true -> head_ok ts = true -> safeb (TId x :: TLP :: ts) = true ->
  sizeof_type_start ts = false.
Proof.
  intros Hz Hh H. unfold safeb in H. cbn [safe_from hazard] in H. apply andb_true_iff in H. destruct H as [H _].
  apply negb_true_iff in H.
  destruct ts as [|t r]; [reflexivity|]. destruct t; try reflexivity; try discriminate Hh.
  rewrite Hz in H. exact H.
Qed.

(* the type of a source cast is recognised by the look-ahead *)
Lemma ty_stars_wf st : forall acc r, forallb is_star st = true ->
  ty_stars acc (st ++ TRP :: r) = Some (acc ++ st, TRP :: r).
Proof.
  induction st as [|t st IH]; intros acc r H.
  - cbn [app]. rewrite app_nil_r. reflexivity.
  - cbn [forallb] in H. apply andb_true_iff in H. destruct H as [Ht Hs].
    destruct t; try discriminate Ht. destruct o; try discriminate Ht.
    cbn [app ty_stars]. rewrite (IH _ _ Hs). rewrite <- app_assoc. reflexivity.
Qed.

Lemma cast_type_wf ty r : wf_ty ty = true -> cast_type (ty ++ TRP :: r) = Some (ty, r).
Proof.
  intros H. destruct ty as [|t st]; [discriminate H|]. destruct t; try discriminate H.
  cbn [wf_ty] in H. cbn [app cast_type]. unfold cast_from.
  rewrite (ty_stars_wf st [TKw k] r H). cbn [app].
  destruct st as [|t st]; [reflexivity|]. cbn [forallb] in H. apply andb_true_iff in H. destruct H as [Ht _].
  destruct t; try discriminate Ht. reflexivity.
Qed.

Lemma lvl_from_bound t o : forall k, lvl_from k t o = 0 \/ (k <= lvl_from k t o < k + length t).
Proof.
  induction t as [|ops t IH]; intros k; cbn [lvl_from length].
  - left; reflexivity.
  - destruct (existsb (binop_eqb o) ops).
    + destruct k; [left; reflexivity|right; lia].
    + destruct (IH (S k)) as [E|E]; [left; exact E|right; lia].
Qed.

Lemma lvl_le t o : lvl t o <= length t.
Proof. unfold lvl. destruct (lvl_from_bound t o 1) as [E|E]; lia. Qed.

Section RT.
Variable tbl : table.
Hypothesis tbl_total : forall o, 1 <= lvl tbl o.
Notation L := (length tbl).

Lemma L_pos : 1 <= L.
Proof. pose proof (tbl_total Or). pose proof (lvl_le tbl Or). lia. Qed.

(* the comma-separated lists of [pr]: call arguments end with `)`, array elements with `]` *)
Definition pr_list (close : tok) : list expr -> list tok :=
  fix go (l : list expr) : list tok :=
    match l with
    | [] => [close]
    | a :: l' => pr tbl 0 a ++ match l' with [] => [close] | _ => TComma :: go l' end
    end.

Lemma pr_eq c e : pr tbl c e = if c <=? lev tbl e then pr tbl 0 e else TLP :: pr tbl 0 e ++ [TRP].
Proof. destruct e; reflexivity. Qed.

Lemma pr_le c e : c <= lev tbl e -> pr tbl c e = pr tbl 0 e.
Proof. intros H. rewrite pr_eq. destruct (Nat.leb_spec c (lev tbl e)); [reflexivity|lia]. Qed.
Lemma pr_gt c e : lev tbl e < c -> pr tbl c e = TLP :: pr tbl 0 e ++ [TRP].
Proof. intros H. rewrite pr_eq. destruct (Nat.leb_spec c (lev tbl e)); [lia|reflexivity]. Qed.

Lemma pr0_par a : pr tbl 0 (Par a) = TLP :: pr tbl 0 a ++ [TRP].
Proof. reflexivity. Qed.
Lemma pr0_bin o a b : pr tbl 0 (Bin o a b) = pr tbl (lvl tbl o + 1) a ++ TOp o :: pr tbl (lvl tbl o + 2) b.
Proof. reflexivity. Qed.
Lemma pr0_un u a : pr tbl 0 (Un u a) = utok u :: pr tbl (L + 2) a.
Proof. reflexivity. Qed.
Lemma pr0_pre d a : pr tbl 0 (Pre d a) = itok d :: pr tbl (L + 3) a.
Proof. reflexivity. Qed.
Lemma pr0_post d a : pr tbl 0 (Post d a) = pr tbl (L + 4) a ++ [itok d].
Proof. reflexivity. Qed.
Lemma pr0_idx a i : pr tbl 0 (Idx a i) = pr tbl (L + 4) a ++ TLB :: pr tbl 0 i ++ [TRB].
Proof. reflexivity. Qed.
Lemma pr0_mem a m : pr tbl 0 (Mem a m) = pr tbl (L + 4) a ++ [TDot; TId m].
Proof. reflexivity. Qed.
Lemma pr0_arrow a m : pr tbl 0 (Arrow a m) = pr tbl (L + 4) a ++ [TArrow; TId m].
Proof. reflexivity. Qed.
Lemma pr0_call f args : pr tbl 0 (Call f args) = TId f :: TLP :: pr_list TRP args.
Proof. reflexivity. Qed.
Lemma pr0_mcall ar a m args :
  pr tbl 0 (MCall ar a m args) = pr tbl (L + 4) a ++ (if ar then TArrow else TDot) :: TId m :: TLP :: pr_list TRP args.
Proof. reflexivity. Qed.
Lemma pr0_arr l : pr tbl 0 (ArrLit l) = TLB :: pr_list TRB l.
Proof. reflexivity. Qed.
Lemma pr0_cast ty a : pr tbl 0 (Cast ty a) = TLP :: ty ++ TRP :: pr tbl (L + 2) a.
Proof. reflexivity. Qed.
Lemma pr0_tern c a b : pr tbl 0 (Tern c a b) = pr tbl 2 c ++ TQ :: pr tbl 1 a ++ TColon :: pr tbl 1 b.
Proof. reflexivity. Qed.
Lemma pr0_asg o l r : pr tbl 0 (Asg o l r) = pr tbl 1 l ++ TAsg o :: pr tbl 0 r.
Proof. reflexivity. Qed.

Lemma head_ok_app xs ys : head_ok xs = true -> head_ok (xs ++ ys) = true.
Proof. destruct xs as [|t xs]; [discriminate|]. cbn [app]. auto. Qed.

Lemma pr_head e : forall c, head_ok (pr tbl c e) = true.
Proof.
  induction e; intros c0; rewrite pr_eq; (destruct (c0 <=? lev tbl _); [|reflexivity]);
    try reflexivity.
  - rewrite pr0_bin. apply head_ok_app, IHe1.
  - rewrite pr0_un. destruct u; reflexivity.
  - rewrite pr0_pre. destruct inc; reflexivity.
  - rewrite pr0_post. apply head_ok_app, IHe.
  - rewrite pr0_idx. apply head_ok_app, IHe1.
  - rewrite pr0_mem. apply head_ok_app, IHe.
  - rewrite pr0_arrow. apply head_ok_app, IHe.
  - rewrite pr0_mcall. apply head_ok_app, IHe.
  - rewrite pr0_tern. apply head_ok_app, IHe1.
  - rewrite pr0_asg. apply head_ok_app, IHe1.
  - change (pr tbl 0 (EProp e)) with (pr tbl 2 e ++ [TQ]). apply head_ok_app, IHe.
  - change (pr tbl 0 (Generic n e)) with (pr tbl (L + 5) e). apply IHe.
Qed.

Lemma head_not_closer ts : head_ok ts = true -> closer ts = false.
Proof. destruct ts as [|t r]; [discriminate|]. destruct t; try discriminate; try reflexivity. Qed.
Lemma head_not ts t : head_ok ts = true -> head_ok [t] = false -> forall r0, ts <> t :: r0.
Proof. intros H Ht r0 ->. change (head_ok [t] = true) in H. congruence. Qed.

(* an operand that lives at the postfix level or above, or is parenthesised, does not start with a
   prefix operator *)
Lemma ustart_false e : forall c rest, (L + 3 <= lev tbl e \/ lev tbl e < c) ->
  unary_start (pr tbl c e ++ rest) = false.
Proof.
  induction e; intros c0 rest H; rewrite pr_eq;
    (match goal with |- context [c0 <=? ?x] => destruct (Nat.leb_spec c0 x) as [Hle|Hgt] end; [|reflexivity]);
    (destruct H as [H|H]; [|lia]); cbn [lev] in H; try lia; try reflexivity.
  - pose proof (lvl_le tbl o). lia.
  - rewrite pr0_post, <- app_assoc. apply IHe. lia.
  - rewrite pr0_idx, <- app_assoc. apply IHe1. lia.
  - rewrite pr0_mem, <- app_assoc. apply IHe. lia.
  - rewrite pr0_arrow, <- app_assoc. apply IHe. lia.
  - rewrite pr0_mcall, <- app_assoc. apply IHe. lia.
  - change (pr tbl 0 (Generic n e)) with (pr tbl (L + 5) e). apply IHe. lia.
Qed.

Lemma fol_mono c c' rest : c <= c' -> folb tbl c rest = true -> folb tbl c' rest = true.
Proof.
  intros Hle H. destruct rest as [|t r]; [reflexivity|].
  destruct t; cbn [folb] in *; try exact H.
  - apply Nat.ltb_lt in H. apply Nat.ltb_lt. lia.
  - apply Nat.leb_le in H. apply Nat.leb_le. lia.
  - apply Nat.leb_le in H. apply Nat.leb_le. lia.
Qed.

Lemma fol_not_asg rest : folb tbl 0 rest = true -> forall o r', rest <> TAsg o :: r'.
Proof. intros H o r' ->. discriminate H. Qed.

Lemma fol_not_q c rest : c <= 1 -> folb tbl c rest = true -> forall r', rest <> TQ :: r'.
Proof.
  intros Hc H r' ->. cbn [folb] in H. apply Nat.leb_le in H. lia.
Qed.

Lemma fol_op c o r : folb tbl c (TOp o :: r) = true -> lvl tbl o + 1 < c.
Proof. cbn [folb]. apply Nat.ltb_lt. Qed.

Lemma fol_postfix c rest : folb tbl c rest = true -> postfix_start rest = false.
Proof. destruct rest as [|t r]; [reflexivity|]. destruct t; try reflexivity; discriminate. Qed.

Lemma postfix_nolp rest : postfix_start rest = false -> starts_lp rest = false.
Proof. destruct rest as [|t r]; [reflexivity|]. destruct t; try reflexivity; discriminate. Qed.

Lemma fol_nolp c rest : folb tbl c rest = true -> starts_lp rest = false.
Proof. intros H. apply postfix_nolp, (fol_postfix c), H. Qed.

Definition PCtx (c : nat) (ts : list tok) (v : expr * list tok) : Prop :=
  match c with
  | 0 => PAsg tbl ts v
  | 1 => PTern tbl ts v
  | _ => if c <=? L + 1 then PBin tbl (c - 1) ts v
         else if c =? L + 2 then PUn tbl ts v else PPostfix tbl ts v
  end.

Lemma PCtx_bin c ts v : 2 <= c <= L + 1 -> PCtx c ts v = PBin tbl (c - 1) ts v.
Proof.
  intros H. destruct c as [|[|c]]; try lia. unfold PCtx.
  destruct (Nat.leb_spec (S (S c)) (L + 1)); [reflexivity|lia].
Qed.
Lemma PCtx_un ts v : PCtx (L + 2) ts v = PUn tbl ts v.
Proof.
  pose proof L_pos. remember (L + 2) as c eqn:E. destruct c as [|[|c]]; try lia. unfold PCtx.
  destruct (Nat.leb_spec (S (S c)) (L + 1)); [lia|].
  destruct (Nat.eqb_spec (S (S c)) (L + 2)); [reflexivity|lia].
Qed.
Lemma PCtx_pf ts v : PCtx (L + 3) ts v = PPostfix tbl ts v.
Proof.
  remember (L + 3) as c eqn:E. destruct c as [|[|c]]; try lia. unfold PCtx.
  destruct (Nat.leb_spec (S (S c)) (L + 1)); [lia|].
  destruct (Nat.eqb_spec (S (S c)) (L + 2)); [lia|reflexivity].
Qed.

Lemma PCtx_to_bin k ts v : 1 <= k <= L -> PCtx (k + 2) ts v -> PBin tbl (S k) ts v.
Proof.
  intros Hk H. destruct (Nat.eq_dec k L) as [->|Hne].
  - rewrite PCtx_un in H. apply R_bin_top; [lia|exact H].
  - rewrite PCtx_bin in H by lia. replace (k + 2 - 1) with (S k) in H by lia. exact H.
Qed.

(* a binary-level context reached from the level above when the follow token stops the loop *)
Lemma PBin_up k ts x rest : 1 <= k <= L ->
  PCtx (k + 2) ts (x, rest) -> (forall o r, rest = TOp o :: r -> lvl tbl o <> k) -> PBin tbl k ts (x, rest).
Proof.
  intros Hk H Hn.
  apply (R_bin tbl k ts x rest); [lia|apply PCtx_to_bin; assumption|apply R_loop_stop; exact Hn].
Qed.

Lemma descend_step c ts x rest : c <= L + 2 ->
  PCtx (S c) ts (x, rest) -> folb tbl c rest = true -> (c = L + 2 -> unary_start ts = false) ->
  PCtx c ts (x, rest).
Proof.
  intros Hc H Hf Hu. pose proof L_pos as HL.
  destruct (Nat.eq_dec c 0) as [->|H0].
  { apply R_assign_plain; [exact H|apply fol_not_asg; exact Hf]. }
  destruct (Nat.eq_dec c 1) as [->|H1].
  { change (PTern tbl ts (x, rest)). apply R_tern_plain; [|apply (fol_not_q 1); auto].
    rewrite PCtx_bin in H by lia. exact H. }
  destruct (Nat.eq_dec c (L + 2)) as [->|H2].
  { rewrite PCtx_un. apply R_un_post; [auto|]. replace (S (L + 2)) with (L + 3) in H by lia.
    rewrite PCtx_pf in H. exact H. }
  rewrite PCtx_bin by lia.
  apply PBin_up; [lia| |].
  - replace (c - 1 + 2) with (S c) by lia. exact H.
  - intros o r ->. apply fol_op in Hf. lia.
Qed.

Lemma descend d : forall c1 c2 ts x rest, c2 = d + c1 -> c2 <= L + 3 ->
  PCtx c2 ts (x, rest) -> folb tbl c1 rest = true ->
  (c1 <= L + 2 < c2 -> unary_start ts = false) -> PCtx c1 ts (x, rest).
Proof.
  induction d as [|d IH]; intros c1 c2 ts x rest -> Hc H Hf Hu.
  - exact H.
  - apply descend_step; [lia| |exact Hf|intros ->; apply Hu; lia].
    apply (IH (S c1) (S d + c1)); [lia|lia|exact H|apply (fol_mono c1); [lia|exact Hf]|].
    intros Hx. apply Hu. lia.
Qed.

(* streams as chains of cons and append associated to the right: the form the rules' token patterns have *)
Ltac norm := cbn [app] in *; repeat (rewrite <- app_assoc in *; cbn [app] in *).

(* Three statements are proved of every tree.  P: it is parsed in a context of any rank c *)
Definition Pst (e : expr) : Prop := forall c rest, c <= L + 3 -> folb tbl c rest = true ->
  safeb (pr tbl c e ++ rest) = true -> PCtx c (pr tbl c e ++ rest) (strip e, rest).
(* S: as the left operand of a loop of binary level k *)
Definition Sst (e : expr) : Prop := forall k R v, 1 <= k <= L -> folb tbl (k + 2) R = true ->
  safeb (pr tbl (k + 1) e ++ R) = true -> PLoop tbl k (strip e) R v ->
  exists x r, PBin tbl (S k) (pr tbl (k + 1) e ++ R) (x, r) /\ PLoop tbl k x r v.
(* Q: as the head of a postfix chain *)
Definition Qst (e : expr) : Prop := forall R v, starts_lp R = false ->
  safeb (pr tbl (L + 4) e ++ R) = true -> PPostL tbl (strip e) R v ->
  exists x r, PPrim tbl (pr tbl (L + 4) e ++ R) (x, r) /\ PPostL tbl x r v.

Definition P0 (e : expr) : Prop := forall rest, folb tbl 0 rest = true ->
  safeb (pr tbl 0 e ++ rest) = true -> PAsg tbl (pr tbl 0 e ++ rest) (strip e, rest).
Definition Own (e : expr) : Prop := forall rest, folb tbl (lev tbl e) rest = true ->
  safeb (pr tbl 0 e ++ rest) = true ->
  PCtx (Nat.min (lev tbl e) (L + 3)) (pr tbl 0 e ++ rest) (strip e, rest).

Lemma P_le e : Own e -> forall c rest, c <= lev tbl e -> c <= L + 3 -> folb tbl c rest = true ->
  safeb (pr tbl 0 e ++ rest) = true -> PCtx c (pr tbl 0 e ++ rest) (strip e, rest).
Proof.
  intros HO c rest Hc Hc3 Hf Hs.
  apply (descend (Nat.min (lev tbl e) (L + 3) - c) c (Nat.min (lev tbl e) (L + 3))); try lia.
  - apply HO; [apply (fol_mono c); [lia|exact Hf]|exact Hs].
  - exact Hf.
  - intros Hx. apply ustart_false. left. lia.
Qed.

Lemma P0_of_Own e : Own e -> P0 e.
Proof. intros HO rest Hf Hs. apply (P_le e HO 0 rest); try lia; assumption. Qed.

Lemma paren_prim e : P0 e -> forall R, safeb (TLP :: pr tbl 0 e ++ TRP :: R) = true ->
  PPrim tbl (TLP :: pr tbl 0 e ++ TRP :: R) (strip e, R).
Proof.
  intros H0 R Hs. apply R_prim_paren; [apply safe_paren; [apply head_ok_app, pr_head|exact Hs]|].
  apply H0; [reflexivity|]. apply (safe_after [] TLP); [reflexivity|exact Hs].
Qed.

Lemma P_gt e : P0 e -> forall c rest, lev tbl e < c -> c <= L + 3 -> folb tbl c rest = true ->
  safeb (pr tbl c e ++ rest) = true -> PCtx c (pr tbl c e ++ rest) (strip e, rest).
Proof.
  intros H0 c rest Hc Hc3 Hf Hs. rewrite pr_gt in * by exact Hc.
  norm.
  apply (descend (L + 3 - c) c (L + 3)); try lia.
  - rewrite PCtx_pf. eapply postfix_intro; [apply paren_prim; [exact H0|exact Hs]|].
    apply R_post_stop. apply (fol_postfix c). exact Hf.
  - exact Hf.
  - intros _. reflexivity.
Qed.

Lemma Pst_of_Own e : Own e -> Pst e.
Proof.
  intros HO c rest Hc Hf Hs. destruct (Nat.le_gt_cases c (lev tbl e)) as [Hle|Hgt].
  - rewrite pr_le in * by exact Hle. apply P_le; auto.
  - apply P_gt; auto. apply P0_of_Own; exact HO.
Qed.

Lemma Q_of_prim e :
  (forall R, starts_lp R = false -> safeb (pr tbl (L + 4) e ++ R) = true ->
             PPrim tbl (pr tbl (L + 4) e ++ R) (strip e, R)) -> Qst e.
Proof. intros H R v Hl Hs Hv. exists (strip e), R. split; [apply H; assumption|exact Hv]. Qed.

Lemma Q_paren e : P0 e -> lev tbl e < L + 4 -> Qst e.
Proof.
  intros H0 Hlev. apply Q_of_prim. intros R Hl Hs. rewrite pr_gt in * by exact Hlev.
  norm. apply paren_prim; assumption.
Qed.

Lemma Own_of_Q e : L + 4 <= lev tbl e -> Qst e -> Own e.
Proof.
  intros Hlev HQ rest Hf Hs. replace (Nat.min (lev tbl e) (L + 3)) with (L + 3) by lia.
  rewrite PCtx_pf. rewrite <- (pr_le (L + 4) e) in * by exact Hlev.
  destruct (HQ rest (strip e, rest)) as (x & r & Hp & Hl).
  - apply (fol_nolp (lev tbl e)). exact Hf.
  - exact Hs.
  - apply R_post_stop. apply (fol_postfix (lev tbl e)). exact Hf.
  - eapply postfix_intro; eassumption.
Qed.

Lemma S_other e : Pst e -> forall k R v, 1 <= k <= L -> lev tbl e <> k + 1 ->
  folb tbl (k + 2) R = true -> safeb (pr tbl (k + 1) e ++ R) = true ->
  PLoop tbl k (strip e) R v ->
  exists x r, PBin tbl (S k) (pr tbl (k + 1) e ++ R) (x, r) /\ PLoop tbl k x r v.
Proof.
  intros HP k R v Hk Hne Hf Hs Hv.
  assert (E : pr tbl (k + 1) e = pr tbl (k + 2) e).
  { destruct (Nat.le_gt_cases (k + 1) (lev tbl e)).
    - rewrite (pr_le (k + 1)), (pr_le (k + 2)) by lia. reflexivity.
    - rewrite (pr_gt (k + 1)), (pr_gt (k + 2)) by lia. reflexivity. }
  rewrite E in *. exists (strip e), R. split; [|exact Hv].
  apply PCtx_to_bin; [exact Hk|]. apply HP; [lia|exact Hf|exact Hs].
Qed.

(* what a construct owes: its own level, the chain statement if it lives in the postfix chain or above, the
   loop statement at its own binary level; the other ranks follow by descent and by parentheses *)
Lemma assemble e : Own e -> (L + 4 <= lev tbl e -> Qst e) ->
  (forall k R v, 1 <= k <= L -> lev tbl e = k + 1 -> folb tbl (k + 2) R = true ->
     safeb (pr tbl (k + 1) e ++ R) = true -> PLoop tbl k (strip e) R v ->
     exists x r, PBin tbl (S k) (pr tbl (k + 1) e ++ R) (x, r) /\ PLoop tbl k x r v) ->
  Pst e /\ Sst e /\ Qst e.
Proof.
  intros HO HQ HS. pose proof (Pst_of_Own e HO) as HP. split; [exact HP|]. split.
  - intros k R v Hk Hf Hs Hv. destruct (Nat.eq_dec (lev tbl e) (k + 1)) as [E|E].
    + apply HS; assumption.
    + apply S_other; assumption.
  - destruct (Nat.le_gt_cases (L + 4) (lev tbl e)) as [H|H]; [apply HQ; exact H|].
    apply Q_paren; [apply P0_of_Own; exact HO|exact H].
Qed.

Lemma assemble_prim e : L + 5 <= lev tbl e ->
  (forall R, starts_lp R = false -> safeb (pr tbl 0 e ++ R) = true ->
             PPrim tbl (pr tbl 0 e ++ R) (strip e, R)) ->
  Pst e /\ Sst e /\ Qst e.
Proof.
  intros Hlev Hp.
  assert (HQ : Qst e).
  { apply Q_of_prim. intros R Hl Hs. rewrite pr_le in * by lia. apply Hp; assumption. }
  apply assemble.
  - apply Own_of_Q; [lia|exact HQ].
  - intros _. exact HQ.
  - intros k R v Hk E. pose proof (lvl_le tbl Or). lia.
Qed.

Lemma assemble_chain e : lev tbl e = L + 4 -> Qst e -> Pst e /\ Sst e /\ Qst e.
Proof.
  intros Hlev HQ. apply assemble.
  - apply Own_of_Q; [lia|exact HQ].
  - intros _. exact HQ.
  - intros k R v Hk E. lia.
Qed.

(* a construct whose level is neither a binary level nor in the postfix chain owes only its own level *)
Lemma assemble_at c e : lev tbl e = c -> c <= 1 \/ L + 2 <= c <= L + 3 ->
  (forall rest, folb tbl c rest = true -> safeb (pr tbl 0 e ++ rest) = true ->
     PCtx c (pr tbl 0 e ++ rest) (strip e, rest)) -> Pst e /\ Sst e /\ Qst e.
Proof.
  intros Hl Hc HO. pose proof L_pos. apply assemble.
  - intros rest. rewrite Hl. replace (Nat.min c (L + 3)) with c by lia. apply HO.
  - lia.
  - intros k R v Hk E. lia.
Qed.

(* [PL] is the list parser ([PArgs], [PElems]) given by its three rules; the closing token starts no
   expression and may follow one *)
Lemma list_parse close (PL : list tok -> list expr * list tok -> Prop) :
  head_ok [close] = false -> folb tbl 0 [close] = true ->
  (forall r, PL (close :: r) ([], r)) ->
  (forall ts a r, (forall r0, ts <> close :: r0) -> PAsg tbl ts (a, close :: r) -> PL ts ([a], r)) ->
  (forall ts a r l r', (forall r0, ts <> close :: r0) -> (forall r0, r <> close :: r0) ->
     PAsg tbl ts (a, TComma :: r) -> PL r (l, r') -> PL ts (a :: l, r')) ->
  forall l, Forall (fun a => wf a = true -> Pst a /\ Sst a /\ Qst a) l -> forallb wf l = true ->
  forall R, safeb (pr_list close l ++ R) = true -> PL (pr_list close l ++ R) (map strip l, R).
Proof.
  intros Hc Hf Hnil Hlast Hcons. induction 1 as [|a l Ha Hl IH]; intros Hw R Hs.
  - apply Hnil.
  - cbn [forallb] in Hw. apply andb_true_iff in Hw. destruct Hw as [Hwa Hwl].
    destruct (Ha Hwa) as (HPa & _ & _).
    assert (Hh : forall xs r0, pr tbl 0 a ++ xs <> close :: r0).
    { intros xs. apply head_not; [apply head_ok_app, pr_head|exact Hc]. }
    cbn [pr_list map] in *. fold (pr_list close) in *. destruct l as [|b l'].
    + norm. apply Hlast; [apply Hh|]. apply (HPa 0); [lia|exact Hf|exact Hs].
    + norm.
      apply (Hcons _ (strip a) (pr_list close (b :: l') ++ R)); [apply Hh| | |].
      * cbn [pr_list]. rewrite <- app_assoc. apply head_not; [apply head_ok_app, pr_head|exact Hc].
      * apply (HPa 0); [lia|reflexivity|exact Hs].
      * apply IH; [exact Hwl|]. apply (safe_after (pr tbl 0 a) TComma); [reflexivity|exact Hs].
Qed.

Definition args_parse trail :=
  list_parse TRP (PArgs tbl trail) eq_refl eq_refl (R_args_nil tbl trail) (R_args_last tbl trail) (R_args_cons tbl trail).

Definition elems_parse :=
  list_parse TRB (PElems tbl) eq_refl eq_refl (R_elems_nil tbl) (R_elems_last tbl)
    (fun ts a r l r' Hn _ => R_elems_cons tbl ts a r l r' Hn).

Theorem roundtrip_all : forall e, wf e = true -> Pst e /\ Sst e /\ Qst e.
Proof.
  pose proof L_pos as HL.
  induction e using expr_ind2; intros Hw; cbn [wf] in Hw; try discriminate Hw.
  - (* Num *)
    apply assemble_prim; [cbn [lev]; lia|]. intros R Hl Hs. apply R_prim_num.
  - (* Var *)
    apply assemble_prim; [cbn [lev]; lia|]. intros R Hl Hs.
    apply R_prim_var; [exact Hl|]. apply (safe_var x). exact Hs.
  - (* Par *)
    destruct (IHe Hw) as (HPa & _ & _).
    apply assemble_prim; [cbn [lev]; lia|]. intros R Hl Hs.
    rewrite pr0_par in *. cbn [strip] in *. norm.
    apply paren_prim; [|exact Hs]. intros rest Hf Hs'. apply (HPa 0); [lia|exact Hf|exact Hs'].
  - (* Bin *)
    apply andb_true_iff in Hw. destruct Hw as [Hwa Hwb].
    destruct (IHe1 Hwa) as (HPa & HSa & _). destruct (IHe2 Hwb) as (HPb & _ & _).
    pose proof (tbl_total o) as Hk1. pose proof (lvl_le tbl o) as Hk2.
    set (k := lvl tbl o) in *.
    assert (HS : forall R v, folb tbl (k + 2) R = true ->
       safeb (pr tbl 0 (Bin o e1 e2) ++ R) = true -> PLoop tbl k (strip (Bin o e1 e2)) R v ->
       exists x r, PBin tbl (S k) (pr tbl 0 (Bin o e1 e2) ++ R) (x, r) /\ PLoop tbl k x r v).
    { intros R v Hf Hs Hv. rewrite pr0_bin in *. fold k in Hs |- *.
      cbn [strip] in *. norm.
      apply HSa; [lia| | exact Hs |].
      - cbn [folb]. fold k. apply Nat.ltb_lt. lia.
      - apply (R_loop_step tbl k _ o _ (strip e2) R); [reflexivity| |exact Hv].
        apply PCtx_to_bin; [lia|]. apply HPb; [lia|exact Hf|].
        apply (safe_after (pr tbl (k + 1) e1) (TOp o)); [reflexivity|exact Hs]. }
    apply assemble.
    + intros rest Hf Hs. cbn [lev] in *. fold k in Hf |- *.
      replace (Nat.min (k + 1) (L + 3)) with (k + 1) by lia.
      rewrite PCtx_bin by lia. replace (k + 1 - 1) with k by lia.
      destruct (HS rest (strip (Bin o e1 e2), rest)) as (x & r & Hb & Hl).
      * apply (fol_mono (k + 1)); [lia|exact Hf].
      * exact Hs.
      * apply R_loop_stop. intros o' r' ->. apply fol_op in Hf. lia.
      * eapply R_bin; [lia|exact Hb|exact Hl].
    + cbn [lev]. fold k. lia.
    + intros k' R v Hk' E Hf Hs Hv. cbn [lev] in E. fold k in E.
      assert (k' = k) by lia. subst k'.
      rewrite pr_le in * by (cbn [lev]; fold k; lia). apply HS; assumption.
  - (* Un *)
    destruct (IHe Hw) as (HPa & _ & _).
    apply (assemble_at (L + 2)); [reflexivity|lia|]. intros rest Hf Hs.
    rewrite PCtx_un. rewrite pr0_un in *. cbn [app strip] in *.
    apply (R_un tbl _ u (pr tbl (L + 2) e ++ rest)); [destruct u; reflexivity|].
    rewrite <- PCtx_un. apply HPa; [lia|exact Hf|].
    apply (safe_after [] (utok u)); [destruct u; reflexivity|exact Hs].
  - (* Pre *)
    destruct (IHe Hw) as (HPa & _ & _).
    apply (assemble_at (L + 2)); [reflexivity|lia|]. intros rest Hf Hs.
    rewrite PCtx_un. rewrite pr0_pre in *. cbn [app strip] in *.
    apply R_pre. rewrite <- PCtx_pf. apply HPa; [lia|apply (fol_mono (L + 2)); [lia|exact Hf]|].
    apply (safe_after [] (itok d)); [destruct d; reflexivity|exact Hs].
  - (* Post *)
    destruct (IHe Hw) as (_ & _ & HQa).
    apply (assemble_at (L + 3)); [reflexivity|lia|]. intros rest Hf Hs.
    rewrite PCtx_pf. rewrite pr0_post in *. cbn [strip] in *. norm.
    destruct (HQa (itok d :: rest) (Post d (strip e), rest)) as (x & r & Hp & Hl).
    + destruct d; reflexivity.
    + exact Hs.
    + apply R_post_incdec.
    + eapply postfix_intro; eassumption.
  - (* Idx *)
    apply andb_true_iff in Hw. destruct Hw as [Hwa Hwi].
    destruct (IHe1 Hwa) as (_ & _ & HQa). destruct (IHe2 Hwi) as (HPi & _ & _).
    apply assemble_chain; [reflexivity|].
    intros R v Hl Hs Hv. rewrite pr_le in * by (cbn [lev]; lia).
    rewrite pr0_idx in *. cbn [strip] in *. norm.
    apply HQa; [reflexivity|exact Hs|].
    apply (R_post_idx tbl _ _ (strip e2) R); [|exact Hv].
    apply (HPi 0); [lia|reflexivity|].
    apply (safe_after (pr tbl (L + 4) e1) TLB); [reflexivity|exact Hs].
  - (* Mem *)
    destruct (IHe Hw) as (_ & _ & HQa).
    apply assemble_chain; [reflexivity|].
    intros R v Hl Hs Hv. rewrite pr_le in * by (cbn [lev]; lia).
    rewrite pr0_mem in *. cbn [strip] in *. norm.
    apply HQa; [reflexivity|exact Hs|]. apply R_post_mem; assumption.
  - (* Arrow *)
    destruct (IHe Hw) as (_ & _ & HQa).
    apply assemble_chain; [reflexivity|].
    intros R v Hl Hs Hv. rewrite pr_le in * by (cbn [lev]; lia).
    rewrite pr0_arrow in *. cbn [strip] in *. norm.
    apply HQa; [reflexivity|exact Hs|]. apply R_post_arrow; assumption.
  - (* Call *)
    apply andb_true_iff in Hw. destruct Hw as [Hw Hz].
    apply assemble_prim; [cbn [lev]; lia|]. intros R Hl Hs.
    rewrite pr0_call in *. cbn [app strip] in *.
    destruct (is_sizeof f) eqn:Ez.
    + (* sizeof ( e ) *)
      destruct args as [|a [|b l]]; try discriminate Hz.
      cbn [pr_list map] in *. norm.
      inversion H as [|a' l' Ha _]; subst.
      cbn [forallb] in Hw. rewrite andb_true_r in Hw. destruct (Ha Hw) as (HPa & _ & _).
      apply R_prim_sizeof; [exact Ez| |].
      * apply (safe_sizeof f); [exact Ez|apply head_ok_app, pr_head|exact Hs].
      * apply (HPa 0); [lia|reflexivity|]. apply (safe_after [TId f] TLP); [reflexivity|exact Hs].
    + apply R_prim_call; [exact Ez| |exact Hl].
      apply args_parse; [exact H|exact Hw|].
      apply (safe_after [TId f] TLP); [reflexivity|exact Hs].
  - (* MCall *)
    apply andb_true_iff in Hw. destruct Hw as [Hwa Hwl].
    destruct (IHe Hwa) as (_ & _ & HQa).
    apply assemble_chain; [reflexivity|].
    intros R v Hl Hs Hv. rewrite pr_le in * by (cbn [lev]; lia).
    rewrite pr0_mcall in *. cbn [strip] in *. norm.
    apply HQa; [destruct ar; reflexivity|exact Hs|].
    apply (R_post_mcall tbl ar _ m _ (map strip args) R); [|exact Hv].
    apply args_parse; [exact H|exact Hwl|].
    apply (safe_after (pr tbl (L + 4) e ++ [(if ar then TArrow else TDot); TId m]) TLP); [reflexivity|].
    rewrite <- app_assoc. exact Hs.
  - (* Tern *)
    apply andb_true_iff in Hw. destruct Hw as [Hw Hwb]. apply andb_true_iff in Hw. destruct Hw as [Hwc Hwa].
    destruct (IHe1 Hwc) as (HPc & _ & _). destruct (IHe2 Hwa) as (HPa & _ & _).
    destruct (IHe3 Hwb) as (HPb & _ & _).
    apply (assemble_at 1); [reflexivity|lia|]. intros rest Hf Hs.
    change (PTern tbl (pr tbl 0 (Tern e1 e2 e3) ++ rest) (strip (Tern e1 e2 e3), rest)).
    rewrite pr0_tern in *. cbn [strip] in *. norm.
    assert (Hs2 : safeb (pr tbl 1 e2 ++ TColon :: pr tbl 1 e3 ++ rest) = true).
    { apply (safe_after (pr tbl 2 e1) TQ); [reflexivity|exact Hs]. }
    apply (R_tern tbl _ (strip e1) (pr tbl 1 e2 ++ TColon :: pr tbl 1 e3 ++ rest)
                  (strip e2) (pr tbl 1 e3 ++ rest) (strip e3) rest).
    + rewrite <- (PCtx_bin 2) by lia. apply HPc; [lia|reflexivity|exact Hs].
    + apply head_not_closer, head_ok_app, pr_head.
    + apply (HPa 1); [lia|reflexivity|exact Hs2].
    + apply (HPb 1); [lia|exact Hf|]. apply (safe_after (pr tbl 1 e2) TColon); [reflexivity|exact Hs2].
  - (* Asg *)
    apply andb_true_iff in Hw. destruct Hw as [Hw Hv]. apply andb_true_iff in Hw. destruct Hw as [Hwl Hwr].
    destruct (IHe1 Hwl) as (HPl & _ & _). destruct (IHe2 Hwr) as (HPr & _ & _).
    apply (assemble_at 0); [reflexivity|lia|]. intros rest Hf Hs.
    change (PAsg tbl (pr tbl 0 (Asg o e1 e2) ++ rest) (strip (Asg o e1 e2), rest)).
    rewrite pr0_asg in *. cbn [strip] in *. norm.
    apply (R_assign tbl _ (strip e1) o (pr tbl 0 e2 ++ rest) (strip e2) rest).
    + apply (HPl 1); [lia|reflexivity|exact Hs].
    + apply (HPr 0); [lia|exact Hf|]. apply (safe_after (pr tbl 1 e1) (TAsg o)); [reflexivity|exact Hs].
    + exact Hv.
  - (* Cast *)
    apply andb_true_iff in Hw. destruct Hw as [Hty Hwa].
    destruct (IHe Hwa) as (HPa & _ & _).
    apply (assemble_at (L + 2)); [reflexivity|lia|]. intros rest Hf Hs.
    rewrite PCtx_un. rewrite pr0_cast in *. cbn [strip] in *. norm.
    apply R_un_post; [reflexivity|].
    apply (postfix_intro tbl _ (Cast ty (strip e)) rest).
    + apply (R_prim_cast tbl _ ty (pr tbl (L + 2) e ++ rest)); [apply cast_type_wf; exact Hty|].
      rewrite <- PCtx_un. apply HPa; [lia|exact Hf|].
      apply (safe_after (TLP :: ty) TRP); [reflexivity|exact Hs].
    + apply R_post_stop. apply (fol_postfix (L + 2)). exact Hf.
  - (* ArrLit *)
    apply assemble_prim; [cbn [lev]; lia|]. intros R Hl Hs.
    rewrite pr0_arr in *. cbn [app strip] in *.
    apply R_prim_arr. apply elems_parse; [exact H|exact Hw|].
    apply (safe_after [] TLB); [reflexivity|exact Hs].
Qed.

End RT.
