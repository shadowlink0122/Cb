(* C08 - the property theorems (lemmas in C08/CallLemmas.v, C08/Refine.v, C08/Witness.v; for the
   calls of every kind - CbCall, C08/Kinds.v - in C08/KindsLemmas.v, C08/KindsWitness.v).
   Ref  = the shared reference interpreter [Lang.Sem.eval/exec] (lexical lookup, private frames).
   Mech = the implementation's lookup and call protocol [C08.Frames.meval/mexec] (find_variable walks
          every activation's scope, arguments are evaluated inside the callee's scope, statics last). *)
From Coq Require Import List ZArith Bool Arith Lia.
From Cb Require Import Lang.Syntax Lang.Sem Lang.Respect Lang.Theorems Lang.Print
                       C08.CallLemmas C08.Frames C08.Model C08.Refine C08.Witness
                       C08.Kinds C08.KindsLemmas C08.KindsWitness.
Import ListNotations.
Local Open Scope Z_scope.

(* ================================================================== Ref: frames *)

(* Whatever expression is evaluated - in particular any call, to any depth of self or mutual
   recursion, whether it returns, fails or runs out of fuel - the frame stack afterwards is exactly
   the frame stack before: same activations, same variables, same values. A callee cannot touch its
   callers' locals. *)
Theorem callee_cannot_touch_caller_frame : forall funcs n e s,
  sframes (snd (eval funcs n e s)) = sframes s.
Proof.
  intros funcs n. apply (P_eval funcs (fun A => respects frames_same)).
  - intros A c _. apply r_lift, frames_same_refl.
  - intros x i. apply r_read, frames_same_refl.
  - intros A B m f. apply r_bind, frames_same_trans.
  - intros k f fd vs. apply frame_exact, r_map_ctl, call_inside_below.
Qed.
Print Assumptions callee_cannot_touch_caller_frame.

(* Every step of every activation (each recursion level included) leaves all frames below its own
   untouched and keeps the identity and block depth of its own frame: level k never clobbers level
   k-1. *)
Theorem recursion_levels_independent : forall funcs n,
  (forall e, respects below_kept (eval funcs n e)) /\ (forall st, respects below_kept (exec funcs n st)).
Proof. exact below_kept_all. Qed.
Print Assumptions recursion_levels_independent.

(* What a body reads is decided by its own frame, its own statics and the globals alone. *)
Theorem body_reads_only_own_frame_statics_globals : forall x s1 s2,
  hd_error (sframes s1) = hd_error (sframes s2) -> sglob s1 = sglob s2 ->
  statics_of (cur_fn s1) s1 = statics_of (cur_fn s2) s2 ->
  get_entry x s1 = get_entry x s2.
Proof.
  intros x s1 s2. unfold get_entry, cur_fn.
  destruct (sframes s1) as [|f1 r1], (sframes s2) as [|f2 r2]; cbn; intros H G S; try discriminate.
  - rewrite G. reflexivity.
  - injection H as ->. rewrite S, G. reflexivity.
Qed.
Print Assumptions body_reads_only_own_frame_statics_globals.

(* What a store or a declaration changes: never a frame below the running one, never the statics of
   another function. *)
Theorem body_writes_only_own_frame_statics_globals : forall x i v sta cst t d vs s,
  below_kept s (snd (m_write x i v s)) /\ below_kept s (snd (m_declare sta cst t x d vs s)) /\
  (forall g, g <> cur_fn s ->
     statics_of g (snd (m_write x i v s)) = statics_of g s /\
     statics_of g (snd (m_declare sta cst t x d vs s)) = statics_of g s).
Proof.
  intros. split; [apply write_below|]. split; [apply declare_below|].
  intros g Hg. split; [apply write_other_statics|apply declare_other_statics]; exact Hg.
Qed.
Print Assumptions body_writes_only_own_frame_statics_globals.

(* ================================================================== Ref: arguments *)

(* The values handed over are the arguments evaluated left to right in the caller, argument i
   converted to the type of parameter i. *)
Theorem args_evaluated_in_order : forall ev ps es s vs s',
  (List.length es <= List.length ps)%nat ->
  (eval_args ev ps es s = (Val vs, s') <-> args_eval ev ps es s vs s').
Proof. exact eval_args_spec. Qed.
Print Assumptions args_evaluated_in_order.

(* With as many arguments as (distinctly named) parameters, the body starts in a fresh frame that
   holds the parameters and nothing else, parameter i bound to the value of argument i. *)
Theorem args_positional : forall ev ps es s vs s1 f,
  List.length es = List.length ps -> NoDup (map pname ps) ->
  eval_args ev ps es s = (Val vs, s1) ->
  exists s2, bind_params ev ps vs (fresh_frame f s1) = (Val tt, s2) /\
    sframes s2 = {| ffn := f; fscopes := [bound_scope ps vs []] |} :: sframes s1 /\
    sglob s2 = sglob s1 /\ sstat s2 = sstat s1 /\ sout s2 = sout s1 /\
    args_eval ev ps es s vs s1 /\
    (forall x, scopes_get x [bound_scope ps vs []] =
               match assoc x (combine (map pname ps) (combine (map pty ps) vs)) with
               | Some (t, v) => Some (scalar_entry t v)
               | None => None
               end).
Proof.
  intros ev ps es s vs s1 f Hl Hn He.
  assert (Ha : args_eval ev ps es s vs s1) by (apply eval_args_spec; [lia|exact He]).
  exists (with_top_scope s1 f (bound_scope ps vs []) (sframes s1)).
  split; [|repeat split; try reflexivity; try assumption].
  - etransitivity; [exact (bind_supplied _ _ _ _ _ _ Ha s1 f [] (sframes s1))|]. rewrite Hl, skipn_all. reflexivity.
  - intros x. cbn [scopes_get]. rewrite bound_scope_lookup by assumption.
    destruct (assoc x (combine _ _)) as [[t v]|]; reflexivity.
Qed.
Print Assumptions args_positional.

(* Leaving out trailing arguments is the same as writing the declared defaults (literal defaults
   that fit their type): same value, same state, same output. *)
Theorem defaults_fill_trailing : forall funcs k f fd ps1 ps2 args zs s,
  find_func f funcs = Some fd -> fparams fd = ps1 ++ ps2 ->
  List.length args = List.length ps1 -> (required (fparams fd) <= List.length args)%nat ->
  Forall2 (fun p z => pdef p = Some (ENum z) /\ coerce (pty p) z = Val z) ps2 zs ->
  eval funcs (S (S k)) (ECall f args) s = eval funcs (S (S k)) (ECall f (args ++ map ENum zs)) s.
Proof.
  intros funcs k f fd ps1 ps2 args zs s Hf Hp Hl Hr HF.
  assert (Hlz : List.length zs = List.length ps2) by (symmetry; eapply Forall2_len; exact HF).
  assert (A1 : (required (fparams fd) <= List.length args <= List.length (fparams fd))%nat).
  { split; [exact Hr|]. rewrite Hp, app_length. lia. }
  assert (A2 : (required (fparams fd) <= List.length (args ++ map ENum zs) <= List.length (fparams fd))%nat).
  { rewrite !app_length, map_length. split; [lia|]. rewrite Hp, app_length. lia. }
  rewrite (call_unfold _ _ _ fd _ Hf A1), (call_unfold _ _ _ fd _ Hf A2).
  assert (Hn : forall z, eval funcs (S k) (ENum z) = ret z) by reflexivity.
  unfold bind at 1 4. rewrite Hp.
  (* the written-out literals evaluate to themselves ... *)
  rewrite (eval_args_lits _ ps1 ps2 args zs s Hn Hl).
  2: { eapply Forall2_weaken; [|exact HF]. cbn. tauto. }
  destruct (eval_args (eval funcs (S k)) (ps1 ++ ps2) args s) as [c s1] eqn:E. destruct c; try reflexivity.
  assert (Hla : List.length a = List.length ps1).
  { rewrite <- Hl. eapply args_eval_length, eval_args_spec; [|exact E]. rewrite app_length. lia. }
  unfold bind, m_push_frame, finally, map_ctl. cbn beta iota.
  (* ... and binding them is binding the defaults *)
  match goal with |- context [bind_params ?ev (ps1 ++ ps2) a ?st] =>
    replace (bind_params ev (ps1 ++ ps2) a st) with (bind_params ev (ps1 ++ ps2) (a ++ zs) st) end; [reflexivity|].
  rewrite <- (app_nil_r a) at 2. rewrite !bind_params_app by assumption.
  unfold bind. destruct (bind_params _ ps1 a _) as [c1 s2]. destruct c1; try reflexivity.
  apply bind_params_lits; [exact Hn|]. eapply Forall2_weaken; [|exact HF]. cbn. tauto.
Qed.
Print Assumptions defaults_fill_trailing.

(* Under the declaration rule (defaults are trailing) every parameter beyond the supplied ones has a
   default whenever the count passed the arity test, and binding them never reports a missing
   argument. *)
Theorem defaults_never_missing : forall ev ps n s c s',
  defaults_trailing ps = true -> (required ps <= n)%nat ->
  (forall d s0, fst (ev d s0) <> Fail EArity) ->
  bind_params ev (skipn n ps) [] s = (c, s') -> c <> Fail EArity.
Proof.
  intros ev ps n s c s' Ht Hr Hev. apply bind_params_no_missing; [apply defaults_present; assumption|].
  intros p d s0 _ _. apply Hev.
Qed.
Print Assumptions defaults_never_missing.

(* Too few or too many arguments: the call is rejected, nothing is evaluated, nothing changes. *)
Theorem arity_rejected : forall funcs k f fd args s,
  find_func f funcs = Some fd ->
  (List.length args < required (fparams fd) \/ List.length (fparams fd) < List.length args)%nat ->
  eval funcs (S k) (ECall f args) s = (Fail EArity, s).
Proof.
  intros funcs k f fd args s Hf Hn. rewrite eval_S_call, Hf.
  assert (E : (List.length args <? required (fparams fd))%nat || (List.length (fparams fd) <? List.length args)%nat = true).
  { apply orb_true_iff. destruct Hn; [left|right]; apply Nat.ltb_lt; assumption. }
  rewrite E. reflexivity.
Qed.
Print Assumptions arity_rejected.

(* The value given to `return` is the value of the call whenever it fits the declared result type -
   always for `long`. *)
Theorem return_value_unchanged : forall funcs k f fd args s vs s1 s2 v,
  find_func f funcs = Some fd ->
  (required (fparams fd) <= List.length args <= List.length (fparams fd))%nat ->
  eval_args (eval funcs k) (fparams fd) args s = (Val vs, s1) ->
  (bind_params (eval funcs k) (fparams fd) vs ;;; exec_list (exec funcs k) (fbody fd)) (fresh_frame f s1) = (Ret (Some v), s2) ->
  (match fret fd with Some t => coerce t v = Val v | None => True end) ->
  eval funcs (S k) (ECall f args) s = (Val v, pop_frame_st s2).
Proof.
  intros funcs k f fd args s vs s1 s2 v Hf Ha He Hb Hr.
  rewrite (call_unfold _ _ _ fd _ Hf Ha), (bind_val _ _ _ _ _ He), call_bracket_run.
  rewrite Hb. cbn [fst snd]. rewrite call_result_unchanged by exact Hr. reflexivity.
Qed.
Print Assumptions return_value_unchanged.

Theorem return_value_unchanged_long : forall v, in64 v = true -> coerce {| base := TLong; uns := false |} v = Val v.
Proof. intros v H. unfold coerce, in_range, range. cbn. unfold in64 in H. rewrite H. reflexivity. Qed.
Print Assumptions return_value_unchanged_long.

(* ================================================================== Ref: statics *)

(* A `static` declaration whose variable exists does nothing at all (the initialiser is not
   evaluated); the first execution stores the initial value under the running function's name. *)
Theorem static_init_once : forall funcs k cst t x,
  (forall init s, static_known (cur_fn s) x s -> exec funcs (S k) (SDecl cst true t x init) s = (Val tt, s)) /\
  (forall e s v s1 v', ~ static_known (cur_fn s) x s -> sframes s <> [] ->
     eval funcs k e s = (Val v, s1) -> sframes s1 = sframes s -> coerce t v = Val v' ->
     exists s2, exec funcs (S k) (SDecl cst true t x (Some e)) s = (Val tt, s2) /\
                assoc x (statics_of (cur_fn s) s2) = Some {| ety := t; econst := cst; edims := []; evals := [v'] |} /\
                sframes s2 = sframes s /\ sglob s2 = sglob s1 /\ sout s2 = sout s1).
Proof.
  intros funcs k cst t x. split.
  - intros init s H. rewrite exec_static_decl_eq. unfold bind, m_static_known. unfold static_known in H.
    destruct (assoc x (statics_of (cur_fn s) s)); [reflexivity|congruence].
  - intros e s v s1 v' Hk Hf He Hfr Hc. rewrite exec_static_decl_eq. unfold bind at 1. unfold m_static_known.
    unfold static_known in Hk. destruct (assoc x (statics_of (cur_fn s) s)); [exfalso; apply Hk; discriminate|].
    rewrite (bind_val _ _ _ _ _ He). unfold m_declare. cbn [coerce_all]. rewrite Hc.
    unfold cur_fn. rewrite <- Hfr in *. destruct s1 as [g1 fs1 st1 o1]. cbn [sframes sglob sstat sout] in *.
    destruct fs1 as [|f fr]; [congruence|].
    eexists. split; [reflexivity|]. cbn. unfold statics_of at 1. cbn. rewrite statics_of_set_same. cbn.
    rewrite Nat.eqb_refl. repeat split; reflexivity.
Qed.
Print Assumptions static_init_once.

(* Once a function's static exists it exists for the rest of the run, whatever is evaluated; frames
   coming and going never touch the statics table. *)
Theorem static_persists : forall funcs n,
  ((forall e, respects statics_grow (eval funcs n e)) /\ (forall st, respects statics_grow (exec funcs n st))) /\
  (forall f s, sstat (snd (m_push_frame f s)) = sstat s /\ sstat (pop_frame_st s) = sstat s /\
               sstat (pop_scope_st s) = sstat s /\ sstat (snd (m_push_scope s)) = sstat s).
Proof.
  intros. split; [apply statics_grow_all|]. intros f s. repeat split; cbn; try reflexivity.
  - unfold pop_scope_st. destruct (sframes s); reflexivity.
  - unfold m_push_scope. destruct (sframes s); reflexivity.
Qed.
Print Assumptions static_persists.

(* Statics are per function: only code running as g can change g's statics. *)
Theorem static_per_function : forall x i v sta cst t d vs s g, g <> cur_fn s ->
  statics_of g (snd (m_write x i v s)) = statics_of g s /\
  statics_of g (snd (m_declare sta cst t x d vs s)) = statics_of g s.
Proof. intros. split; [apply write_other_statics|apply declare_other_statics]; assumption. Qed.
Print Assumptions static_per_function.

(* ================================================================== Mech against Ref *)

(* find_variable agrees with the lexical lookup at every single lookup, under the side condition:
   [lm] = any stack below the running activation and [Gf] = any half-built callee frames on top, all
   of whose names are locals; the name looked up is not bound in the half-built frames and - while
   such frames exist - is not a static. *)
Theorem find_variable_agrees : forall funcs L Gn S, side_condition funcs L Gn S ->
  forall Gf lm rs x e, Inv L Gn S rs -> frames_in_L L lm -> ghosts_ok S Gf x ->
  get_entry x rs = Some e -> dget x (emb Gf lm rs) = Some e.
Proof. exact lookup_sim. Qed.
Print Assumptions find_variable_agrees.

(* The refinement: for EVERY program meeting the side condition (C08/Model.v: local names disjoint
   from global and static names, statics from globals; no argument mentions an earlier parameter of
   the callee or a static; static initialisers are literals), every fuel: the implementation model
   produces exactly Ref's transcript and outcome - unless Ref itself reports an unbound name. *)
Theorem dynamic_lookup_refines_lexical : forall p L S fuel,
  program_ok L S p -> snd (run fuel p) <> Failed EUnbound ->
  mech_run true fuel p = run fuel p.
Proof.
  intros p L S fuel [HSC Hmain] Hn. unfold run, mech_run in *.
  unfold init_state in *. destruct (init_globals (pglobals p) []) as [g|] eqn:Eg; [|reflexivity].
  pose proof (refine_all (pfuncs p) L (map gname (pglobals p)) S HSC fuel) as [_ IHx].
  assert (Hsim : sim L (map gname (pglobals p)) S [] [] (exec_list (mexec true (pfuncs p) fuel) (pmain p)) (exec_list (exec (pfuncs p) fuel) (pmain p))).
  { apply (stmts_sim _ _ _ _ fuel IHx); [exact Hmain|apply frames_in_L_nil]. }
  (* the initial state: main's empty activation, the declared globals, no statics *)
  assert (HI : Inv L (map gname (pglobals p)) S (state_with g)).
  { constructor.
    - eexists _, _. split; [reflexivity|]. intros x. cbn. congruence.
    - intros x Hx. cbn in Hx. destruct (init_globals_names _ _ _ x Eg Hx) as [H|H]; [exact H|cbn in H; congruence].
    - intros f x. cbn. congruence. }
  specialize (Hsim (state_with g) HI).
  change (emb [] [] (state_with g)) with (state_with g) in Hsim.
  destruct (exec_list (exec (pfuncs p) fuel) (pmain p) (state_with g)) as [c rs'] eqn:E. cbn [fst snd] in *.
  destruct Hsim as [Hm _].
  - intros ->. apply Hn. reflexivity.
  - rewrite Hm. reflexivity.
Qed.
Print Assumptions dynamic_lookup_refines_lexical.

(* the same, step by step: every expression (in any argument-evaluation context) and every statement *)
Theorem dynamic_lookup_refines_lexical_steps : forall funcs L Gn S, side_condition funcs L Gn S -> forall k,
  (forall e Gf lm, wf_expr funcs S e -> frames_in_L L lm -> frames_in_L L Gf ->
     (forall x, In x (vars e) -> ghosts_ok S Gf x) -> sim L Gn S Gf lm (meval true funcs k e) (eval funcs k e)) /\
  (forall st lm, wf_stmt funcs L S st -> frames_in_L L lm -> sim L Gn S [] lm (mexec true funcs k st) (exec funcs k st)).
Proof. exact refine_all. Qed.
Print Assumptions dynamic_lookup_refines_lexical_steps.

(* The side condition is satisfiable by programs that reuse every local name in every activation,
   own statics, read globals and use defaults. *)
Theorem side_condition_satisfiable :
  program_ok [1; 2; 3]%nat [70%nat] w_ok /\ mech_run true 60 w_ok = run 60 w_ok /\
  run 60 w_ok = ([OInt 34; ONl; OInt 30; OSp; OInt 34; OSp; OInt 5; ONl], Finished).
Proof.
  split; [exact w_ok_program_ok|]. split; [|exact (proj1 w_ok_runs)].
  apply dynamic_lookup_refines_lexical with (L := [1; 2; 3]%nat) (S := [70%nat]); [exact w_ok_program_ok|].
  rewrite (proj1 w_ok_runs). discriminate.
Qed.
Print Assumptions side_condition_satisfiable.

(* ================================================================== Mech: refuted without the side condition
   (each witness breaks one clause for every choice of L and S; main prints what Mech prints:
   known_findings/C08.json) *)

(* DESIGN #14: a name free in the callee resolves to the caller's local, not to the global *)
Theorem dynamic_lookup_refuted : exists p,
  (forall L S, ~ program_ok L S p) /\
  run 60 p = ([OInt 5; ONl; OInt 99; ONl], Finished) /\
  mech_run false 60 p = ([OInt 99; ONl; OInt 99; ONl], Finished).
Proof. exists w_free_name. split; [exact w_free_name_not_ok|]. exact (conj (proj1 w_free_name_runs) (proj1 (proj2 w_free_name_runs))). Qed.
Print Assumptions dynamic_lookup_refuted.

(* DESIGN #15: a static named like a global updates the global (statics are looked up last) *)
Theorem static_per_function_refuted : exists p,
  (forall L S, ~ program_ok L S p) /\
  run 60 p = ([OInt 1; ONl; OInt 2; ONl; OInt 7; ONl], Finished) /\
  mech_run false 60 p = ([OInt 8; ONl; OInt 9; ONl; OInt 9; ONl], Finished).
Proof. exists w_static_global. split; [exact w_static_global_not_ok|]. exact (conj (proj1 w_static_global_runs) (proj1 (proj2 w_static_global_runs))). Qed.
Print Assumptions static_per_function_refuted.

(* arguments are evaluated inside the callee's scope: f(n-1, acc+n) sees the new n; f(3,0) = 3, not 6 *)
Theorem recursion_levels_independent_refuted : exists p,
  (forall L S, ~ program_ok L S p) /\
  run 60 p = ([OInt 6; ONl], Finished) /\ mech_run false 60 p = ([OInt 3; ONl], Finished).
Proof. exists w_args_scope. split; [exact w_args_scope_not_ok|]. exact (conj (proj1 w_args_scope_runs) (proj1 (proj2 w_args_scope_runs))). Qed.
Print Assumptions recursion_levels_independent_refuted.

(* ... so binding is not positional: f(b, a, a) with a = 7, b = 8 receives (8, 8, 8) *)
Theorem args_positional_refuted : exists p,
  (forall L S, ~ program_ok L S p) /\
  run 60 p = ([OInt 877; ONl], Finished) /\ mech_run false 60 p = ([OInt 888; ONl], Finished).
Proof. exists w_positional. split; [exact w_positional_not_ok|]. exact (conj (proj1 w_positional_runs) (proj1 (proj2 w_positional_runs))). Qed.
Print Assumptions args_positional_refuted.

(* a callee assigning to a global's name changes the caller's local of that name: 10 becomes 15 *)
Theorem callee_cannot_touch_caller_frame_refuted : exists p,
  (forall L S, ~ program_ok L S p) /\
  run 60 p = ([OInt 6; ONl; OInt 10; ONl], Finished) /\ mech_run false 60 p = ([OInt 15; ONl; OInt 15; ONl], Finished).
Proof. exists w_caller_write. split; [exact w_caller_write_not_ok|]. exact (conj (proj1 w_caller_write_runs) (proj1 (proj2 w_caller_write_runs))). Qed.
Print Assumptions callee_cannot_touch_caller_frame_refuted.

(* a default mentioning a global is evaluated against the caller's local of that name *)
Theorem defaults_fill_trailing_refuted : exists p,
  (forall L S, ~ program_ok L S p) /\
  run 60 p = ([OInt 23; ONl], Finished) /\ mech_run false 60 p = ([OInt 28; ONl], Finished).
Proof. exists w_default_free. split; [exact w_default_free_not_ok|]. exact (conj (proj1 w_default_free_runs) (proj1 (proj2 w_default_free_runs))). Qed.
Print Assumptions defaults_fill_trailing_refuted.

(* a static's initialiser is evaluated on every execution of the declaration, twice on the first *)
Theorem static_init_once_refuted : exists p,
  (forall L S, ~ program_ok L S p) /\
  run 60 p = ([OInt 107; ONl; OInt 8; ONl; OInt 9; ONl], Finished) /\
  mech_run false 60 p = ([OInt 107; ONl; OInt 107; ONl; OInt 8; ONl; OInt 107; ONl; OInt 9; ONl], Finished).
Proof. exists w_static_init. split; [exact w_static_init_not_ok|]. exact (conj (proj1 w_static_init_runs) (proj1 (proj2 w_static_init_runs))). Qed.
Print Assumptions static_init_once_refuted.

(* a static handed to another function is "undefined": arguments are evaluated with the callee as
   current function, whose statics are searched instead of the caller's *)
Theorem static_persists_refuted : exists p,
  (forall L S, ~ program_ok L S p) /\
  run 60 p = ([OInt 7; ONl; OInt 8; ONl], Finished) /\ mech_run false 60 p = ([], Failed EUnbound).
Proof. exists w_static_arg. split; [exact w_static_arg_not_ok|]. exact (conj (proj1 w_static_arg_runs) (proj1 (proj2 w_static_arg_runs))). Qed.
Print Assumptions static_persists_refuted.

(* ================================================================== CbCall: results of every kind, every exit *)

(* The code's restore statements (6466, 6771, 6911, 7023) form a sound policy. *)
Theorem kinds_code_policy_sound : policy_ok code_policy = true.
Proof. reflexivity. Qed.
Print Assumptions kinds_code_policy_sound.

(* Whatever expression is evaluated - a call whose result is a long, int, bool, string, float, double,
   quad, struct, array, reference or nothing, leaving through the end of the body, a `return`, a
   re-thrown return or a runtime error, nested to any depth - the activation stack and the
   current-function register afterwards are exactly those before (Ref and Mech, every sound policy). *)
Theorem kinds_call_restores_caller : forall mech pol funcs n e s,
  policy_ok pol = true ->
  kframes (snd (keval mech pol funcs n e s)) = kframes s /\ kcur (snd (keval mech pol funcs n e s)) = kcur s.
Proof.
  intros mech pol funcs n e s H. destruct (discipline mech pol H funcs n) as [He _].
  destruct (He e s) as [H1 H2]. split; assumption.
Qed.
Print Assumptions kinds_call_restores_caller.

(* A statement changes the variables of the running activation only: the frames below, the function of
   the running frame and the register stay. *)
Theorem kinds_statement_keeps_activation : forall mech pol funcs n st s,
  policy_ok pol = true ->
  let s' := snd (kexec mech pol funcs n st s) in
  kcur s' = kcur s /\ top_fn (kframes s') = top_fn (kframes s) /\ tl (kframes s') = tl (kframes s).
Proof.
  intros mech pol funcs n st s H. destruct (discipline mech pol H funcs n) as [_ Hs]. exact (Hs st s).
Qed.
Print Assumptions kinds_statement_keeps_activation.

(* Looking a static up under the register (the implementation) is looking it up under the function of
   the running activation (the property): Mech = Ref on every program, for every sound policy. *)
Theorem kinds_register_equals_stack : forall pol fuel p,
  policy_ok pol = true -> k_run true pol fuel p = kref_run fuel p.
Proof. exact (fun pol fuel p H => mech_refines_ref pol fuel p H). Qed.
Print Assumptions kinds_register_equals_stack.

Theorem kinds_mech_equals_ref : forall fuel p, kmech_run fuel p = kref_run fuel p.
Proof. exact (fun fuel p => mech_refines_ref code_policy fuel p eq_refl). Qed.
Print Assumptions kinds_mech_equals_ref.

(* ... and ONLY for the sound ones: every policy that forgets a restore on some exit is separated from
   Ref by one program (w_exits: a void, a long, a string and a failing callee). *)
Theorem kinds_restore_policy_exact : forall pol,
  (forall fuel p, k_run true pol fuel p = kref_run fuel p) <-> policy_ok pol = true.
Proof.
  intro pol. split.
  - intro H. destruct (policy_ok pol) eqn:E; [reflexivity|].
    exfalso. apply (unsound_policy_separated pol E). apply H.
  - intros H fuel p. apply mech_refines_ref. exact H.
Qed.
Print Assumptions kinds_restore_policy_exact.

(* The filed change C08-1 as a policy: the caller of a string function goes on under the callee's
   name and counts in the callee's static (102, 104 instead of 2, 4). *)
Theorem kinds_seeded_change_refuted : exists p,
  policy_ok seeded_policy = false /\
  kref_run 40 p = ([KOVal KStr 0; KOSp; KOVal KLong 2; KONl; KOVal KInt 2; KONl;
                    KOVal KStr 0; KOSp; KOVal KLong 4; KONl; KOVal KInt 4; KONl], Finished) /\
  k_run true seeded_policy 40 p =
                   ([KOVal KStr 0; KOSp; KOVal KLong 102; KONl; KOVal KInt 102; KONl;
                     KOVal KStr 0; KOSp; KOVal KLong 104; KONl; KOVal KInt 104; KONl], Finished).
Proof. exists w_seeded. split; [reflexivity|]. split; [exact w_seeded_ref | exact w_seeded_bad]. Qed.
Print Assumptions kinds_seeded_change_refuted.

(* A store and a static declaration change the statics of the running function and of no other. *)
Theorem kinds_statics_private : forall mech x v k s g,
  g <> key mech s ->
  kstatics g (snd (k_write mech x v s)) = kstatics g s /\
  kstatics g (snd (k_static_declare mech k x v s)) = kstatics g s.
Proof.
  intros mech x v k s g Hne. split.
  - unfold k_write. destruct (k_get mech x s) as [e|]; [|reflexivity].
    destruct (kcoerce (kk e) v); try reflexivity. apply k_put_statics_private. exact Hne.
  - unfold k_static_declare. destruct (kcoerce k v); try reflexivity.
    unfold kstatics at 1. cbn. rewrite kset_stat_other by congruence. reflexivity.
Qed.
Print Assumptions kinds_statics_private.

(* Once known, a static stays known over every expression and statement (calls of every kind). *)
Theorem kinds_statics_persist : forall mech pol funcs n,
  (forall e s f x, assoc x (kstatics f s) <> None -> assoc x (kstatics f (snd (keval mech pol funcs n e s))) <> None) /\
  (forall st s f x, assoc x (kstatics f s) <> None -> assoc x (kstatics f (snd (kexec mech pol funcs n st s))) <> None).
Proof.
  intros mech pol funcs n.
  apply (generic_preservation mech pol funcs SK SK (fun s => SK_stat s s eq_refl) SK_trans SK_trans (fun a b H => H)).
  - intros x e s. unfold k_put. destruct (assoc x (top_vars _)); [apply SK_stat; reflexivity|].
    destruct (assoc x (kstatics _ s)); [|apply SK_stat; reflexivity].
    apply SK_set. intros y. apply assoc_set_known.
  - intros k x v s. unfold k_declare. destruct (kframes s); [apply SK_stat; reflexivity|].
    destruct (kcoerce k v); apply SK_stat; reflexivity.
  - intros k x v s. unfold k_static_declare. destruct (kcoerce k v); try (apply SK_stat; reflexivity).
    apply SK_set. intros y Hy. cbn. destruct (Nat.eqb y x); [discriminate|exact Hy].
  - intros o s. apply SK_stat. reflexivity.
  - intros fd inner Hin s f x H. unfold kstatics. rewrite k_call_stat.
    exact (Hin (push_frame (kfname fd) (with_cur (kfname fd) s)) f x H).
Qed.
Print Assumptions kinds_statics_persist.

(* A static is initialised once: the declaration of a known static is a no-op. *)
Theorem kinds_static_init_once : forall mech pol funcs n kd x e s,
  assoc x (kstatics (key mech s) s) <> None ->
  kexec mech pol funcs (S n) (KDecl true kd x e) s = (Val tt, s).
Proof.
  intros mech pol funcs n kd x e s H. rewrite kexec_static_eq. unfold kbind, k_static_known.
  destruct (assoc x (kstatics (key mech s) s)); [reflexivity|congruence].
Qed.
Print Assumptions kinds_static_init_once.

(* The value given to `return` is the value of the call, for every result kind and both return exits
   (an `int` result is range checked like a store). *)
Theorem kinds_return_value_unchanged : forall pol fd inner s v s2,
  inner (push_frame (kfname fd) (with_cur (kfname fd) s)) = (Ret (Some v), s2) ->
  (kfret fd <> KInt \/ kcoerce KInt v = Val v) ->
  fst (k_call pol fd inner s) = Val v.
Proof.
  intros pol fd inner s v s2 H Hk. unfold k_call. rewrite H.
  assert (Hc : kcoerce (kfret fd) v = Val v).
  { destruct Hk as [Hk|Hk]; destruct (kfret fd); try reflexivity; [congruence|exact Hk]. }
  destruct (rethrown (kfret fd)); exact Hc.
Qed.
Print Assumptions kinds_return_value_unchanged.

(* Positional binding for parameters of every kind: the body starts with parameter i := value i. *)
Theorem kinds_args_positional : forall ps vs s f r,
  kframes s = f :: r -> List.length vs = List.length ps ->
  (forall p v, In (p, v) (combine ps vs) -> kcoerce (kpk p) v = Val v) ->
  kbind_params ps vs s =
  (Val tt, with_frames ({| kfn := kfn f; kvars := rev (bound_vars ps vs) ++ kvars f |} :: r) s).
Proof.
  induction ps as [|p pr IH]; intros vs s f r Hf Hl Hc.
  - destruct vs; [|discriminate]. destruct s, f. cbn in *. subst. reflexivity.
  - destruct vs as [|v vr]; [discriminate|]. injection Hl as Hl.
    cbn [kbind_params]. unfold kbind at 1. unfold k_declare. cbv beta. rewrite Hf, (Hc p v (or_introl eq_refl)).
    rewrite (IH vr _ {| kfn := kfn f; kvars := (kpn p, {| kk := kpk p; kv := v |}) :: kvars f |} r);
      [|reflexivity|exact Hl|intros p0 v0 Hin; apply Hc; right; exact Hin].
    cbn. rewrite <- app_assoc. reflexivity.
Qed.
Print Assumptions kinds_args_positional.
