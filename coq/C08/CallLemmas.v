(* C08 - lemmas about calls in the shared reference interpreter Ref (coq/Lang/Sem.v).
   Frames: every statement keeps [below_kept] (nothing below the running frame changes, nor its
   identity and block depth) - by the generic induction of Lang/Respect.v -, and a call bracket
   restores the stack exactly ([frames_same]), hence so does every expression - by [P_eval], the
   induction over expressions alone.
   Statics: [statics_grow]; a store or declaration touches the running function's statics only.
   Arguments: [args_eval] is what [eval_args] computes, [bind_supplied] that binding the values is
   positional and leaves the defaults of the parameters beyond them; the declaration rule
   [defaults_trailing] under which no default is missing. *)
From Coq Require Import List ZArith Bool Lia.
From Cb Require Import Lang.Syntax Lang.Sem Lang.Respect Lang.Theorems.
Import ListNotations.
Local Open Scope Z_scope.

Lemma assoc_set_known {A} x y (a : A) l : assoc x (assoc_set y a l) <> None <-> assoc x l <> None.
Proof.
  rewrite assoc_assoc_set. destruct (Nat.eqb_spec x y) as [->|_]; [|tauto].
  destruct (assoc y l); split; congruence.
Qed.

(* [set_stat] of the interpreter and [kset_stat] of CbCall (Kinds.v): replace the entry, or add it *)
Lemma upsert_same {A} f (a : A) l :
  assoc f (match assoc f l with Some _ => assoc_set f a l | None => (f, a) :: l end) = Some a.
Proof.
  destruct (assoc f l) eqn:E; [rewrite assoc_assoc_set, Nat.eqb_refl, E|cbn; rewrite Nat.eqb_refl]; reflexivity.
Qed.
Lemma upsert_other {A} f g (a : A) l :
  f <> g -> assoc g (match assoc f l with Some _ => assoc_set f a l | None => (f, a) :: l end) = assoc g l.
Proof.
  intro Hn. apply Nat.eqb_neq in Hn. rewrite Nat.eqb_sym in Hn.
  destruct (assoc f l); [rewrite assoc_assoc_set|cbn]; rewrite Hn; reflexivity.
Qed.

(* what a running activation may change of the frame stack: nothing below its own frame, and neither
   the identity nor the block depth of its own frame *)
Definition top_shape (s : state) : list (ident * nat) :=
  map (fun f => (ffn f, List.length (fscopes f))) (firstn 1 (sframes s)).
Definition below_kept (s s' : state) : Prop :=
  tl (sframes s') = tl (sframes s) /\ top_shape s' = top_shape s.
Definition frames_same (s s' : state) : Prop := sframes s' = sframes s.

Lemma below_kept_refl s : below_kept s s. Proof. split; reflexivity. Qed.
Lemma below_kept_trans a b c : below_kept a b -> below_kept b c -> below_kept a c.
Proof. intros [H1 H2] [H3 H4]. split; congruence. Qed.
Lemma frames_same_refl s : frames_same s s. Proof. reflexivity. Qed.
Lemma frames_same_trans a b c : frames_same a b -> frames_same b c -> frames_same a c.
Proof. unfold frames_same. congruence. Qed.
Lemma frames_same_below s s' : frames_same s s' -> below_kept s s'.
Proof. unfold frames_same, below_kept, top_shape. intros ->. split; reflexivity. Qed.

Lemma put_entry_below x e s : below_kept s (put_entry x e s).
Proof.
  destruct s as [g fs st o]. unfold put_entry, below_kept, top_shape. cbn [sframes sglob sstat sout].
  destruct fs as [|f fr]; cbn; [split; reflexivity|].
  destruct (scopes_get x (fscopes f)); cbn.
  - rewrite scopes_set_length. split; reflexivity.
  - destruct (assoc x _); cbn; split; reflexivity.
Qed.

(* a store leaves the state alone or is a [put_entry] *)
Lemma write_of_put (R : state -> state -> Prop) x i v s :
  R s s -> (forall e, R s (put_entry x e s)) -> R s (snd (m_write x i v s)).
Proof.
  intros Hr Hp. unfold m_write. destruct (get_entry x s) as [e|]; [|exact Hr].
  destruct (econst e); [exact Hr|]. destruct (flat_index _ _ _); [|exact Hr].
  destruct (coerce _ _); try exact Hr. apply Hp.
Qed.

Lemma write_below x i v : respects below_kept (m_write x i v).
Proof. intros s. apply write_of_put; [apply below_kept_refl|intro; apply put_entry_below]. Qed.
Lemma declare_below sta cst t x d vs : respects below_kept (m_declare sta cst t x d vs).
Proof.
  intros s. destruct s as [g fs st o]. unfold m_declare. cbn [sframes sglob sstat sout].
  destruct (coerce_all t vs); try apply below_kept_refl.
  destruct fs as [|f fr]; [cbn; split; reflexivity|].
  destruct sta; [cbn; split; reflexivity|].
  destruct f as [fn scs]. destruct scs as [|sc scs]; cbn; split; reflexivity.
Qed.
Lemma out_below o : respects below_kept (m_out o).
Proof. intros s. cbn. split; reflexivity. Qed.

(* a block leaves the frame stack as it found it, up to what its inside does to the frames below
   (nothing) and to the shape of the top frame (nothing) *)
Lemma block_below A (m : M A) : respects below_kept m -> respects below_kept (m_push_scope ;;; finally m pop_scope_st).
Proof.
  intros Hm s. destruct s as [g fs st o]. unfold bind, m_push_scope. cbn [sframes sglob sstat sout].
  destruct fs as [|f fr]; [apply below_kept_refl|].
  unfold finally.
  match goal with |- context [m ?s1] => specialize (Hm s1); destruct (m s1) as [c s2] end.
  cbn [snd] in *. destruct Hm as [H1 H2]. destruct s2 as [g2 fs2 st2 o2]. unfold top_shape in *. cbn in H1, H2.
  unfold pop_scope_st. cbn [sframes sglob sstat sout]. destruct fs2 as [|f2 fr2]; [discriminate|].
  cbn in H1, H2. injection H2 as Hf Hl. subst fr2.
  unfold below_kept, top_shape. cbn. split; [reflexivity|].
  rewrite Hf. destruct (fscopes f2); cbn in *; [discriminate|]. injection Hl as ->. reflexivity.
Qed.

(* a call bracket restores the frame stack exactly *)
Lemma frame_exact A f (m : M A) : respects below_kept m -> respects frames_same (m_push_frame f ;;; finally m pop_frame_st).
Proof.
  intros Hm s. unfold bind, m_push_frame, finally.
  match goal with |- context [m ?s1] => specialize (Hm s1); destruct (m s1) as [c s2] end.
  cbn [snd] in *. destruct Hm as [H1 _]. cbn in H1. unfold frames_same, pop_frame_st. cbn. exact H1.
Qed.
Lemma frame_below A f (m : M A) : respects below_kept m -> respects below_kept (m_push_frame f ;;; finally m pop_frame_st).
Proof. intros Hm s. apply frames_same_below. apply frame_exact. exact Hm. Qed.

Lemma below_kept_all funcs n :
  (forall e, respects below_kept (eval funcs n e)) /\ (forall st, respects below_kept (exec funcs n st)).
Proof.
  apply eval_exec_respect.
  - exact below_kept_refl.
  - exact below_kept_trans.
  - exact write_below.
  - exact declare_below.
  - exact out_below.
  - exact block_below.
  - exact frame_below.
Qed.

(* the inside of a call bracket never changes a frame below the new one *)
Lemma call_inside_below funcs k ps vs body :
  respects below_kept (bind_params (eval funcs k) ps vs ;;; exec_list (exec funcs k) body).
Proof.
  apply (r_bind _ below_kept_trans).
  - apply (r_bind_params below_kept below_kept_refl below_kept_trans declare_below). apply (proj1 (below_kept_all funcs k)).
  - intros _. apply (r_exec_list below_kept below_kept_refl below_kept_trans). apply (proj2 (below_kept_all funcs k)).
Qed.

Lemma statics_of_set_other f g sc l : f <> g -> assoc g (set_stat f sc l) = assoc g l.
Proof. apply upsert_other. Qed.
Lemma statics_of_set_same f sc l : assoc f (set_stat f sc l) = Some sc.
Proof. apply upsert_same. Qed.

(* a store changes the top frame, or the statics of the running function, or the globals - never a
   caller's frame (above) and never another function's statics *)
Lemma put_entry_other_statics x e s g : g <> cur_fn s -> statics_of g (put_entry x e s) = statics_of g s.
Proof.
  destruct s as [gl fs st o]. unfold put_entry, cur_fn, statics_of. cbn [sframes sglob sstat sout].
  destruct fs as [|f fr]; cbn; [reflexivity|]. intros Hn.
  destruct (scopes_get x (fscopes f)); cbn; [reflexivity|].
  destruct (assoc x _); cbn; [|reflexivity].
  rewrite statics_of_set_other; [reflexivity|congruence].
Qed.
Lemma write_other_statics x i v s g : g <> cur_fn s -> statics_of g (snd (m_write x i v s)) = statics_of g s.
Proof.
  intros Hn. apply (write_of_put (fun s s' => statics_of g s' = statics_of g s)); [reflexivity|].
  intro. apply put_entry_other_statics. exact Hn.
Qed.
Lemma declare_other_statics sta cst t x d vs s g : g <> cur_fn s -> statics_of g (snd (m_declare sta cst t x d vs s)) = statics_of g s.
Proof.
  intros Hn. destruct s as [gl fs st o]. unfold m_declare, cur_fn in *. cbn [sframes sglob sstat sout] in *.
  destruct (coerce_all t vs); try reflexivity.
  destruct fs as [|f fr]; [reflexivity|]. destruct sta; cbn.
  - unfold statics_of. cbn. rewrite statics_of_set_other; [reflexivity|congruence].
  - destruct (fscopes f); reflexivity.
Qed.

Definition static_known (g x : ident) (s : state) : Prop := assoc x (statics_of g s) <> None.
Definition statics_grow (s s' : state) : Prop := forall g x, static_known g x s -> static_known g x s'.
Lemma statics_grow_refl s : statics_grow s s. Proof. intros g x H. exact H. Qed.
Lemma statics_grow_trans a b c : statics_grow a b -> statics_grow b c -> statics_grow a c.
Proof. intros H1 H2 g x H. apply H2, H1, H. Qed.

(* a store creates no static and forgets none *)
Lemma put_entry_static_names x e s g y : static_known g y (put_entry x e s) <-> static_known g y s.
Proof.
  destruct s as [gl fs st o]. unfold static_known, put_entry, statics_of. cbn [sframes sglob sstat sout].
  destruct fs as [|f fr]; cbn; [tauto|].
  destruct (scopes_get x (fscopes f)); cbn; [tauto|].
  destruct (assoc x _) eqn:E; cbn; [|tauto].
  destruct (Nat.eq_dec g (ffn f)) as [->|Hn].
  - rewrite statics_of_set_same. apply assoc_set_known.
  - rewrite statics_of_set_other by congruence. tauto.
Qed.
Lemma write_statics_grow x i v : respects statics_grow (m_write x i v).
Proof.
  intros s. apply write_of_put; [apply statics_grow_refl|]. intros e g y. apply put_entry_static_names.
Qed.
Lemma declare_statics_grow sta cst t x d vs : respects statics_grow (m_declare sta cst t x d vs).
Proof.
  intros s. destruct s as [gl fs st o]. unfold m_declare. cbn [sframes sglob sstat sout].
  destruct (coerce_all t vs); try apply statics_grow_refl.
  destruct fs as [|f fr]; [intros g y H; exact H|]. destruct sta; cbn.
  - intros g y. unfold static_known, statics_of. cbn.
    destruct (Nat.eq_dec g (ffn f)) as [->|Hn].
    + rewrite statics_of_set_same. cbn. destruct (Nat.eqb y x); [congruence|tauto].
    + rewrite statics_of_set_other by congruence. tauto.
  - destruct (fscopes f); intros g y H; exact H.
Qed.

Lemma statics_grow_all funcs n :
  (forall e, respects statics_grow (eval funcs n e)) /\ (forall st, respects statics_grow (exec funcs n st)).
Proof.
  apply eval_exec_respect.
  - exact statics_grow_refl.
  - exact statics_grow_trans.
  - exact write_statics_grow.
  - exact declare_statics_grow.
  - intros o s g x H. exact H.
  - apply block_of_prims; [exact statics_grow_trans| |].
    + intros s. unfold m_push_scope. destruct (sframes s); intros g x H; exact H.
    + intros s. unfold pop_scope_st. destruct (sframes s); intros g x H; exact H.
  - apply frame_of_prims; [exact statics_grow_trans| |].
    + intros f s g x H. exact H.
    + intros s g x H. exact H.
Qed.

Lemma exec_static_decl_eq funcs k cst t x init : exec funcs (S k) (SDecl cst true t x init) =
  (known <- m_static_known x ;;
   if known then ret tt
   else v <- (match init with Some e => eval funcs k e | None => ret 0 end) ;; m_declare true cst t x [] [v]).
Proof. reflexivity. Qed.

Lemma call_unfold funcs k f fd args :
  find_func f funcs = Some fd ->
  (required (fparams fd) <= List.length args <= List.length (fparams fd))%nat ->
  eval funcs (S k) (ECall f args) =
  (vs <- eval_args (eval funcs k) (fparams fd) args ;;
   m_push_frame f ;;;
   finally (map_ctl (call_result (fret fd))
              (bind_params (eval funcs k) (fparams fd) vs ;;; exec_list (exec funcs k) (fbody fd))) pop_frame_st).
Proof.
  intros Hf [H1 H2]. rewrite eval_S_call, Hf.
  assert (E : (List.length args <? required (fparams fd))%nat || (List.length (fparams fd) <? List.length args)%nat = false).
  { apply orb_false_iff. split; apply Nat.ltb_ge; assumption. }
  rewrite E. reflexivity.
Qed.

Lemma bind_unfold {A B} (m : M A) (f : A -> M B) s :
  bind m f s = match m s with
               | (Val a, s') => f a s'
               | (Brk, s') => (Brk, s') | (Cnt, s') => (Cnt, s') | (Ret v, s') => (Ret v, s') | (Fail e, s') => (Fail e, s')
               end.
Proof. reflexivity. Qed.

Definition fresh_frame (f : ident) (s : state) : state := snd (m_push_frame f s).
Lemma call_bracket_run {A B} f (g : ctl A -> ctl B) (m : M A) s :
  (m_push_frame f ;;; finally (map_ctl g m) pop_frame_st) s =
  (g (fst (m (fresh_frame f s))), pop_frame_st (snd (m (fresh_frame f s)))).
Proof. unfold bind, fresh_frame, m_push_frame, finally, map_ctl. cbn [snd]. destruct (m _); reflexivity. Qed.

(* the values handed to the callee: argument i evaluated in the caller, in order, each converted to
   the type of parameter i *)
Inductive args_eval (ev : expr -> M Z) : list param -> list expr -> state -> list Z -> state -> Prop :=
| ae_nil ps s : args_eval ev ps [] s [] s
| ae_cons p pr e r s w s1 v vs s2 :
    ev e s = (Val w, s1) -> coerce (pty p) w = Val v -> args_eval ev pr r s1 vs s2 ->
    args_eval ev (p :: pr) (e :: r) s (v :: vs) s2.

Lemma args_eval_run ev ps es s vs s' : args_eval ev ps es s vs s' -> eval_args ev ps es s = (Val vs, s').
Proof.
  induction 1 as [|p pr e r s w s1 v vs s2 He Hc _ IH]; [reflexivity|].
  cbn [eval_args]. unfold bind, lift, ret. rewrite He, Hc, IH. reflexivity.
Qed.
Lemma eval_args_spec ev ps es s vs s' :
  (List.length es <= List.length ps)%nat ->
  eval_args ev ps es s = (Val vs, s') <-> args_eval ev ps es s vs s'.
Proof.
  intros Hl. split; [|apply args_eval_run].
  revert ps s vs Hl. induction es as [|e r IH]; intros ps s vs Hl; [intros [= <- <-]; constructor|].
  destruct ps as [|p pr]; [cbn in Hl; lia|]. cbn in Hl. cbn [eval_args]. intros H.
  apply bind_inv_val in H as (w & s1 & E1 & H). apply bind_inv_val in H as (v & s1' & E2 & H).
  apply bind_inv_val in H as (vs' & s2 & E3 & [= <- <-]). injection E2 as E2 <-.
  econstructor; eauto. apply IH; [lia|exact E3].
Qed.
Lemma args_eval_length ev ps es s vs s' : args_eval ev ps es s vs s' -> List.length vs = List.length es.
Proof. induction 1; cbn; congruence. Qed.

(* binding: parameter i receives value i *)
Definition scalar_entry (t : ty) (v : Z) : entry := {| ety := t; econst := false; edims := []; evals := [v] |}.

Fixpoint bound_scope (ps : list param) (vs : list Z) (acc : scope) : scope :=
  match ps, vs with
  | p :: pr, v :: vr => bound_scope pr vr ((pname p, scalar_entry (pty p) v) :: acc)
  | _, _ => acc
  end.

Definition with_top_scope (s : state) (f : ident) (sc : scope) (fr : list frame) : state :=
  {| sglob := sglob s; sframes := {| ffn := f; fscopes := [sc] |} :: fr; sstat := sstat s; sout := sout s |}.

Lemma coerce_idem t v v' : coerce t v = Val v' -> coerce t v' = Val v'.
Proof.
  unfold coerce. destruct (uns t && (v <? 0)) eqn:E.
  - intros [= <-]. apply andb_true_iff in E as [E _]. rewrite E. cbn.
    unfold in_range, range. rewrite E. destruct (base t); reflexivity.
  - destruct (in_range t v) eqn:E2; [|discriminate]. intros [= <-]. rewrite E, E2. reflexivity.
Qed.

(* binding the supplied values puts them, in order, into the callee's scope; what is left to bind are
   the parameters beyond the arguments, from their defaults *)
Lemma bind_supplied ev ps es s vs s1 : args_eval ev ps es s vs s1 -> forall st f acc fr,
  bind_params ev ps vs (with_top_scope st f acc fr) =
  bind_params ev (skipn (List.length es) ps) [] (with_top_scope st f (bound_scope ps vs acc) fr).
Proof.
  induction 1 as [ps s|p pr e r s w s1 v vs s2 _ Hc _ IH]; intros st f acc fr; [destruct ps; reflexivity|].
  cbn [bind_params bound_scope List.length skipn]. unfold bind at 1. unfold m_declare. cbn [coerce_all].
  rewrite (coerce_idem _ _ _ Hc). exact (IH st f ((pname p, scalar_entry (pty p) v) :: acc) fr).
Qed.

Lemma assoc_combine_fresh {A} x xs (ys : list A) : ~ In x xs -> assoc x (combine xs ys) = None.
Proof.
  revert ys. induction xs as [|y r IH]; intros ys H; [reflexivity|]. destruct ys as [|a ar]; [reflexivity|].
  cbn. destruct (Nat.eqb_spec x y) as [->|_]; [exfalso; apply H; left; reflexivity|].
  apply IH. intro Hin. apply H. right. exact Hin.
Qed.

(* [bound_scope] lets a later parameter shadow an earlier one, [combine] the other way round: with
   distinct names the two agree *)
Lemma bound_scope_lookup ps vs acc x :
  NoDup (map pname ps) ->
  assoc x (bound_scope ps vs acc) =
  match assoc x (combine (map pname ps) (combine (map pty ps) vs)) with
  | Some (t, v) => Some (scalar_entry t v)
  | None => assoc x acc
  end.
Proof.
  revert vs acc. induction ps as [|p pr IH]; intros vs acc Hn.
  - destruct vs; reflexivity.
  - destruct vs as [|v vr]; [reflexivity|]. cbn [bound_scope map combine assoc].
    inversion Hn; subst. rewrite IH by assumption.
    destruct (Nat.eqb_spec x (pname p)) as [->|Hne].
    + rewrite assoc_combine_fresh by assumption. cbn. rewrite Nat.eqb_refl. reflexivity.
    + destruct (assoc x (combine (map pname pr) (combine (map pty pr) vr))) as [[t w]|]; [reflexivity|].
      cbn. destruct (Nat.eqb_spec x (pname p)); [contradiction|reflexivity].
Qed.

Lemma bound_scope_names ps vs acc x :
  assoc x (bound_scope ps vs acc) <> None -> assoc x acc <> None \/ In x (map pname ps).
Proof.
  revert vs acc. induction ps as [|p pr IH]; intros vs acc; [destruct vs; cbn; tauto|].
  destruct vs as [|v vr]; [cbn; tauto|]. cbn [bound_scope map]. intros H. apply IH in H as [H|H].
  - cbn in H. destruct (Nat.eqb x (pname p)) eqn:E; [apply Nat.eqb_eq in E; right; left; congruence|left; exact H].
  - right. right. exact H.
Qed.

Lemma bind_params_default_eq ev p pr :
  bind_params ev (p :: pr) [] =
  match pdef p with
  | Some d => v <- ev d ;; m_declare false false (pty p) (pname p) [] [v] ;;; bind_params ev pr []
  | None => fail EArity
  end.
Proof. reflexivity. Qed.

Lemma bind_params_app ev ps1 ps2 vs ws s :
  List.length vs = List.length ps1 ->
  bind_params ev (ps1 ++ ps2) (vs ++ ws) s = (bind_params ev ps1 vs ;;; bind_params ev ps2 ws) s.
Proof.
  revert vs s. induction ps1 as [|p pr IH]; intros vs s Hl.
  - destruct vs; [|discriminate]. reflexivity.
  - destruct vs as [|v vr]; [discriminate|]. cbn [app bind_params]. unfold bind.
    destruct (m_declare false false (pty p) (pname p) [] [v] s) as [c s1]. destruct c; try reflexivity.
    rewrite IH by (cbn in Hl; lia). reflexivity.
Qed.

Definition has_default (p : param) : bool := match pdef p with Some _ => true | None => false end.
(* the declaration rule of the parser: once a parameter has a default, all later ones have one *)
Fixpoint defaults_trailing (ps : list param) : bool :=
  match ps with
  | [] => true
  | p :: r => if has_default p then forallb has_default r else defaults_trailing r
  end.

Lemma required_all_default ps : forallb has_default ps = true -> required ps = 0%nat.
Proof.
  unfold required. induction ps as [|p r IH]; [reflexivity|]. cbn. unfold has_default at 1.
  destruct (pdef p); [|discriminate]. intros H. apply IH. exact H.
Qed.
Lemma required_le ps : (required ps <= List.length ps)%nat.
Proof. unfold required. induction ps as [|p r IH]; cbn; [lia|]. destruct (pdef p); cbn; lia. Qed.

Lemma forallb_skipn {A} (f : A -> bool) n l : forallb f l = true -> forallb f (skipn n l) = true.
Proof.
  revert l. induction n as [|n IH]; intros l H; [exact H|]. destruct l as [|a r]; [reflexivity|].
  cbn in H. apply andb_true_iff in H as [_ H]. apply IH, H.
Qed.

(* with that rule, every parameter beyond the first [n >= required] ones has a default, so binding
   never runs into a missing value *)
Lemma defaults_present ps n :
  defaults_trailing ps = true -> (required ps <= n)%nat -> forallb has_default (skipn n ps) = true.
Proof.
  revert n. induction ps as [|p r IH]; intros n Ht Hr; [destruct n; reflexivity|].
  cbn in Ht. destruct (has_default p) eqn:E.
  - apply forallb_skipn. cbn. rewrite E. exact Ht.
  - unfold required in Hr. cbn in Hr. unfold has_default in E. destruct (pdef p); [discriminate|]. cbn in Hr.
    destruct n; [lia|]. cbn. apply IH; [exact Ht|]. unfold required. lia.
Qed.

Lemma bind_params_no_missing ev ps s c s' :
  forallb has_default ps = true ->
  (forall p d s0, In p ps -> pdef p = Some d -> fst (ev d s0) <> Fail EArity) ->
  bind_params ev ps [] s = (c, s') -> c <> Fail EArity.
Proof.
  intros Hd. revert s. induction ps as [|p r IH]; intros s Hev; [cbn; intros [= <- <-]; discriminate|].
  cbn in Hd. apply andb_true_iff in Hd as [H1 H2]. rewrite bind_params_default_eq.
  assert (IHr := fun s1 => IH H2 s1 (fun q d s0 Hq => Hev q d s0 (or_intror Hq))).
  unfold has_default in H1. destruct (pdef p) as [d|] eqn:Ed; [|discriminate].
  unfold bind. specialize (Hev p d s (or_introl eq_refl) Ed). destruct (ev d s) as [c1 s1]. cbn in Hev.
  destruct c1; try (intros [= <- <-]; congruence).
  unfold m_declare. cbn [coerce_all]. destruct (coerce (pty p) a) eqn:Ec; try (intros [= <- <-]; discriminate).
  - destruct (sframes s1) as [|f fr]; [apply IHr|]. destruct (fscopes f); [intros [= <- <-]; discriminate|apply IHr].
  - intros [= <- <-]. unfold coerce in Ec. destruct (_ && _); [discriminate|]. destruct (in_range _ _); [discriminate|]. injection Ec as <-. discriminate.
Qed.

(* omitting trailing arguments means passing the declared defaults: for literal defaults that fit
   their parameter type, the call with the arguments left out is the call with them written out *)
Lemma eval_args_lits ev ps1 ps2 args zs s :
  (forall z, ev (ENum z) = ret z) ->
  List.length args = List.length ps1 ->
  Forall2 (fun p z => coerce (pty p) z = Val z) ps2 zs ->
  eval_args ev (ps1 ++ ps2) (args ++ map ENum zs) s =
  match eval_args ev (ps1 ++ ps2) args s with
  | (Val vs, s') => (Val (vs ++ zs), s')
  | other => other
  end.
Proof.
  intros Hn. revert ps1 s. induction args as [|e r IH]; intros ps1 s Hl HF.
  - destruct ps1; [|discriminate]. cbn [app]. cbn [eval_args]. unfold ret.
    revert s. induction HF as [|p z pr zr Hc HF IHF]; intros s; [reflexivity|].
    cbn [map eval_args]. rewrite Hn. unfold bind, ret, lift. rewrite Hc. rewrite IHF. reflexivity.
  - destruct ps1 as [|p pr]; [discriminate|]. cbn [app eval_args]. unfold bind.
    destruct (ev e s) as [c s1]. destruct c; try reflexivity.
    unfold lift. destruct (coerce (pty p) a); try reflexivity.
    rewrite IH by (cbn in Hl; lia || assumption).
    destruct (eval_args ev (pr ++ ps2) r s1) as [c2 s2]. destruct c2; reflexivity.
Qed.

Lemma bind_params_lits ev ps zs s :
  (forall z, ev (ENum z) = ret z) ->
  Forall2 (fun p z => pdef p = Some (ENum z)) ps zs ->
  bind_params ev ps zs s = bind_params ev ps [] s.
Proof.
  intros Hn HF. revert s. induction HF as [|p z pr zr Hd HF IH]; intros s; [reflexivity|].
  rewrite bind_params_default_eq, Hd, Hn. cbn [bind_params]. unfold bind, ret.
  destruct (m_declare false false (pty p) (pname p) [] [z] s) as [c s1]. destruct c; try reflexivity. apply IH.
Qed.

Lemma Forall2_len {A B} (P : A -> B -> Prop) l1 l2 : Forall2 P l1 l2 -> List.length l1 = List.length l2.
Proof. induction 1; cbn; congruence. Qed.

Lemma Forall2_weaken {A B} (P Q : A -> B -> Prop) l1 l2 : (forall a b, P a b -> Q a b) -> Forall2 P l1 l2 -> Forall2 Q l1 l2.
Proof. intros H. induction 1; constructor; auto. Qed.

(* a value that fits the declared result type (every int64 value for `long`) reaches the caller as
   the value of the call, unchanged *)
Lemma call_result_unchanged rt v : (match rt with Some t => coerce t v = Val v | None => True end) ->
  call_result rt (Ret (Some v)) = Val v.
Proof. destruct rt; cbn; intros H; [exact H|reflexivity]. Qed.

(* break / continue / return never escape an expression: its outcome is a value or an error *)
Definition val_or_fail {A} (c : ctl A) : Prop := match c with Val _ | Fail _ => True | _ => False end.
Lemma chk_vf z : val_or_fail (chk z). Proof. unfold chk. destruct (in64 z); exact I. Qed.
Lemma arith_vf o a b : val_or_fail (arith o a b).
Proof. destruct (arith_val_or_fail o a b) as [[z ->]|[e ->]]; exact I. Qed.
Lemma unarith_vf o a : val_or_fail (unarith o a).
Proof. destruct o; cbn; try apply chk_vf; exact I. Qed.
Lemma coerce_vf t v : val_or_fail (coerce t v).
Proof. unfold coerce. destruct (_ && _); [exact I|]. destruct (in_range t v); exact I. Qed.
Lemma call_result_vf rt c : val_or_fail (call_result rt c).
Proof. destruct c as [u| | |[v|]|e]; cbn; try exact I. destruct rt; [apply coerce_vf|exact I]. Qed.

(* the induction over expressions alone: a predicate on computations that holds of a value or an error
   delivered without touching the state, of a read and of a call bracket around parameter binding and
   body, and that sequencing keeps, holds of every evaluation of every expression *)
Section Expressions.
Variable funcs : list func.
Variable P : forall A, M A -> Prop.
Hypothesis P_lift : forall A (c : ctl A), val_or_fail c -> P A (lift c).
Hypothesis P_read : forall x i, P Z (m_read x i).
Hypothesis P_bind : forall A B (m : M A) (f : A -> M B), P A m -> (forall a, P B (f a)) -> P B (bind m f).
Hypothesis P_call : forall k f fd vs,
  P Z (m_push_frame f ;;;
       finally (map_ctl (call_result (fret fd))
                  (bind_params (eval funcs k) (fparams fd) vs ;;; exec_list (exec funcs k) (fbody fd))) pop_frame_st).

Lemma P_eval_list ev es : (forall e, P Z (ev e)) -> P (list Z) (eval_list ev es).
Proof.
  intros H. induction es as [|e r IH]; cbn [eval_list]; [apply P_lift; exact I|].
  apply P_bind; [apply H|]. intros v. apply P_bind; [exact IH|]. intros vs. apply P_lift. exact I.
Qed.
Lemma P_eval_args ev ps es : (forall e, P Z (ev e)) -> P (list Z) (eval_args ev ps es).
Proof.
  intros H. revert ps. induction es as [|e r IH]; intros ps; cbn [eval_args]; [apply P_lift; exact I|].
  apply P_bind; [apply H|]. intros v. destruct ps as [|p pr].
  - apply P_bind; [apply IH|]. intros. apply P_lift. exact I.
  - apply P_bind; [apply P_lift, coerce_vf|]. intros. apply P_bind; [apply IH|]. intros. apply P_lift. exact I.
Qed.
Theorem P_eval n : forall e, P Z (eval funcs n e).
Proof.
  induction n as [|k IH]; intros e; [apply P_lift; exact I|].
  destruct e; simpl eval.   (* cbn [eval] would leave exec as an unfolded fix in the call case *)
  - apply P_lift. exact I.
  - apply P_read.
  - apply P_bind; [apply IH|]. intros. apply P_lift, unarith_vf.
  - apply P_bind; [apply IH|]. intros. apply P_bind; [apply IH|]. intros. apply P_lift, arith_vf.
  - apply P_bind; [apply IH|]. intros x. destruct (x =? 0); [apply P_lift; exact I|].
    apply P_bind; [apply IH|]. intros. apply P_lift. exact I.
  - apply P_bind; [apply IH|]. intros x. destruct (x =? 0); [|apply P_lift; exact I].
    apply P_bind; [apply IH|]. intros. apply P_lift. exact I.
  - apply P_bind; [apply IH|]. intros x. destruct (x =? 0); apply IH.
  - destruct (find_func f funcs) as [fd|]; [|apply P_lift; exact I].
    match goal with |- P _ (if ?c then _ else _) => destruct c end; [apply P_lift; exact I|].
    apply P_bind; [apply P_eval_args; exact IH|]. intros vs. apply P_call.
  - apply P_bind; [apply P_eval_list; exact IH|]. intros. apply P_read.
Qed.
End Expressions.

Definition vf {A} (m : M A) : Prop := forall s, val_or_fail (fst (m s)).
Lemma vf_bind {A B} (m : M A) (f : A -> M B) : vf m -> (forall a, vf (f a)) -> vf (bind m f).
Proof.
  intros Hm Hf s. unfold bind. specialize (Hm s). destruct (m s) as [c s1]. cbn in Hm. destruct c; try contradiction; cbn; [apply Hf|exact I].
Qed.
Lemma vf_lift {A} (c : ctl A) : val_or_fail c -> vf (lift c).
Proof. intros H s. exact H. Qed.
Lemma vf_eval funcs n e : vf (eval funcs n e).
Proof.
  apply (P_eval funcs (@vf) (@vf_lift)); [|exact @vf_bind|].
  - intros x i s. unfold m_read. destruct (get_entry x s); [|exact I]. destruct (flat_index _ _ _); exact I.
  - intros k f fd vs s. rewrite call_bracket_run. apply call_result_vf.
Qed.
Lemma vf_eval_args funcs n ps es : vf (eval_args (eval funcs n) ps es).
Proof. apply (P_eval_args (@vf) (@vf_lift) (@vf_bind)), vf_eval. Qed.
