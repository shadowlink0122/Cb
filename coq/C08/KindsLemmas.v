(* C08 - proofs about CbCall (Kinds.v): the register discipline of evaluate_function_call_impl equals the
   stack discipline of the property, for results of every kind and every exit. *)
From Coq Require Import List ZArith Bool.
From Cb Require Import Lang.Sem C08.CallLemmas C08.Kinds.
Import ListNotations.
Local Open Scope Z_scope.

(* a restore policy under which every exit puts the caller's name back *)
Definition policy_ok (pol : policy) : bool :=
  p_end pol && p_err pol && (p_ret pol || (p_int pol && p_outer pol)).

Definition pres {A} (R : kstate -> kstate -> Prop) (m : KM A) : Prop := forall s, R s (snd (m s)).

Section Pres.
Variable R : kstate -> kstate -> Prop.
Hypothesis R_refl : forall s, R s s.
Hypothesis R_trans : forall a b c, R a b -> R b c -> R a c.

Lemma pres_lift {A} (c : ctl A) : pres R (klift c).
Proof. intro s. apply R_refl. Qed.
Lemma pres_bind {A B} (m : KM A) (f : A -> KM B) : pres R m -> (forall a, pres R (f a)) -> pres R (kbind m f).
Proof.
  intros Hm Hf s. unfold kbind. specialize (Hm s). destruct (m s) as [c s1]. cbn [snd] in Hm.
  destruct c; cbn [snd]; try exact Hm. eapply R_trans; [exact Hm|apply Hf].
Qed.
Lemma pres_catch m h : pres R m -> (forall v, pres R (h v)) -> pres R (k_catch m h).
Proof.
  intros Hm Hh s. unfold k_catch. specialize (Hm s). destruct (m s) as [c s1]. cbn [snd] in Hm.
  destruct c as [v| | | |[]]; cbn [snd]; try exact Hm; (eapply R_trans; [exact Hm|apply Hh]).
Qed.
Lemma pres_read mech x : pres R (k_read mech x).
Proof. intro s. unfold k_read. destruct (k_get mech x s); apply R_refl. Qed.
Lemma pres_write mech x v : (forall e s, R s (k_put mech x e s)) -> pres R (k_write mech x v).
Proof.
  intros Hput s. unfold k_write. destruct (k_get mech x s) as [e|]; [|apply R_refl].
  destruct (kcoerce (kk e) v); cbn [snd]; try apply R_refl. apply Hput.
Qed.

Lemma pres_kargs ev : (forall e, pres R (ev e)) -> forall es ps, pres R (kargs ev ps es).
Proof.
  intros Hev es. induction es as [|e r IH]; intros ps; cbn [kargs]; [apply pres_lift|].
  apply pres_bind; [apply Hev|]. intro v. destruct ps as [|p pr].
  - apply pres_bind; [apply IH|]. intro. apply pres_lift.
  - apply pres_bind; [apply pres_lift|]. intro. apply pres_bind; [apply IH|]. intro. apply pres_lift.
Qed.
Lemma pres_exec_list ex : (forall st, pres R (ex st)) -> forall ss, pres R (kexec_list ex ss).
Proof.
  intros Hex ss. induction ss as [|s r IH]; cbn [kexec_list]; [apply pres_lift|].
  apply pres_bind; [apply Hex|]. intro. apply IH.
Qed.
Lemma pres_bind_params : (forall k x v, pres R (k_declare k x v)) -> forall ps vs, pres R (kbind_params ps vs).
Proof.
  intros Hd ps. induction ps as [|p pr IH]; intros vs; cbn [kbind_params]; [apply pres_lift|].
  destruct vs as [|v vr]; [destruct (kpd p); [|apply pres_lift]|]; (apply pres_bind; [apply Hd|]; intro; apply IH).
Qed.
Lemma pres_print_args ev : (forall o, pres R (k_out o)) -> (forall e, pres R (ev e)) ->
  forall es first, pres R (kprint_args ev first es).
Proof.
  intros Ho Hev es. induction es as [|[k e] r IH]; intros first; cbn [kprint_args]; [apply pres_lift|].
  apply pres_bind; [destruct first; [apply pres_lift|apply Ho]|]. intro.
  apply pres_bind; [apply Hev|]. intro. apply pres_bind; [apply Ho|]. intro. apply IH.
Qed.
End Pres.

(* the induction on fuel: expressions preserve RE and statements the weaker RW, as soon as the
   primitives do and a call bracket turns a body that preserves RW into an expression that preserves RE *)
Section Preserved.
Variables (mech : bool) (pol : policy) (funcs : list kfunc).
Variables RE RW : kstate -> kstate -> Prop.
Hypothesis RE_refl : forall s, RE s s.
Hypothesis RE_trans : forall a b c, RE a b -> RE b c -> RE a c.
Hypothesis RW_trans : forall a b c, RW a b -> RW b c -> RW a c.
Hypothesis RE_RW : forall a b, RE a b -> RW a b.
Hypothesis H_put : forall x e s, RW s (k_put mech x e s).
Hypothesis H_declare : forall k x v, pres RW (k_declare k x v).
Hypothesis H_sdecl : forall k x v, pres RW (k_static_declare mech k x v).
Hypothesis H_out : forall o, pres RW (k_out o).
Hypothesis H_call : forall fd inner, pres RW inner -> pres RE (k_call pol fd inner).

Theorem generic_preservation : forall n,
  (forall e, pres RE (keval mech pol funcs n e)) /\ (forall st, pres RW (kexec mech pol funcs n st)).
Proof.
  assert (RW_refl : forall s, RW s s) by (intro s; apply RE_RW, RE_refl).
  assert (lE := @pres_lift RE RE_refl). assert (lW := @pres_lift RW RW_refl).
  assert (bE := @pres_bind RE RE_trans). assert (bW := @pres_bind RW RW_trans).
  induction n as [|k [IHe IHs]]; [split; intros; [apply lE|apply lW]|].
  assert (IHw : forall e, pres RW (keval mech pol funcs k e)) by (intros e s; apply RE_RW, IHe).
  assert (Hxl := pres_exec_list RW RW_refl RW_trans _ IHs).
  assert (Hwr := fun x v => pres_write RW RW_refl mech x v (H_put x)).
  split.
  - intros e. destruct e; cbn [keval].
    + apply lE.
    + apply lE.
    + apply pres_read, RE_refl.
    + apply pres_read, RE_refl.
    + apply bE; [apply IHe|]. intro. apply bE; [apply IHe|]. intro. apply lE.
    + destruct (kfind f funcs) as [fd|]; [|apply lE].
      destruct (_ || _); [apply lE|].
      apply bE; [apply pres_kargs; assumption|]. intro vs.
      apply H_call. apply bW; [apply pres_bind_params; assumption|]. intro. apply Hxl.
  - intros st. destruct st; cbn [kexec].
    + destruct sta.
      * apply bW; [intro s; apply RW_refl|]. intros [|]; [apply lW|].
        apply bW; [apply IHw|]. intro. apply H_sdecl.
      * apply bW; [apply IHw|]. intro. apply H_declare.
    + apply bW; [apply IHw|]. intro. apply Hwr.
    + apply bW; [apply IHw|]. intro. apply lW.
    + apply pres_catch; [assumption|apply IHw|]. intro. apply Hwr.
    + apply bW; [apply IHw|]. intro x. destruct (x =? 0); apply Hxl.
    + apply bW; [apply H_declare|]. intro. apply IHs.
    + apply bW; [apply IHw|]. intro c. destruct (c =? 0); [apply lW|].
      apply bW; [apply Hxl|]. intro. apply bW; [|intro; apply IHs].
      apply bW; [apply pres_read, RW_refl|]. intro. apply bW; [apply lW|]. intro. apply Hwr.
    + destruct e; [|apply lW]. apply bW; [apply IHw|]. intro. apply lW.
    + apply bW; [apply pres_print_args; assumption|]. intro. apply H_out.
Qed.
End Preserved.

(* E: what an EXPRESSION may do to the activation stack and the register: nothing *)
Definition E (s s' : kstate) : Prop := kcur s' = kcur s /\ kframes s' = kframes s.
(* W: what a STATEMENT may do: change the variables of the running activation only *)
Definition W (s s' : kstate) : Prop :=
  kcur s' = kcur s /\ top_fn (kframes s') = top_fn (kframes s) /\ tl (kframes s') = tl (kframes s).

Lemma E_refl s : E s s. Proof. split; reflexivity. Qed.
Lemma E_trans a b c : E a b -> E b c -> E a c.
Proof. intros [H1 H2] [H3 H4]; split; congruence. Qed.
Lemma W_trans a b c : W a b -> W b c -> W a c.
Proof. intros (H1 & H2 & H3) (H4 & H5 & H6); repeat split; congruence. Qed.
Lemma E_W a b : E a b -> W a b.
Proof. intros [H1 H2]; repeat split; congruence. Qed.

Definition presE {A} (m : KM A) : Prop := forall s, E s (snd (m s)).
Definition presW {A} (m : KM A) : Prop := forall s, W s (snd (m s)).

Lemma k_put_W mech x e s : W s (k_put mech x e s).
Proof.
  unfold k_put. destruct (assoc x (top_vars (kframes s))).
  - repeat split; cbn; destruct (kframes s); reflexivity.
  - destruct (assoc x (kstatics (key mech s) s)); repeat split; reflexivity.
Qed.
Lemma presW_declare k x v : presW (k_declare k x v).
Proof.
  intro s. unfold k_declare. destruct (kframes s) eqn:Hf; [apply E_W, E_refl|].
  destruct (kcoerce k v); cbn [snd]; try apply E_W, E_refl.
  repeat split; cbn; rewrite Hf; reflexivity.
Qed.
Lemma presW_static_declare mech k x v : presW (k_static_declare mech k x v).
Proof. intro s. unfold k_static_declare. destruct (kcoerce k v); repeat split; reflexivity. Qed.
Lemma presW_out o : presW (k_out o).
Proof. intro s. repeat split; reflexivity. Qed.

(* the call protocol: every exit gives the caller its stack and its name back *)
Lemma restore_frames b prev s : kframes (restore b prev s) = kframes s.
Proof. destruct b; reflexivity. Qed.

Lemma presE_call pol fd inner : policy_ok pol = true -> presW inner -> presE (k_call pol fd inner).
Proof.
  intros Hok Hin s. unfold k_call.
  destruct (Hin (push_frame (kfname fd) (with_cur (kfname fd) s))) as (_ & _ & Htl).
  destruct (inner _) as [c s2]. cbn in Htl.
  split; [|destruct c; try destruct (rethrown _); cbn [snd]; rewrite ?restore_frames; exact Htl].
  destruct pol as [[] pr pi po []]; try discriminate Hok.
  destruct c; try reflexivity. destruct (rethrown _), pr, pi, po; try discriminate Hok; reflexivity.
Qed.

Section Discipline.
Variable mech : bool.
Variable pol : policy.
Hypothesis Hok : policy_ok pol = true.
Variable funcs : list kfunc.

Lemma discipline : forall n,
  (forall e, presE (keval mech pol funcs n e)) /\ (forall st, presW (kexec mech pol funcs n st)).
Proof.
  apply (generic_preservation mech pol funcs E W E_refl E_trans W_trans E_W
           (k_put_W mech) presW_declare (presW_static_declare mech) presW_out).
  intros fd inner. apply presE_call. exact Hok.
Qed.
End Discipline.

(* Ref never looks at the register *)
Definition eqc (s t : kstate) : Prop :=
  kglob s = kglob t /\ kframes s = kframes t /\ kstat s = kstat t /\ kout s = kout t.
Lemma eqc_forget s : eqc s (with_cur 0%nat s). Proof. repeat split. Qed.

Section Agree.
Variables (pol pol' : policy) (funcs : list kfunc).
Hypothesis Hok : policy_ok pol = true.

(* Mech under [pol] in state s, Ref under [pol'] in state t: the same state up to the register, and Mech's
   register names the function of the running activation *)
Definition Q (s t : kstate) : Prop := eqc s t /\ kcur s = top_fn (kframes s).
Definition simc {A} (m1 m2 : KM A) : Prop :=
  forall s t, Q s t -> fst (m1 s) = fst (m2 t) /\ Q (snd (m1 s)) (snd (m2 t)).

Lemma Q_step s t s' t' : Q s t -> W s s' -> eqc s' t' -> Q s' t'.
Proof. intros [_ Hi] (H1 & H2 & _) He. split; [exact He|congruence]. Qed.
Lemma Q_key s t : Q s t -> key true s = key false t.
Proof. intros [(_ & Hf & _) Hi]. cbn. congruence. Qed.

Lemma simc_lift {A} (c : ctl A) : simc (klift c) (klift c).
Proof. intros s t H. split; [reflexivity|exact H]. Qed.
Lemma simc_bind {A B} (m1 m2 : KM A) (f1 f2 : A -> KM B) :
  simc m1 m2 -> (forall a, simc (f1 a) (f2 a)) -> simc (kbind m1 f1) (kbind m2 f2).
Proof.
  intros Hm Hf s t Hst. unfold kbind. destruct (Hm s t Hst) as [H1 H2].
  destruct (m1 s) as [c1 s1], (m2 t) as [c2 t1]. cbn [fst snd] in *. subst c2.
  destruct c1; try (split; [reflexivity|exact H2]). apply Hf. exact H2.
Qed.
Lemma simc_catch m1 m2 h1 h2 : simc m1 m2 -> (forall v, simc (h1 v) (h2 v)) -> simc (k_catch m1 h1) (k_catch m2 h2).
Proof.
  intros Hm Hh s t Hst. unfold k_catch. destruct (Hm s t Hst) as [H1 H2].
  destruct (m1 s) as [c1 s1], (m2 t) as [c2 t1]. cbn [fst snd] in *. subst c2.
  destruct c1 as [v| | | |[]]; try (split; [reflexivity|exact H2]); apply Hh; exact H2.
Qed.

Lemma Q_get x s t : Q s t -> k_get true x s = k_get false x t.
Proof.
  intros H. pose proof (Q_key s t H) as Hk. destruct H as [(H1 & H2 & H3 & _) _].
  unfold k_get, kstatics. rewrite Hk, H1, H2, H3. reflexivity.
Qed.
Lemma Q_put x e s t : Q s t -> Q (k_put true x e s) (k_put false x e t).
Proof.
  intros H. apply (Q_step s t _ _ H); [apply k_put_W|].
  pose proof (Q_key s t H) as Hk. destruct H as [(H1 & H2 & H3 & H4) _].
  unfold k_put, kstatics. rewrite Hk, H1, H2, H3.
  destruct (assoc x (top_vars (kframes t))); [repeat split; cbn; congruence|].
  destruct (assoc x _); repeat split; cbn; congruence.
Qed.
Lemma simc_read x : simc (k_read true x) (k_read false x).
Proof. intros s t H. unfold k_read. rewrite (Q_get x s t H). destruct (k_get false x t); split; auto. Qed.
Lemma simc_write x v : simc (k_write true x v) (k_write false x v).
Proof.
  intros s t H. unfold k_write. rewrite (Q_get x s t H). destruct (k_get false x t) as [e|]; [|split; auto].
  destruct (kcoerce (kk e) v); cbn [fst snd]; try (split; auto; fail). split; [reflexivity|apply Q_put; exact H].
Qed.
Lemma simc_declare k x v : simc (k_declare k x v) (k_declare k x v).
Proof.
  intros s t H. pose proof (presW_declare k x v s) as HW. pose proof H as [(H1 & H2 & H3 & H4) _].
  unfold k_declare in *. rewrite H2 in *. destruct (kframes t); [split; [reflexivity|exact H]|].
  destruct (kcoerce k v); cbn [fst snd] in *; try (split; [reflexivity|exact H]).
  split; [reflexivity|]. apply (Q_step s t _ _ H HW). repeat split; cbn; congruence.
Qed.
Lemma simc_static_known x : simc (k_static_known true x) (k_static_known false x).
Proof.
  intros s t H. unfold k_static_known, kstatics. rewrite (Q_key s t H), (proj1 (proj2 (proj2 (proj1 H)))).
  split; [reflexivity|exact H].
Qed.
Lemma simc_static_declare k x v : simc (k_static_declare true k x v) (k_static_declare false k x v).
Proof.
  intros s t H. pose proof (Q_key s t H) as Hk.
  pose proof (presW_static_declare true k x v s) as HW.
  split; [|apply (Q_step s t _ _ H HW)]; destruct H as [(H1 & H2 & H3 & H4) _];
    unfold k_static_declare, kstatics; rewrite Hk, H3; destruct (kcoerce k v); repeat split; cbn; congruence.
Qed.
Lemma simc_out o : simc (k_out o) (k_out o).
Proof.
  intros s t H. split; [reflexivity|]. apply (Q_step s t _ _ H (presW_out o s)).
  destruct H as [(H1 & H2 & H3 & H4) _]. repeat split; cbn; congruence.
Qed.

Lemma simc_kargs ev1 ev2 : (forall e, simc (ev1 e) (ev2 e)) -> forall es ps, simc (kargs ev1 ps es) (kargs ev2 ps es).
Proof.
  intros Hev es. induction es as [|e r IH]; intros ps; cbn [kargs]; [apply simc_lift|].
  apply simc_bind; [apply Hev|]. intro v. destruct ps as [|p pr].
  - apply simc_bind; [apply IH|]. intro. apply simc_lift.
  - apply simc_bind; [apply simc_lift|]. intro. apply simc_bind; [apply IH|]. intro. apply simc_lift.
Qed.
Lemma simc_bind_params ps : forall vs, simc (kbind_params ps vs) (kbind_params ps vs).
Proof.
  induction ps as [|p pr IH]; intros vs; cbn [kbind_params]; [apply simc_lift|].
  destruct vs as [|v vr]; [destruct (kpd p); [|apply simc_lift]|]; (apply simc_bind; [apply simc_declare|]; intro; apply IH).
Qed.
Lemma simc_exec_list ex1 ex2 : (forall st, simc (ex1 st) (ex2 st)) -> forall ss, simc (kexec_list ex1 ss) (kexec_list ex2 ss).
Proof.
  intros Hex ss. induction ss as [|s r IH]; cbn [kexec_list]; [apply simc_lift|].
  apply simc_bind; [apply Hex|]. intro. apply IH.
Qed.
Lemma simc_print_args ev1 ev2 : (forall e, simc (ev1 e) (ev2 e)) ->
  forall es first, simc (kprint_args ev1 first es) (kprint_args ev2 first es).
Proof.
  intros Hev es. induction es as [|[k e] r IH]; intros first; cbn [kprint_args]; [apply simc_lift|].
  apply simc_bind; [destruct first; [apply simc_lift|apply simc_out]|]. intro.
  apply simc_bind; [apply Hev|]. intro. apply simc_bind; [apply simc_out|]. intro. apply IH.
Qed.

Lemma eqc_restore b1 b2 p1 p2 s t : eqc s t -> eqc (restore b1 p1 s) (restore b2 p2 t).
Proof. intros (H1 & H2 & H3 & H4). destruct b1, b2; repeat split; assumption. Qed.
(* a call: both sides run the body in related states; Ref's exit restores nothing that it reads, and
   Mech's exit puts back the name that Q relates to the stack ([presE_call]) *)
Lemma simc_call fd in1 in2 : presW in1 -> simc in1 in2 -> simc (k_call pol fd in1) (k_call pol' fd in2).
Proof.
  intros Hw Hin s t Hst.
  pose proof (presE_call pol fd in1 Hok Hw s) as HE. revert HE. unfold k_call.
  assert (H0 : Q (push_frame (kfname fd) (with_cur (kfname fd) s)) (push_frame (kfname fd) (with_cur (kfname fd) t))).
  { destruct Hst as [(H1 & H2 & H3 & H4) _]. repeat split; cbn; congruence. }
  destruct (Hin _ _ H0) as [Hc [Hs _]].
  destruct (in1 _) as [c1 s2], (in2 _) as [c2 t2]. cbn [fst snd] in Hc, Hs. subst c2.
  assert (Hp : eqc (pop_frame s2) (pop_frame t2)).
  { destruct Hs as (H1 & H2 & H3 & H4). repeat split; cbn; congruence. }
  destruct c1; try destruct (rethrown _); cbn [fst snd]; intro HE;
    (split; [reflexivity|apply (Q_step s t _ _ Hst (E_W _ _ HE)); repeat apply eqc_restore; exact Hp]).
Qed.

Lemma modes_agree : forall n,
  (forall e, simc (keval true pol funcs n e) (keval false pol' funcs n e)) /\
  (forall st, simc (kexec true pol funcs n st) (kexec false pol' funcs n st)).
Proof.
  induction n as [|k [IHe IHs]]; [split; intros; apply simc_lift|].
  assert (Hxl := simc_exec_list _ _ IHs).
  split.
  - intros e. destruct e; cbn [keval]; try apply simc_lift; try apply simc_read.
    + apply simc_bind; [apply IHe|]. intro. apply simc_bind; [apply IHe|]. intro. apply simc_lift.
    + destruct (kfind f funcs) as [fd|]; [|apply simc_lift].
      destruct (_ || _); [apply simc_lift|].
      apply simc_bind; [apply simc_kargs, IHe|]. intro vs. apply simc_call.
      * apply (pres_bind W W_trans); [apply (pres_bind_params W); [intro; apply E_W, E_refl|exact W_trans|exact presW_declare]|].
        intro. apply (pres_exec_list W); [intro; apply E_W, E_refl|exact W_trans|]. apply (discipline true pol Hok funcs k).
      * apply simc_bind; [apply simc_bind_params|]. intro. apply Hxl.
  - intros st. destruct st; cbn [kexec].
    + destruct sta.
      * apply simc_bind; [apply simc_static_known|]. intros [|]; [apply simc_lift|].
        apply simc_bind; [apply IHe|]. intro. apply simc_static_declare.
      * apply simc_bind; [apply IHe|]. intro. apply simc_declare.
    + apply simc_bind; [apply IHe|]. intro. apply simc_write.
    + apply simc_bind; [apply IHe|]. intro. apply simc_lift.
    + apply simc_catch; [apply IHe|]. intro. apply simc_write.
    + apply simc_bind; [apply IHe|]. intro x. destruct (x =? 0); apply Hxl.
    + apply simc_bind; [apply simc_declare|]. intro. apply IHs.
    + apply simc_bind; [apply IHe|]. intro c. destruct (c =? 0); [apply simc_lift|].
      apply simc_bind; [apply Hxl|]. intro. apply simc_bind; [|intro; apply IHs].
      apply simc_bind; [apply simc_read|]. intro. apply simc_bind; [apply simc_lift|]. intro. apply simc_write.
    + destruct e; [|apply simc_lift]. apply simc_bind; [apply IHe|]. intro. apply simc_lift.
    + apply simc_bind; [apply simc_print_args, IHe|]. intro. apply simc_out.
Qed.
End Agree.

(* whole programs: Mech under a sound policy prints what Ref prints under any policy *)
Lemma k_run_modes pol pol' fuel p : policy_ok pol = true -> k_run true pol fuel p = k_run false pol' fuel p.
Proof.
  intro Hok. unfold k_run.
  destruct (modes_agree pol pol' (kpfuncs p) Hok fuel) as [_ Hs].
  destruct (simc_exec_list _ _ Hs (kpmain p) (kinit p) (kinit p)) as [Hc [(_ & _ & _ & Ho) _]]; [repeat split|].
  destruct (kexec_list _ _ _) as [c1 s1], (kexec_list _ _ _) as [c2 s2]. cbn [fst snd] in Hc, Ho.
  rewrite Hc, Ho. reflexivity.
Qed.
Lemma mech_refines_ref pol fuel p : policy_ok pol = true -> k_run true pol fuel p = kref_run fuel p.
Proof. apply k_run_modes. Qed.
(* ... so Ref's runs do not depend on the restore policy: it never reads the register *)
Lemma k_run_ref_policy_free pol1 pol2 fuel p : k_run false pol1 fuel p = k_run false pol2 fuel p.
Proof. rewrite <- !(k_run_modes code_policy _ fuel p eq_refl). reflexivity. Qed.

Lemma kset_stat_same f sc l : assoc f (kset_stat f sc l) = Some sc.
Proof. apply upsert_same. Qed.
Lemma kset_stat_other f g sc l : f <> g -> assoc g (kset_stat f sc l) = assoc g l.
Proof. apply upsert_other. Qed.

(* a store changes the statics of the function [key] names, and of no other *)
Lemma k_put_statics_private mech x e s g : g <> key mech s -> kstatics g (k_put mech x e s) = kstatics g s.
Proof.
  intro Hne. unfold k_put. destruct (assoc x (top_vars (kframes s))); [reflexivity|].
  destruct (assoc x (kstatics (key mech s) s)); [|reflexivity].
  unfold kstatics at 1. cbn. rewrite kset_stat_other by congruence. reflexivity.
Qed.

(* once known, known for ever *)
Definition SK (s s' : kstate) : Prop :=
  forall f x, assoc x (kstatics f s) <> None -> assoc x (kstatics f s') <> None.
Lemma SK_trans a b c : SK a b -> SK b c -> SK a c.
Proof. intros H1 H2 f x H. apply H2, H1, H. Qed.
Lemma SK_stat s s' : kstat s' = kstat s -> SK s s'.
Proof. intros H f x. unfold kstatics. rewrite H. tauto. Qed.
Lemma SK_set g sc s :
  (forall x, assoc x (kstatics g s) <> None -> assoc x sc <> None) -> SK s (with_stat (kset_stat g sc (kstat s)) s).
Proof.
  intros Hsc f x. unfold kstatics at 2. cbn. destruct (Nat.eq_dec g f) as [<-|Hne].
  - rewrite kset_stat_same. apply Hsc.
  - rewrite kset_stat_other by exact Hne. tauto.
Qed.
Lemma restore_stat b prev s : kstat (restore b prev s) = kstat s.
Proof. destruct b; reflexivity. Qed.
Lemma k_call_stat pol fd inner s :
  kstat (snd (k_call pol fd inner s)) = kstat (snd (inner (push_frame (kfname fd) (with_cur (kfname fd) s)))).
Proof.
  unfold k_call. destruct (inner _) as [c s2].
  destruct c; try destruct (rethrown _); cbn [snd]; rewrite ?restore_stat; reflexivity.
Qed.

Lemma kexec_static_eq mech pol funcs n kd x e : kexec mech pol funcs (S n) (KDecl true kd x e) =
  (known <~ k_static_known mech x ;;
   if known then kret tt else v <~ keval mech pol funcs n e ;; k_static_declare mech kd x v).
Proof. reflexivity. Qed.

(* the first execution of a `static` declaration stores the converted initial value under the running function *)
Lemma kstatic_decl_first mech pol funcs n kd x e s v s1 :
  assoc x (kstatics (key mech s) s) = None ->
  keval mech pol funcs n e s = (Val v, s1) -> key mech s1 = key mech s -> kcoerce kd v = Val v ->
  let s2 := snd (kexec mech pol funcs (S n) (KDecl true kd x e) s) in
  assoc x (kstatics (key mech s) s2) = Some {| kk := kd; kv := v |}.
Proof.
  intros H He Hk Hc. rewrite kexec_static_eq. unfold kbind, k_static_known. rewrite H, He.
  unfold k_static_declare. rewrite Hc. cbn. rewrite Hk.
  unfold kstatics at 1. cbn. rewrite kset_stat_same. cbn. rewrite Nat.eqb_refl. reflexivity.
Qed.

(* the callee's variables after positional binding: parameter i := value i, for parameters of every kind *)
Fixpoint bound_vars (ps : list kparam) (vs : list Z) : kscope :=
  match ps, vs with
  | p :: pr, v :: vr => (kpn p, {| kk := kpk p; kv := v |}) :: bound_vars pr vr
  | _, _ => []
  end.
