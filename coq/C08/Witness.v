(* C08 - concrete programs on which the implementation model Mech (C08/Frames.v) and the reference
   semantics disagree: each of the first eight violates exactly one clause of the side condition of
   C08/Model.v; w_implicit_decl meets it - there Ref reports the unbound name that Mech declares, the
   case the refinement theorem excepts; on w_ok, which meets it, the two agree. Every
   one was run on the real binary (known_findings/C08.json): main prints what Mech prints.
   Generated from the S-expressions in known_findings/C08.json (the Cb text is in the comments). *)
From Coq Require Import List ZArith Lia.
From Cb Require Import Lang.Syntax Lang.Sem Lang.Print C08.Frames C08.Model.
Import ListNotations.
Local Open Scope Z_scope.

Definition tl_ : ty := {| base := TLong; uns := false |}.

(*
long v50 = 5 ;
long f1(  ) {
  return v50 ;
}
void main() {
  long v50 = 99 ;
  long v1 = f1(  ) ;
  println( v1 ) ;
  println( v50 ) ;
}
*)
Definition w_free_name : program :=
  {| pglobals := [{| gcst := false; gty := tl_; gname := 50%nat; gdims := []; ginit := [5] |}];
     pfuncs := [{| fname := 1%nat; fret := Some tl_; fparams := [];
       fbody := [SReturn (Some (EVar 50%nat))] |}];
     pmain := [SDecl false false tl_ 50%nat (Some (ENum 99)); SDecl false false tl_ 1%nat (Some (ECall 1%nat [])); SPrint true [(EVar 1%nat)]; SPrint true [(EVar 50%nat)]] |}.

Lemma w_free_name_runs :
  run 60 w_free_name = ([OInt 5; ONl; OInt 99; ONl], Finished) /\
  mech_run false 60 w_free_name = ([OInt 99; ONl; OInt 99; ONl], Finished) /\
  mech_run true 60 w_free_name = mech_run false 60 w_free_name.
Proof. vm_compute. repeat split; reflexivity. Qed.

(*
long v50 = 7 ;
long f1(  ) {
  static long v50 = 0 ;
  v50 += 1 ;
  return v50 ;
}
void main() {
  long v1 = f1(  ) ;
  println( v1 ) ;
  long v2 = f1(  ) ;
  println( v2 ) ;
  println( v50 ) ;
}
*)
Definition w_static_global : program :=
  {| pglobals := [{| gcst := false; gty := tl_; gname := 50%nat; gdims := []; ginit := [7] |}];
     pfuncs := [{| fname := 1%nat; fret := Some tl_; fparams := [];
       fbody := [SDecl false true tl_ 50%nat (Some (ENum 0)); SAssign (LVar 50%nat) (Some Add) (ENum 1); SReturn (Some (EVar 50%nat))] |}];
     pmain := [SDecl false false tl_ 1%nat (Some (ECall 1%nat [])); SPrint true [(EVar 1%nat)]; SDecl false false tl_ 2%nat (Some (ECall 1%nat [])); SPrint true [(EVar 2%nat)]; SPrint true [(EVar 50%nat)]] |}.

Lemma w_static_global_runs :
  run 60 w_static_global = ([OInt 1; ONl; OInt 2; ONl; OInt 7; ONl], Finished) /\
  mech_run false 60 w_static_global = ([OInt 8; ONl; OInt 9; ONl; OInt 9; ONl], Finished) /\
  mech_run true 60 w_static_global = mech_run false 60 w_static_global.
Proof. vm_compute. repeat split; reflexivity. Qed.

(*
long f1( long v1 , long v2 ) {
  if ( ( v1 <= 0 ) ) { return v2 ; }
  return f1( ( v1 - 1 ) , ( v2 + v1 ) ) ;
}
void main() {
  long v3 = f1( 3 , 0 ) ;
  println( v3 ) ;
}
*)
Definition w_args_scope : program :=
  {| pglobals := [];
     pfuncs := [{| fname := 1%nat; fret := Some tl_; fparams := [{| pty := tl_; pname := 1%nat; pdef := None |}; {| pty := tl_; pname := 2%nat; pdef := None |}];
       fbody := [SIf (EBin Le (EVar 1%nat) (ENum 0)) [SReturn (Some (EVar 2%nat))] []; SReturn (Some (ECall 1%nat [(EBin Sub (EVar 1%nat) (ENum 1)); (EBin Add (EVar 2%nat) (EVar 1%nat))]))] |}];
     pmain := [SDecl false false tl_ 3%nat (Some (ECall 1%nat [(ENum 3); (ENum 0)])); SPrint true [(EVar 3%nat)]] |}.

Lemma w_args_scope_runs :
  run 60 w_args_scope = ([OInt 6; ONl], Finished) /\
  mech_run false 60 w_args_scope = ([OInt 3; ONl], Finished) /\
  mech_run true 60 w_args_scope = mech_run false 60 w_args_scope.
Proof. vm_compute. repeat split; reflexivity. Qed.

(*
long f1( long v1 , long v2 , long v3 ) {
  return ( ( ( v1 * 100 ) + ( v2 * 10 ) ) + v3 ) ;
}
void main() {
  long v1 = 7 ;
  long v2 = 8 ;
  long v4 = f1( v2 , v1 , v1 ) ;
  println( v4 ) ;
}
*)
Definition w_positional : program :=
  {| pglobals := [];
     pfuncs := [{| fname := 1%nat; fret := Some tl_; fparams := [{| pty := tl_; pname := 1%nat; pdef := None |}; {| pty := tl_; pname := 2%nat; pdef := None |}; {| pty := tl_; pname := 3%nat; pdef := None |}];
       fbody := [SReturn (Some (EBin Add (EBin Add (EBin Mul (EVar 1%nat) (ENum 100)) (EBin Mul (EVar 2%nat) (ENum 10))) (EVar 3%nat)))] |}];
     pmain := [SDecl false false tl_ 1%nat (Some (ENum 7)); SDecl false false tl_ 2%nat (Some (ENum 8)); SDecl false false tl_ 4%nat (Some (ECall 1%nat [(EVar 2%nat); (EVar 1%nat); (EVar 1%nat)])); SPrint true [(EVar 4%nat)]] |}.

Lemma w_positional_runs :
  run 60 w_positional = ([OInt 877; ONl], Finished) /\
  mech_run false 60 w_positional = ([OInt 888; ONl], Finished) /\
  mech_run true 60 w_positional = mech_run false 60 w_positional.
Proof. vm_compute. repeat split; reflexivity. Qed.

(*
long v50 = 1 ;
long f1( long v1 ) {
  v50 = ( v50 + v1 ) ;
  return v50 ;
}
void main() {
  long v50 = 10 ;
  long v2 = f1( 5 ) ;
  println( v2 ) ;
  println( v50 ) ;
}
*)
Definition w_caller_write : program :=
  {| pglobals := [{| gcst := false; gty := tl_; gname := 50%nat; gdims := []; ginit := [1] |}];
     pfuncs := [{| fname := 1%nat; fret := Some tl_; fparams := [{| pty := tl_; pname := 1%nat; pdef := None |}];
       fbody := [SAssign (LVar 50%nat) None (EBin Add (EVar 50%nat) (EVar 1%nat)); SReturn (Some (EVar 50%nat))] |}];
     pmain := [SDecl false false tl_ 50%nat (Some (ENum 10)); SDecl false false tl_ 2%nat (Some (ECall 1%nat [(ENum 5)])); SPrint true [(EVar 2%nat)]; SPrint true [(EVar 50%nat)]] |}.

Lemma w_caller_write_runs :
  run 60 w_caller_write = ([OInt 6; ONl; OInt 10; ONl], Finished) /\
  mech_run false 60 w_caller_write = ([OInt 15; ONl; OInt 15; ONl], Finished) /\
  mech_run true 60 w_caller_write = mech_run false 60 w_caller_write.
Proof. vm_compute. repeat split; reflexivity. Qed.

(*
long f2( long v1 ) {
  println( ( 100 + v1 ) ) ;
  return v1 ;
}
long f1(  ) {
  static long v70 = f2( 7 ) ;
  v70 += 1 ;
  return v70 ;
}
void main() {
  long v1 = f1(  ) ;
  println( v1 ) ;
  long v2 = f1(  ) ;
  println( v2 ) ;
}
*)
Definition w_static_init : program :=
  {| pglobals := [];
     pfuncs := [{| fname := 2%nat; fret := Some tl_; fparams := [{| pty := tl_; pname := 1%nat; pdef := None |}];
       fbody := [SPrint true [(EBin Add (ENum 100) (EVar 1%nat))]; SReturn (Some (EVar 1%nat))] |}; {| fname := 1%nat; fret := Some tl_; fparams := [];
       fbody := [SDecl false true tl_ 70%nat (Some (ECall 2%nat [(ENum 7)])); SAssign (LVar 70%nat) (Some Add) (ENum 1); SReturn (Some (EVar 70%nat))] |}];
     pmain := [SDecl false false tl_ 1%nat (Some (ECall 1%nat [])); SPrint true [(EVar 1%nat)]; SDecl false false tl_ 2%nat (Some (ECall 1%nat [])); SPrint true [(EVar 2%nat)]] |}.

Lemma w_static_init_runs :
  run 60 w_static_init = ([OInt 107; ONl; OInt 8; ONl; OInt 9; ONl], Finished) /\
  mech_run false 60 w_static_init = ([OInt 107; ONl; OInt 107; ONl; OInt 8; ONl; OInt 107; ONl; OInt 9; ONl], Finished) /\
  mech_run true 60 w_static_init = mech_run false 60 w_static_init.
Proof. vm_compute. repeat split; reflexivity. Qed.

(*
long f2( long v1 ) {
  return ( v1 + 1 ) ;
}
long f1(  ) {
  static long v70 = 5 ;
  v70 += 1 ;
  return f2( v70 ) ;
}
void main() {
  long v1 = f1(  ) ;
  println( v1 ) ;
  long v2 = f1(  ) ;
  println( v2 ) ;
}
*)
Definition w_static_arg : program :=
  {| pglobals := [];
     pfuncs := [{| fname := 2%nat; fret := Some tl_; fparams := [{| pty := tl_; pname := 1%nat; pdef := None |}];
       fbody := [SReturn (Some (EBin Add (EVar 1%nat) (ENum 1)))] |}; {| fname := 1%nat; fret := Some tl_; fparams := [];
       fbody := [SDecl false true tl_ 70%nat (Some (ENum 5)); SAssign (LVar 70%nat) (Some Add) (ENum 1); SReturn (Some (ECall 2%nat [(EVar 70%nat)]))] |}];
     pmain := [SDecl false false tl_ 1%nat (Some (ECall 1%nat [])); SPrint true [(EVar 1%nat)]; SDecl false false tl_ 2%nat (Some (ECall 1%nat [])); SPrint true [(EVar 2%nat)]] |}.

Lemma w_static_arg_runs :
  run 60 w_static_arg = ([OInt 7; ONl; OInt 8; ONl], Finished) /\
  mech_run false 60 w_static_arg = ([], Failed EUnbound) /\
  mech_run true 60 w_static_arg = mech_run false 60 w_static_arg.
Proof. vm_compute. repeat split; reflexivity. Qed.

(*
long v50 = 3 ;
long f1( long v1 , long v2 = v50 ) {
  return ( ( v1 * 10 ) + v2 ) ;
}
void main() {
  long v50 = 8 ;
  long v3 = f1( 2 ) ;
  println( v3 ) ;
}
*)
Definition w_default_free : program :=
  {| pglobals := [{| gcst := false; gty := tl_; gname := 50%nat; gdims := []; ginit := [3] |}];
     pfuncs := [{| fname := 1%nat; fret := Some tl_; fparams := [{| pty := tl_; pname := 1%nat; pdef := None |}; {| pty := tl_; pname := 2%nat; pdef := (Some (EVar 50%nat)) |}];
       fbody := [SReturn (Some (EBin Add (EBin Mul (EVar 1%nat) (ENum 10)) (EVar 2%nat)))] |}];
     pmain := [SDecl false false tl_ 50%nat (Some (ENum 8)); SDecl false false tl_ 3%nat (Some (ECall 1%nat [(ENum 2)])); SPrint true [(EVar 3%nat)]] |}.

Lemma w_default_free_runs :
  run 60 w_default_free = ([OInt 23; ONl], Finished) /\
  mech_run false 60 w_default_free = ([OInt 28; ONl], Finished) /\
  mech_run true 60 w_default_free = mech_run false 60 w_default_free.
Proof. vm_compute. repeat split; reflexivity. Qed.

(*
long f1(  ) {
  v9 = 5 ;
  return v9 ;
}
void main() {
  long v1 = f1(  ) ;
  println( v1 ) ;
}
*)
Definition w_implicit_decl : program :=
  {| pglobals := [];
     pfuncs := [{| fname := 1%nat; fret := Some tl_; fparams := [];
       fbody := [SAssign (LVar 9%nat) None (ENum 5); SReturn (Some (EVar 9%nat))] |}];
     pmain := [SDecl false false tl_ 1%nat (Some (ECall 1%nat [])); SPrint true [(EVar 1%nat)]] |}.

Lemma w_implicit_decl_runs :
  run 60 w_implicit_decl = ([], Failed EUnbound) /\
  mech_run false 60 w_implicit_decl = ([OInt 5; ONl], Finished) /\
  mech_run true 60 w_implicit_decl = mech_run false 60 w_implicit_decl.
Proof. vm_compute. repeat split; reflexivity. Qed.

(*
long v50 = 5 ;
long f1( long v1 , long v2 = 2 ) {
  static long v70 = 0 ;
  v70 += 1 ;
  long v3 = ( v2 + v50 ) ;
  if ( ( v1 <= 0 ) ) { return v3 ; }
  return ( f1( ( v1 - 1 ) , v3 ) + v70 ) ;
}
void main() {
  long v3 = f1( 3 ) ;
  println( v3 ) ;
  long v2 = f1( 2 , 1 ) ;
  println( v2 , v3 , v50 ) ;
}
*)
Definition w_ok : program :=
  {| pglobals := [{| gcst := false; gty := tl_; gname := 50%nat; gdims := []; ginit := [5] |}];
     pfuncs := [{| fname := 1%nat; fret := Some tl_; fparams := [{| pty := tl_; pname := 1%nat; pdef := None |}; {| pty := tl_; pname := 2%nat; pdef := (Some (ENum 2)) |}];
       fbody := [SDecl false true tl_ 70%nat (Some (ENum 0)); SAssign (LVar 70%nat) (Some Add) (ENum 1); SDecl false false tl_ 3%nat (Some (EBin Add (EVar 2%nat) (EVar 50%nat))); SIf (EBin Le (EVar 1%nat) (ENum 0)) [SReturn (Some (EVar 3%nat))] []; SReturn (Some (EBin Add (ECall 1%nat [(EBin Sub (EVar 1%nat) (ENum 1)); (EVar 3%nat)]) (EVar 70%nat)))] |}];
     pmain := [SDecl false false tl_ 3%nat (Some (ECall 1%nat [(ENum 3)])); SPrint true [(EVar 3%nat)]; SDecl false false tl_ 2%nat (Some (ECall 1%nat [(ENum 2); (ENum 1)])); SPrint true [(EVar 2%nat); (EVar 3%nat); (EVar 50%nat)]] |}.

Lemma w_ok_runs :
  run 60 w_ok = ([OInt 34; ONl; OInt 30; OSp; OInt 34; OSp; OInt 5; ONl], Finished) /\
  mech_run false 60 w_ok = ([OInt 34; ONl; OInt 30; OSp; OInt 34; OSp; OInt 5; ONl], Finished) /\
  mech_run true 60 w_ok = mech_run false 60 w_ok.
Proof. vm_compute. repeat split; reflexivity. Qed.

(* the side condition is satisfiable: w_ok reuses v1..v3 in every activation, owns a static,
   reads a global, fills a default - and meets every clause *)
Ltac in_solve := cbn in *; intuition (subst; cbn in *; try lia; try congruence; try discriminate).

Lemma w_ok_program_ok : program_ok [1; 2; 3]%nat [70%nat] w_ok.
Proof.
  split.
  - constructor.
    + intros x H1 H2. in_solve.
    + intros x H1 H2. in_solve.
    + intros x H1 H2. in_solve.
    + intros fd [<-|[]]. unfold wf_func. cbn. repeat split; try (intros x Hx; in_solve); try reflexivity; in_solve.
  - cbn. repeat split; try (intros x Hx; in_solve); try reflexivity; in_solve.
Qed.

(* each refuted witness breaks a clause, whatever L and S are chosen *)
Lemma w_free_name_not_ok L S : ~ program_ok L S w_free_name.          (* a local named like a global *)
Proof. intros [[HLG _ _ _] Hm]. cbn in Hm. apply (HLG 50%nat); [tauto|left; reflexivity]. Qed.
Lemma w_caller_write_not_ok L S : ~ program_ok L S w_caller_write.
Proof. intros [[HLG _ _ _] Hm]. cbn in Hm. apply (HLG 50%nat); [tauto|left; reflexivity]. Qed.
Lemma w_default_free_not_ok L S : ~ program_ok L S w_default_free.
Proof. intros [[HLG _ _ _] Hm]. cbn in Hm. apply (HLG 50%nat); [tauto|left; reflexivity]. Qed.
Lemma w_static_global_not_ok L S : ~ program_ok L S w_static_global.  (* a static named like a global *)
Proof.
  intros [[_ _ HSG Hf] Hm]. specialize (Hf _ (or_introl eq_refl)). destruct Hf as [_ Hb]. cbn in Hb.
  apply (HSG 50%nat); [tauto|left; reflexivity].
Qed.
Lemma w_args_scope_not_ok L S : ~ program_ok L S w_args_scope.        (* argument 2 mentions parameter 1 *)
Proof.
  intros [[_ _ _ Hf] _]. specialize (Hf _ (or_introl eq_refl)). destruct Hf as [_ Hb]. cbn in Hb.
  destruct Hb as (_ & (_ & _ & H2 & _) & _).
  apply (proj1 (H2 1%nat (or_intror (or_introl eq_refl)))). left. reflexivity.
Qed.
Lemma w_positional_not_ok L S : ~ program_ok L S w_positional.
Proof.
  intros [_ Hm]. cbn in Hm. destruct Hm as (_ & _ & (_ & _ & _ & H2 & _) & _).
  apply (proj1 (H2 1%nat (or_introl eq_refl))). left. reflexivity.
Qed.
Lemma w_static_arg_not_ok L S : ~ program_ok L S w_static_arg.         (* a static as an argument *)
Proof.
  intros [[_ _ _ Hf] _]. specialize (Hf _ (or_intror (or_introl eq_refl))). destruct Hf as [_ Hb]. cbn in Hb.
  destruct Hb as ((HS & _) & _ & (_ & H1 & _) & _).
  exact (proj2 (H1 70%nat (or_introl eq_refl)) HS).
Qed.
Lemma w_static_init_not_ok L S : ~ program_ok L S w_static_init.       (* a static initialiser with an effect *)
Proof.
  intros [[_ _ _ Hf] Hm]. specialize (Hf _ (or_intror (or_introl eq_refl))). destruct Hf as [_ Hb]. cbn in Hb. tauto.
Qed.
