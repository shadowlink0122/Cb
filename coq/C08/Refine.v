(* C08 - the refinement: under the name side condition (C08/Model.v) the implementation model Mech
   (C08/Frames.v, with lexical blocks) computes exactly what Ref computes, for every program, state
   and fuel - unless Ref itself reports an unbound name.

   Simulation: a Mech state is a Ref state whose caller frames [lr] are replaced by [lm] (the Mech
   stack below the running activation: real frames and half-built callee frames alike - their content
   is irrelevant, only that all their names are in L) and on top of which sit the half-built frames
   [Gf] of the calls whose arguments are being evaluated. *)
From Coq Require Import List ZArith Bool Lia.
From Cb Require Import Lang.Syntax Lang.Sem Lang.Theorems C08.CallLemmas C08.Frames C08.Model.
Import ListNotations.
Local Open Scope Z_scope.

Definition emb (Gf lm : list frame) (rs : state) : state :=
  {| sglob := sglob rs; sframes := Gf ++ firstn 1 (sframes rs) ++ lm; sstat := sstat rs; sout := sout rs |}.

Definition bound_in (fs : list frame) (x : ident) : Prop := frames_get x fs <> None.

Lemma frames_get_app x a b :
  frames_get x (a ++ b) = match frames_get x a with Some e => Some e | None => frames_get x b end.
Proof. induction a as [|f r IH]; cbn; [reflexivity|]. destruct (scopes_get x (fscopes f)); [reflexivity|exact IH]. Qed.

Lemma frames_set_app_r x e a b : frames_get x a = None -> frames_set x e (a ++ b) = a ++ frames_set x e b.
Proof.
  induction a as [|f r IH]; cbn; [reflexivity|]. destruct (scopes_get x (fscopes f)); [discriminate|].
  intros H. rewrite IH by exact H. reflexivity.
Qed.

Lemma scopes_get_set_names x e y ss : scopes_get y (scopes_set x e ss) <> None <-> scopes_get y ss <> None.
Proof.
  induction ss as [|sc r IH]; cbn; [apply iff_refl|].
  destruct (assoc x sc) eqn:E; cbn.
  - rewrite assoc_assoc_set, E. destruct (Nat.eqb_spec y x) as [->|_]; [rewrite E; split; discriminate|apply iff_refl].
  - destruct (assoc y sc); [apply iff_refl|exact IH].
Qed.

Lemma allP_impl {A} (P Q : A -> Prop) l : (forall a, In a l -> P a -> Q a) -> allP P l -> allP Q l.
Proof.
  induction l as [|a r IH]; cbn; [tauto|]. intros H [H1 H2]. split; [apply H; [left; reflexivity|exact H1]|].
  apply IH; [|exact H2]. intros b Hb. apply H. right. exact Hb.
Qed.

Lemma allP_skipn {A} (P : A -> Prop) n l : allP P l -> allP P (skipn n l).
Proof. revert l. induction n as [|n IH]; intros l; [tauto|]. destruct l as [|a r]; [tauto|]. cbn. intros [_ H]. apply IH. exact H. Qed.
Lemma allP_in {A} (P : A -> Prop) l a : allP P l -> In a l -> P a.
Proof. induction l as [|b r IH]; cbn; [tauto|]. intros [H1 H2] [<-|H]; [exact H1|apply IH; assumption]. Qed.

Lemma find_func_in funcs f fd : find_func f funcs = Some fd -> In fd funcs.
Proof.
  induction funcs as [|g r IH]; cbn; [discriminate|]. destruct (Nat.eqb f (fname g)); [intros [= <-]; left; reflexivity|].
  intros H. right. apply IH. exact H.
Qed.

Lemma coerce_zero t : coerce t 0 = Val 0.
Proof. unfold coerce. cbn. rewrite andb_false_r. unfold in_range, range. destruct (base t), (uns t); reflexivity. Qed.
Lemma fail_ne {A B} e : (@Fail A e) <> Fail EUnbound -> (@Fail B e) <> Fail EUnbound.
Proof. intros H Hx. apply H. injection Hx as ->. reflexivity. Qed.

Section Refine.
Variable funcs : list func.
Variables L Gn S : list ident.
Hypothesis SC : side_condition funcs L Gn S.

Definition scopes_in_L (ss : list scope) : Prop := forall x, scopes_get x ss <> None -> In x L.
Definition frames_in_L (fs : list frame) : Prop := forall x, bound_in fs x -> In x L.

(* what is known of a Ref state: it has a running activation whose variables are in L, its globals
   are in Gn, all statics are in S *)
Record Inv (rs : state) : Prop := {
  inv_top : exists C lr, sframes rs = C :: lr /\ scopes_in_L (fscopes C);
  inv_glob : forall x, assoc x (sglob rs) <> None -> In x Gn;
  inv_stat : forall g x, assoc x (statics_of g rs) <> None -> In x S
}.

Lemma Inv_ext rs rs' : sframes rs' = sframes rs -> sglob rs' = sglob rs -> sstat rs' = sstat rs -> Inv rs -> Inv rs'.
Proof. intros Hf Hg Hs [HT HG HS]. constructor; [rewrite Hf|rewrite Hg|unfold statics_of; rewrite Hs]; assumption. Qed.
Lemma Inv_frames rs C lr o : Inv rs -> scopes_in_L (fscopes C) ->
  Inv {| sglob := sglob rs; sframes := C :: lr; sstat := sstat rs; sout := o |}.
Proof. intros [_ HG HS] HC. constructor; [exists C, lr; split; [reflexivity|exact HC]|exact HG|exact HS]. Qed.

(* a store binds no new name anywhere *)
Lemma put_entry_Inv x e rs : Inv rs -> Inv (put_entry x e rs).
Proof.
  intros [(C & lr & Hfr & HC) HG HS]. constructor.
  - unfold put_entry. rewrite Hfr. destruct (scopes_get x (fscopes C)); [|destruct (assoc x _)]; cbn [sframes].
    + eexists _, _. split; [reflexivity|]. intros y Hy. apply HC, (scopes_get_set_names x e y), Hy.
    + exists C, lr. split; [reflexivity|exact HC].
    + exists C, lr. split; [reflexivity|exact HC].
  - intros y Hy. apply HG. revert Hy. unfold put_entry.
    destruct (sframes rs) as [|f fr]; [|destruct (scopes_get x (fscopes f)); [|destruct (assoc x _)]]; cbn [sglob];
      try exact (fun H => H); apply assoc_set_known.
  - intros g y Hy. apply (HS g), (put_entry_static_names x e rs g y), Hy.
Qed.

(* simulation of one monadic computation in mode (Gf, lm) *)
Definition sim {A} (Gf lm : list frame) (mm mr : M A) : Prop :=
  forall rs, Inv rs -> fst (mr rs) <> Fail EUnbound ->
    mm (emb Gf lm rs) = (fst (mr rs), emb Gf lm (snd (mr rs))) /\ Inv (snd (mr rs)).

Lemma sim_lift {A} Gf lm (c : ctl A) : sim Gf lm (lift c) (lift c).
Proof. intros rs HI _. split; [reflexivity|exact HI]. Qed.

Lemma sim_ext {A} Gf lm (mm mm' mr : M A) : (forall ms, mm ms = mm' ms) -> sim Gf lm mm' mr -> sim Gf lm mm mr.
Proof. intros He H rs HI Hn. rewrite He. apply H; assumption. Qed.

Lemma sim_bind {A B} Gf lm (mm mr : M A) (fm fr : A -> M B) :
  sim Gf lm mm mr -> (forall a, sim Gf lm (fm a) (fr a)) -> sim Gf lm (bind mm fm) (bind mr fr).
Proof.
  intros H1 H2 rs HI Hn. unfold bind in *. specialize (H1 rs HI).
  destruct (mr rs) as [c rs1]. cbn [fst snd] in *.
  destruct H1 as [-> HI1]; [intros ->; apply Hn; reflexivity|].
  destruct c; try (split; [reflexivity|assumption]). apply H2; assumption.
Qed.

Lemma sim_map_ctl {A B} Gf lm (g : ctl A -> ctl B) (mm mr : M A) :
  (forall c, g c <> Fail EUnbound -> c <> Fail EUnbound) ->
  sim Gf lm mm mr -> sim Gf lm (map_ctl g mm) (map_ctl g mr).
Proof.
  intros Hg H rs HI Hn. unfold map_ctl in *. specialize (H rs HI).
  destruct (mr rs) as [c rs1]. cbn [fst snd] in *. destruct H as [-> HI1]; [apply Hg; exact Hn|].
  split; [reflexivity|assumption].
Qed.

Lemma sim_loop_step Gf lm (bm br nm nr : M unit) :
  sim Gf lm bm br -> sim Gf lm nm nr -> sim Gf lm (loop_step bm nm) (loop_step br nr).
Proof.
  intros Hb Hx rs HI Hn. unfold loop_step in *. specialize (Hb rs HI).
  destruct (br rs) as [c rs1]. cbn [fst snd] in *.
  destruct Hb as [-> HI1]; [intros ->; apply Hn; reflexivity|].
  destruct c; try (split; [reflexivity|assumption]); apply Hx; assumption.
Qed.

Lemma sim_finally {A} Gf lm (mm mr : M A) fin :
  sim Gf lm mm mr ->
  (forall rs, Inv rs -> fin (emb Gf lm rs) = emb Gf lm (fin rs) /\ Inv (fin rs)) ->
  sim Gf lm (finally mm fin) (finally mr fin).
Proof.
  intros H Hf rs HI Hn. unfold finally in *. specialize (H rs HI).
  destruct (mr rs) as [c rs1]. cbn [fst snd] in *. destruct H as [-> HI1]; [exact Hn|].
  destruct (Hf rs1 HI1) as [-> HI2]. split; [reflexivity|exact HI2].
Qed.

Definition ghosts_ok (Gf : list frame) (x : ident) : Prop := ~ bound_in Gf x /\ (Gf <> [] -> ~ In x S).

Lemma ghosts_nil x : ghosts_ok [] x.
Proof. split; [unfold bound_in; cbn; congruence|congruence]. Qed.
Lemma frames_in_L_nil : frames_in_L [].
Proof. intros x. unfold bound_in. cbn. congruence. Qed.

Lemma cur_fn_emb_nil lm rs C lr : sframes rs = C :: lr -> cur_fn (emb [] lm rs) = cur_fn rs.
Proof. intros H. unfold cur_fn, emb. cbn. rewrite H. reflexivity. Qed.

(* where a name that Ref resolves can be bound in the Mech state: not in a half-built frame; if not in
   the running activation then in no frame below it (those hold locals, and the name is then a static
   or a global); if a static, then not a global as well (Mech asks the globals first), and no
   half-built frame exists (Mech would ask the callee's statics) *)
Lemma resolve Gf lm rs x e :
  Inv rs -> frames_in_L lm -> ghosts_ok Gf x -> get_entry x rs = Some e ->
  exists C lr, sframes rs = C :: lr /\ frames_get x Gf = None /\
    (scopes_get x (fscopes C) = None ->
     frames_get x lm = None /\
     match assoc x (statics_of (ffn C) rs) with Some _ => assoc x (sglob rs) = None /\ Gf = [] | None => True end).
Proof.
  intros [(C & lr & Hfr & HC) HG HS] Hlm [Hg1 Hg2] Hget. exists C, lr. split; [exact Hfr|]. split.
  { unfold bound_in in Hg1. destruct (frames_get x Gf); [exfalso; apply Hg1; discriminate|reflexivity]. }
  intros E1. unfold get_entry in Hget. rewrite Hfr, E1 in Hget.
  assert (Hnl : ~ In x L -> frames_get x lm = None).
  { intros HnL. destruct (frames_get x lm) eqn:E3; [|reflexivity]. exfalso. apply HnL, Hlm. unfold bound_in. rewrite E3. discriminate. }
  destruct (assoc x (statics_of (ffn C) rs)) eqn:E2.
  - assert (HxS : In x S) by (apply (HS (ffn C)); rewrite E2; discriminate).
    split; [apply Hnl; intro HL; exact (sc_LS _ _ _ _ SC x HL HxS)|]. split.
    + destruct (assoc x (sglob rs)) eqn:E3; [|reflexivity]. exfalso. apply (sc_SG _ _ _ _ SC x HxS), HG. rewrite E3. discriminate.
    + destruct Gf; [reflexivity|]. exfalso. apply Hg2; [discriminate|exact HxS].
  - assert (HxG : In x Gn) by (apply HG; rewrite Hget; discriminate).
    split; [apply Hnl; intro HL; exact (sc_LG _ _ _ _ SC x HL HxG)|exact I].
Qed.

Lemma lookup_sim Gf lm rs x e :
  Inv rs -> frames_in_L lm -> ghosts_ok Gf x ->
  get_entry x rs = Some e -> dget x (emb Gf lm rs) = Some e.
Proof.
  intros HI Hlm Hg Hget. destruct (resolve Gf lm rs x e HI Hlm Hg Hget) as (C & lr & Hfr & HG & Hrest).
  unfold get_entry in Hget. rewrite Hfr in Hget.
  unfold dget, emb. cbn [sframes sglob sstat]. rewrite Hfr. cbn [firstn app].
  rewrite frames_get_app, HG. cbn [frames_get].
  destruct (scopes_get x (fscopes C)); [exact Hget|]. destruct (Hrest eq_refl) as [-> Hst].
  destruct (assoc x (statics_of (ffn C) rs)) eqn:E2; [|rewrite Hget; reflexivity].
  destruct Hst as [-> ->]. injection Hget as <-. exact E2.
Qed.

Lemma read_sim Gf lm x idx :
  frames_in_L lm -> ghosts_ok Gf x -> sim Gf lm (d_read x idx) (m_read x idx).
Proof.
  intros Hlm Hg rs HI Hn. unfold m_read in *. unfold d_read.
  destruct (get_entry x rs) as [e|] eqn:E; [|exfalso; apply Hn; reflexivity].
  rewrite (lookup_sim Gf lm rs x e HI Hlm Hg E).
  destruct (flat_index (edims e) idx 0); cbn [fst snd]; split; try reflexivity; exact HI.
Qed.

(* a store: same place in both *)
Lemma put_emb Gf lm rs x e e' :
  Inv rs -> frames_in_L lm -> ghosts_ok Gf x -> get_entry x rs = Some e ->
  dput x e' (emb Gf lm rs) = emb Gf lm (put_entry x e' rs).
Proof.
  intros HI Hlm Hg Hget. destruct (resolve Gf lm rs x e HI Hlm Hg Hget) as (C & lr & Hfr & HG & Hrest).
  unfold get_entry in Hget. rewrite Hfr in Hget.
  unfold dput, put_entry, emb. cbn [sframes sglob sstat sout]. rewrite Hfr. cbn [firstn app].
  rewrite frames_get_app, HG. cbn [frames_get].
  destruct (scopes_get x (fscopes C)) eqn:E1.
  - rewrite frames_set_app_r by exact HG. cbn [frames_set]. rewrite E1. reflexivity.
  - destruct (Hrest eq_refl) as [-> Hst].
    destruct (assoc x (statics_of (ffn C) rs)) eqn:E2; [|rewrite Hget; reflexivity].
    destruct Hst as [-> ->]. reflexivity.
Qed.

Lemma write_sim Gf lm x idx v :
  frames_in_L lm -> ghosts_ok Gf x -> sim Gf lm (d_write x idx v) (m_write x idx v).
Proof.
  intros Hlm Hg rs HI Hn. unfold m_write in *. unfold d_write.
  destruct (get_entry x rs) as [e|] eqn:E; [|exfalso; apply Hn; reflexivity].
  rewrite (lookup_sim Gf lm rs x e HI Hlm Hg E).
  destruct (econst e); [split; [reflexivity|exact HI]|].
  destruct (flat_index (edims e) idx 0); [|split; [reflexivity|exact HI]].
  destruct (coerce (ety e) v); cbn [fst snd]; try (split; [reflexivity|exact HI]).
  rewrite (put_emb Gf lm rs x e _ HI Hlm Hg E). split; [reflexivity|apply put_entry_Inv; exact HI].
Qed.

Lemma assign_sim lm lv x idx v :
  frames_in_L lm -> sim [] lm (d_assign lv x idx v) (m_write x idx v).
Proof.
  intros Hlm rs HI Hn.
  assert (Hd : d_assign lv x idx v (emb [] lm rs) = d_write x idx v (emb [] lm rs)).
  { unfold d_assign. unfold m_write in Hn. destruct (get_entry x rs) as [e|] eqn:E; [|exfalso; apply Hn; reflexivity].
    rewrite (lookup_sim [] lm rs x e HI Hlm (ghosts_nil x) E). destruct lv; reflexivity. }
  rewrite Hd. apply write_sim; [exact Hlm|apply ghosts_nil|exact HI|exact Hn].
Qed.

Lemma out_sim Gf lm o : sim Gf lm (m_out o) (m_out o).
Proof. intros rs HI _. split; [reflexivity|]. apply (Inv_ext rs); [reflexivity..|exact HI]. Qed.

Lemma scopes_in_L_tl ss : scopes_in_L ss -> scopes_in_L (tl ss).
Proof.
  intros H x Hx. apply H. destruct ss as [|sc r]; [exact Hx|]. cbn in *. destruct (assoc x sc); [discriminate|exact Hx].
Qed.

Lemma block_sim {A} lm (mm mr : M A) :
  sim [] lm mm mr -> sim [] lm (m_push_scope ;;; finally mm pop_scope_st) (m_push_scope ;;; finally mr pop_scope_st).
Proof.
  intros H. apply sim_bind.
  - intros rs HI _. destruct (inv_top _ HI) as (C & lr & Hfr & HC).
    unfold m_push_scope, emb. cbn [sframes sglob sstat sout]. rewrite Hfr. cbn.
    split; [reflexivity|]. apply Inv_frames; [exact HI|exact HC].
  - intros _. apply sim_finally; [exact H|].
    intros rs HI. destruct (inv_top _ HI) as (C & lr & Hfr & HC).
    unfold pop_scope_st, emb. cbn [sframes sglob sstat sout]. rewrite Hfr. cbn.
    split; [reflexivity|]. apply Inv_frames; [exact HI|apply scopes_in_L_tl; exact HC].
Qed.

Lemma coerce_all_one t v : coerce_all t [v] = match coerce t v with Val v' => Val [v'] | Fail e => Fail e | _ => Fail EUndef end.
Proof. cbn. destruct (coerce t v); reflexivity. Qed.

Lemma declare_sim lm cst t x d vs :
  In x L -> sim [] lm (m_declare false cst t x d vs) (m_declare false cst t x d vs).
Proof.
  intros HxL rs HI Hn. destruct (inv_top _ HI) as (C & lr & Hfr & HC).
  unfold m_declare in *. unfold emb. cbn [sframes sglob sstat sout].
  destruct (coerce_all t vs); cbn [fst snd]; try (split; [reflexivity|exact HI]).
  rewrite Hfr in *. cbn [firstn app]. destruct (fscopes C) as [|sc scs] eqn:E; cbn [fst snd] in *; [exfalso; apply Hn; reflexivity|].
  split; [reflexivity|]. apply Inv_frames; [exact HI|]. intros y. cbn. destruct (Nat.eqb y x) eqn:Ey.
  - apply Nat.eqb_eq in Ey. subst y. intros _. exact HxL.
  - intros Hy. apply HC. cbn. exact Hy.
Qed.

Lemma static_known_sim lm x : sim [] lm (m_static_known x) (m_static_known x).
Proof.
  intros rs HI _. destruct (inv_top _ HI) as (C & lr & Hfr & _). unfold m_static_known. cbn [fst snd].
  rewrite (cur_fn_emb_nil lm rs C lr Hfr). split; [reflexivity|exact HI].
Qed.

Section Lists.
Variables (Gf lm : list frame) (evm evr : expr -> M Z) (exm exr : stmt -> M unit).

Lemma eval_list_sim es : allP (fun e => sim Gf lm (evm e) (evr e)) es -> sim Gf lm (eval_list evm es) (eval_list evr es).
Proof.
  induction es as [|e r IH]; cbn [allP fold_right eval_list]; [intros _; apply sim_lift|].
  intros [H1 H2]. apply sim_bind; [exact H1|]. intros v. apply sim_bind; [apply IH; exact H2|]. intros vs. apply sim_lift.
Qed.
Lemma exec_list_sim ss : allP (fun s => sim Gf lm (exm s) (exr s)) ss -> sim Gf lm (exec_list exm ss) (exec_list exr ss).
Proof.
  induction ss as [|s r IH]; cbn [allP fold_right exec_list]; [intros _; apply sim_lift|].
  intros [H1 H2]. apply sim_bind; [exact H1|]. intros _. apply IH. exact H2.
Qed.
Lemma print_args_sim first es : allP (fun e => sim Gf lm (evm e) (evr e)) es -> sim Gf lm (print_args evm first es) (print_args evr first es).
Proof.
  revert first. induction es as [|e r IH]; intros first; cbn [allP fold_right print_args]; [intros _; apply sim_lift|].
  intros [H1 H2]. apply sim_bind; [destruct first; [apply sim_lift|apply out_sim]|]. intros _.
  apply sim_bind; [exact H1|]. intros v. apply sim_bind; [apply out_sim|]. intros _. apply IH. exact H2.
Qed.
End Lists.

(* plain structs: the member cells are declared, read and stored like any other local *)
Lemma decl_members_sim lm x flds : forall j,
  (forall i, (i < List.length flds)%nat -> In (mkey x (j + i)) L) ->
  sim [] lm (decl_members x j flds) (decl_members x j flds).
Proof.
  induction flds as [|f r IH]; intros j H; cbn [decl_members]; [apply sim_lift|].
  apply sim_bind.
  - apply declare_sim. specialize (H 0%nat). rewrite Nat.add_0_r in H. apply H. cbn. apply Nat.lt_0_succ.
  - intros _. apply IH. intros i Hi. replace (Datatypes.S j + i)%nat with (j + Datatypes.S i)%nat by (rewrite Nat.add_succ_r; reflexivity).
    apply H. cbn. apply (proj1 (Nat.succ_lt_mono _ _)). exact Hi.
Qed.
Lemma copy_cells_sim lm dst src idxs : frames_in_L lm ->
  sim [] lm (dcopy_cells dst src idxs) (copy_cells dst src idxs).
Proof.
  intros Hlm. induction idxs as [|i r IH]; cbn [dcopy_cells copy_cells]; [apply sim_lift|].
  apply sim_bind; [apply read_sim; [exact Hlm|apply ghosts_nil]|]. intros v.
  apply sim_bind; [apply write_sim; [exact Hlm|apply ghosts_nil]|]. intros _. exact IH.
Qed.
Lemma copy_members_sim lm x y flds : frames_in_L lm -> forall j,
  sim [] lm (dcopy_members x y j flds) (copy_members x y j flds).
Proof.
  intros Hlm. induction flds as [|f r IH]; intros j; cbn [dcopy_members copy_members]; [apply sim_lift|].
  apply sim_bind; [apply copy_cells_sim; exact Hlm|]. intros _. apply IH.
Qed.

Lemma bind_defaults_sim lm evm evr ps :
  allP (fun p => In (pname p) L /\ match pdef p with Some d => sim [] lm (evm d) (evr d) | None => True end) ps ->
  sim [] lm (bind_params evm ps []) (bind_params evr ps []).
Proof.
  induction ps as [|p pr IH]; cbn [allP fold_right]; [intros _; apply sim_lift|].
  intros [[HpL Hd] Hr]. rewrite !bind_params_default_eq. destruct (pdef p) as [d|]; [|apply sim_lift].
  apply sim_bind; [exact Hd|]. intros v. apply sim_bind; [apply declare_sim; exact HpL|]. intros _. apply IH. exact Hr.
Qed.

Lemma lval_target_sim lm evm evr lv :
  match lv with LVar _ => True | LIdx _ idx => allP (fun e => sim [] lm (evm e) (evr e)) idx end ->
  sim [] lm (lval_target evm lv) (lval_target evr lv).
Proof.
  destruct lv as [x|a idx]; cbn [lval_target]; [intros _; apply sim_lift|].
  intros H. apply sim_bind; [apply eval_list_sim; exact H|]. intros. apply sim_lift.
Qed.

Lemma mexec_static_eq k cst t x init : mexec true funcs (Datatypes.S k) (SDecl cst true t x init) =
  (v <- lit_or (meval true funcs k) init ;;
   lift (coerce t v) ;;;
   known <- m_static_known x ;;
   if known then ret tt
   else v2 <- (match init with Some e => meval true funcs k e | None => ret 0 end) ;; d_static_raw cst t x v2).
Proof. reflexivity. Qed.

(* create_static_variable stores unchecked what Ref stores through the range check: the same for a value that fits *)
Lemma static_raw_sim lm cst t x z :
  In x S -> coerce t z = Val z -> sim [] lm (d_static_raw cst t x z) (m_declare true cst t x [] [z]).
Proof.
  intros HxS Hc rs HI _. destruct (inv_top _ HI) as (C & lr & Hfr & HC).
  unfold m_declare, d_static_raw. rewrite coerce_all_one, Hc, (cur_fn_emb_nil lm rs C lr Hfr).
  unfold cur_fn. rewrite Hfr. cbn [fst snd].
  split; [unfold emb, statics_of; cbn; rewrite Hfr; reflexivity|].
  destruct HI as [_ HG HS]. constructor; cbn; [exists C, lr; split; [reflexivity|exact HC]|exact HG|].
  intros g y. unfold statics_of. cbn. destruct (Nat.eq_dec g (ffn C)) as [->|Hne].
  - rewrite statics_of_set_same. cbn. destruct (Nat.eqb y x) eqn:Ey; [apply Nat.eqb_eq in Ey; subst y; intros _; exact HxS|apply HS].
  - rewrite statics_of_set_other by congruence. apply HS.
Qed.

(* under the side condition the initialiser is absent or a literal z that fits: both evaluations of
   it are the same state-free [pure], and Mech's first (unfuelled) evaluation and range check do nothing *)
Lemma static_decl_sim k lm cst t x init :
  In x S -> static_init_ok t init ->
  sim [] lm (mexec true funcs (Datatypes.S k) (SDecl cst true t x init)) (exec funcs (Datatypes.S k) (SDecl cst true t x init)).
Proof.
  intros HxS Hinit. rewrite mexec_static_eq, exec_static_decl_eq.
  assert (Hz : exists z pure, coerce t z = Val z /\ lit_or (meval true funcs k) init = ret z /\
                 match init with Some e => meval true funcs k e | None => ret 0 end = lift pure /\
                 match init with Some e => eval funcs k e | None => ret 0 end = lift pure /\
                 (forall v, pure = Val v -> v = z)).
  { destruct init as [e|]; [destruct e; try contradiction|].
    - exists z, (match k with O => Fail ENoFuel | _ => Val z end).
      destruct k; repeat split; try exact Hinit; try reflexivity; [discriminate|intros v [= <-]; reflexivity].
    - exists 0, (Val 0). repeat split; [apply coerce_zero|intros v [= <-]; reflexivity]. }
  destruct Hz as (z & pure & Hc & -> & -> & -> & Hval).
  apply sim_ext with (mm' := known <- m_static_known x ;;
                             if known then ret tt else v2 <- lift pure ;; d_static_raw cst t x v2).
  { intros ms. cbv [bind ret lift]. rewrite Hc. reflexivity. }
  apply sim_bind; [apply static_known_sim|]. intros [|]; [apply sim_lift|].
  destruct pure as [v| | | |]; try apply sim_lift.
  rewrite (Hval v eq_refl). apply (static_raw_sim lm cst t x z HxS Hc).
Qed.

Definition recast {A B} (c : ctl A) (b : B) : ctl B :=
  match c with Val _ => Val b | Brk => Brk | Cnt => Cnt | Ret v => Ret v | Fail e => Fail e end.

Definition Fr (f : ident) (acc : scope) : frame := {| ffn := f; fscopes := [acc] |}.

Lemma bound_in_cons f acc Gf x : bound_in (Fr f acc :: Gf) x <-> assoc x acc <> None \/ bound_in Gf x.
Proof.
  unfold bound_in. cbn. destruct (assoc x acc); [split; [left|]; congruence|]. split; [right; assumption|intros [H|H]; [congruence|exact H]].
Qed.

Lemma meval_call_eq k f args : meval true funcs (Datatypes.S k) (ECall f args) =
  match find_func f funcs with
  | None => fail EUnbound
  | Some fd =>
      m_push_frame f ;;;
      finally
        (if (Nat.ltb (List.length args) (required (fparams fd))) || (Nat.ltb (List.length (fparams fd)) (List.length args))
         then fail EArity
         else map_ctl (call_result (fret fd))
                (dbind_args (meval true funcs k) (fparams fd) args ;;;
                 bind_params (meval true funcs k) (skipn (List.length args) (fparams fd)) [] ;;;
                 exec_list (mexec true funcs k) (fbody fd)))
        pop_frame_st
  end.
Proof. reflexivity. Qed.

Lemma call_result_unbound rt c : call_result rt c <> Fail EUnbound -> c <> Fail EUnbound.
Proof. intros H ->. apply H. reflexivity. Qed.

Lemma frames_in_L_mid Gf C lm : frames_in_L Gf -> scopes_in_L (fscopes C) -> frames_in_L lm -> frames_in_L (Gf ++ C :: lm).
Proof.
  intros H1 H2 H3 x. unfold bound_in. rewrite frames_get_app. destruct (frames_get x Gf) eqn:E.
  - intros _. apply H1. unfold bound_in. rewrite E. discriminate.
  - cbn. destruct (scopes_get x (fscopes C)) eqn:E2.
    + intros _. apply H2. rewrite E2. discriminate.
    + intros H. apply H3. exact H.
Qed.

(* one step of the induction on fuel: the refinement at fuel k gives the refinement at fuel k + 1 *)
Section Step.
Variable k : nat.
Hypothesis IHe : forall e Gf lm, wf_expr funcs S e -> frames_in_L lm -> frames_in_L Gf ->
  (forall x, In x (vars e) -> ghosts_ok Gf x) -> sim Gf lm (meval true funcs k e) (eval funcs k e).
Hypothesis IHx : forall st lm, wf_stmt funcs L S st -> frames_in_L lm -> sim [] lm (mexec true funcs k st) (exec funcs k st).

Lemma exprs_sim es Gf lm : allP (wf_expr funcs S) es -> frames_in_L lm -> frames_in_L Gf ->
  (forall x, In x (flat_map vars es) -> ghosts_ok Gf x) ->
  allP (fun e => sim Gf lm (meval true funcs k e) (eval funcs k e)) es.
Proof.
  intros Hw Hlm HGf Hgh. eapply allP_impl; [|exact Hw]. cbn. intros e He Hwe.
  apply IHe; try assumption. intros x Hx. apply Hgh, in_flat_map. exists e. split; assumption.
Qed.
(* in a body no callee frame is half-built *)
Lemma body_expr_sim e lm : wf_expr funcs S e -> frames_in_L lm -> sim [] lm (meval true funcs k e) (eval funcs k e).
Proof. intros Hw Hlm. apply IHe; [exact Hw|exact Hlm|exact frames_in_L_nil|intros x _; apply ghosts_nil]. Qed.
Lemma body_exprs_sim es lm : allP (wf_expr funcs S) es -> frames_in_L lm ->
  allP (fun e => sim [] lm (meval true funcs k e) (eval funcs k e)) es.
Proof. intros Hw Hlm. apply exprs_sim; [exact Hw|exact Hlm|exact frames_in_L_nil|intros x _; apply ghosts_nil]. Qed.
Lemma stmts_sim ss lm : allP (wf_stmt funcs L S) ss -> frames_in_L lm ->
  sim [] lm (exec_list (mexec true funcs k) ss) (exec_list (exec funcs k) ss).
Proof. intros Hw Hlm. apply exec_list_sim. eapply allP_impl; [|exact Hw]. cbn. intros st _ Hst. apply IHx; assumption. Qed.
Lemma block_stmts_sim ss lm : allP (wf_stmt funcs L S) ss -> frames_in_L lm ->
  sim [] lm (blockm true (exec_list (mexec true funcs k) ss)) (in_block (exec funcs k) ss).
Proof. intros Hw Hlm. unfold in_block. apply block_sim. apply stmts_sim; assumption. Qed.
Lemma lval_sim lv lm : wf_lval funcs S lv -> frames_in_L lm ->
  sim [] lm (lval_target (meval true funcs k) lv) (lval_target (eval funcs k) lv).
Proof. intros Hw Hlm. apply lval_target_sim. destruct lv; [exact I|]. apply body_exprs_sim; assumption. Qed.

(* the supplied arguments: Ref evaluates them in the caller; Mech evaluates argument i in the half-built
   callee frame [Fr f acc] that already holds parameters 1..i-1 *)
Lemma args_sim f Gf lm : frames_in_L lm -> frames_in_L Gf ->
  forall es ps seen acc rs c rs',
    Inv rs ->
    (forall x, assoc x acc <> None -> In x seen /\ In x L) ->
    allP (fun p => In (pname p) L) ps ->
    allP (wf_expr funcs S) es -> args_ok S seen ps es ->
    (forall x, In x (flat_map vars es) -> ghosts_ok Gf x) ->
    (List.length es <= List.length ps)%nat ->
    eval_args (eval funcs k) ps es rs = (c, rs') -> c <> Fail EUnbound ->
    Inv rs' /\
    exists acc', dbind_args (meval true funcs k) ps es (emb (Fr f acc :: Gf) lm rs) = (recast c tt, emb (Fr f acc' :: Gf) lm rs') /\
                 (forall vs, c = Val vs -> acc' = bound_scope ps vs acc).
Proof.
  intros Hlm HGf. induction es as [|e er IH]; intros ps seen acc rs c rs' HI Hacc HpL Hwf Hok Hgh Hlen Hev Hn.
  - cbn in Hev. injection Hev as <- <-. split; [exact HI|]. exists acc. split; [reflexivity|].
    intros vs [= <-]. destruct ps; reflexivity.
  - destruct ps as [|p pr]; [cbn in Hlen; lia|].
    cbn [allP fold_right] in Hwf, HpL. destruct Hwf as [Hwe Hwr]. destruct HpL as [HpL HprL].
    cbn [args_ok] in Hok. destruct Hok as [Hoke Hokr].
    cbn [eval_args] in Hev. cbn [dbind_args]. unfold bind in Hev |- *.
    assert (Hghe : forall x, In x (vars e) -> ghosts_ok (Fr f acc :: Gf) x).
    { intros x Hx. destruct (Hoke x Hx) as [Hs1 Hs2]. split; [|intros _; exact Hs2].
      intros Hb. apply bound_in_cons in Hb as [Hb|Hb].
      - apply Hs1. apply Hacc. exact Hb.
      - apply (proj1 (Hgh x (in_or_app _ _ _ (or_introl Hx)))). exact Hb. }
    assert (HFL : frames_in_L (Fr f acc :: Gf)).
    { intros x Hb. apply bound_in_cons in Hb as [Hb|Hb]; [apply Hacc; exact Hb|apply HGf; exact Hb]. }
    pose proof (IHe e (Fr f acc :: Gf) lm Hwe Hlm HFL Hghe rs HI) as Hs.
    destruct (eval funcs k e rs) as [c1 rs1] eqn:E1. cbn [fst snd] in Hs.
    destruct c1 as [w| | |rv|e1].
    2-5: injection Hev as <- <-; destruct Hs as [-> HI1]; [first [discriminate|apply (fail_ne _ Hn)]|]; split; [exact HI1|];
         exists acc; split; [reflexivity|intros vs; discriminate].
    destruct Hs as [Hm HI1]; [discriminate|]. rewrite Hm.
    unfold lift in Hev |- *. destruct (coerce (pty p) w) as [v'| | | |e2] eqn:Ec.
    2-5: injection Hev as <- <-; split; [exact HI1|]; exists acc; split; [reflexivity|intros vs; discriminate].
    (* the parameter is bound in the half-built frame *)
    assert (Hdecl : m_declare false false (pty p) (pname p) [] [v'] (emb (Fr f acc :: Gf) lm rs1) =
                    (Val tt, emb (Fr f ((pname p, scalar_entry (pty p) v') :: acc) :: Gf) lm rs1)).
    { unfold m_declare. rewrite coerce_all_one, (coerce_idem _ _ _ Ec). reflexivity. }
    rewrite Hdecl.
    destruct (eval_args (eval funcs k) pr er rs1) as [c2 rs2] eqn:E2.
    assert (Hn2 : c2 <> Fail EUnbound).
    { intros ->. apply Hn. injection Hev as <- <-. reflexivity. }
    destruct (IH pr (pname p :: seen) ((pname p, scalar_entry (pty p) v') :: acc) rs1 c2 rs2 HI1) as [HI2 [acc' [Hm2 Hacc']]]; try assumption.
    + intros x. cbn. destruct (Nat.eqb x (pname p)) eqn:Ex.
      * apply Nat.eqb_eq in Ex. subst x. intros _. split; [left; reflexivity|exact HpL].
      * intros Hx. destruct (Hacc x Hx). split; [right|]; assumption.
    + intros x Hx. apply Hgh. cbn. apply in_or_app. right. exact Hx.
    + cbn in Hlen. lia.
    + rewrite Hm2. destruct c2; injection Hev as <- <-; (split; [exact HI2|]); exists acc'; (split; [reflexivity|]); try (intros vs; discriminate).
      intros vs [= <-]. cbn [bound_scope]. apply Hacc'. reflexivity.
Qed.

Lemma call_sim f args Gf lm :
  wf_expr funcs S (ECall f args) -> frames_in_L lm -> frames_in_L Gf ->
  (forall x, In x (vars (ECall f args)) -> ghosts_ok Gf x) ->
  sim Gf lm (meval true funcs (Datatypes.S k) (ECall f args)) (eval funcs (Datatypes.S k) (ECall f args)).
Proof.
  intros Hwf Hlm HGf Hgh rs HI. rewrite meval_call_eq, eval_S_call.
  cbn [wf_expr] in Hwf. destruct Hwf as [Hwa Hok].
  destruct (find_func f funcs) as [fd|] eqn:Ef; [|intros Hn; exfalso; apply Hn; reflexivity].
  pose proof (sc_funcs _ _ _ _ SC fd (find_func_in funcs f fd Ef)) as [Hwp Hwb].
  destruct ((List.length args <? required (fparams fd))%nat || (List.length (fparams fd) <? List.length args)%nat) eqn:Ear.
  - (* wrong argument count: the callee's scope is pushed, the test fails, the scope is popped *)
    intros _. split; [|exact HI]. reflexivity.
  - apply orb_false_iff in Ear as [Ear1 Ear2]. apply Nat.ltb_ge in Ear1, Ear2.
    rewrite call_bracket_run, !bind_unfold.
    change (fresh_frame f (emb Gf lm rs)) with (emb (Fr f [] :: Gf) lm rs).
    pose proof (vf_eval_args funcs k (fparams fd) args rs) as Hvf.
    destruct (eval_args (eval funcs k) (fparams fd) args rs) as [c rs1] eqn:Ea.
    cbn [fst] in Hvf. intros Hn.
    assert (Hn1 : c <> Fail EUnbound).
    { intros ->. apply Hn. reflexivity. }
    destruct (args_sim f Gf lm Hlm HGf args (fparams fd) [] [] rs c rs1 HI) as [HI1 [acc' [Hm Hacc']]]; try assumption.
    { cbn. intros x Hx. congruence. }
    { eapply allP_impl; [|exact Hwp]. cbn. tauto. }
    rewrite Hm.
    destruct (inv_top _ HI1) as (C & lr & Hfr1 & HC).
    destruct c as [vs| | |rv|e0]; try contradiction.
    2: { (* an argument failed *) split; [reflexivity|exact HI1]. }
    rewrite call_bracket_run in *.
    cbn [recast]. specialize (Hacc' vs eq_refl). subst acc'.
    (* Ref: push the frame, bind the supplied values *)
    set (n := List.length args) in *.
    assert (Hae : args_eval (eval funcs k) (fparams fd) args rs vs rs1) by (apply eval_args_spec; [exact Ear2|exact Ea]).
    set (rs2 := with_top_scope rs1 f (bound_scope (fparams fd) vs []) (sframes rs1)).
    pose proof (call_inside_below funcs k (fparams fd) vs (fbody fd) (fresh_frame f rs1)) as Hbel.
    assert (Hshape : (bind_params (eval funcs k) (fparams fd) vs ;;; exec_list (exec funcs k) (fbody fd)) (fresh_frame f rs1) =
                     (bind_params (eval funcs k) (skipn n (fparams fd)) [] ;;; exec_list (exec funcs k) (fbody fd)) rs2).
    { unfold bind. change (fresh_frame f rs1) with (with_top_scope rs1 f [] (sframes rs1)).
      rewrite (bind_supplied _ _ _ _ _ _ Hae rs1 f [] (sframes rs1)). reflexivity. }
    rewrite Hshape in *.
    (* the Mech state is the embedding of Ref's state after binding *)
    assert (Hemb : emb (Fr f (bound_scope (fparams fd) vs []) :: Gf) lm rs1 = emb [] (Gf ++ C :: lm) rs2).
    { unfold emb, rs2, with_top_scope, Fr. cbn. rewrite Hfr1. reflexivity. }
    rewrite Hemb.
    assert (HI2 : Inv rs2).
    { apply Inv_frames; [exact HI1|]. intros x Hx. cbn in Hx.
      destruct (assoc x (bound_scope (fparams fd) vs [])) eqn:Eb; [|congruence].
      destruct (bound_scope_names (fparams fd) vs [] x) as [Hb|Hb]; [rewrite Eb; discriminate|cbn in Hb; congruence|].
      apply in_map_iff in Hb as [p [<- Hp]]. apply (allP_in _ _ p Hwp Hp). }
    assert (Hlm' : frames_in_L (Gf ++ C :: lm)) by (apply frames_in_L_mid; assumption).
    (* defaults and body run in body mode above the enlarged lower stack *)
    assert (Hbody : sim [] (Gf ++ C :: lm)
              (bind_params (meval true funcs k) (skipn n (fparams fd)) [] ;;; exec_list (mexec true funcs k) (fbody fd))
              (bind_params (eval funcs k) (skipn n (fparams fd)) [] ;;; exec_list (exec funcs k) (fbody fd))).
    { apply sim_bind.
      - apply bind_defaults_sim. apply allP_skipn. eapply allP_impl; [|exact Hwp]. cbn. intros p _ [HpL Hd]. split; [exact HpL|].
        destruct (pdef p) as [d|]; [|exact I]. apply body_expr_sim; [exact Hd|exact Hlm'].
      - intros _. apply stmts_sim; [exact Hwb|exact Hlm']. }
    specialize (Hbody rs2 HI2).
    destruct ((bind_params (eval funcs k) (skipn n (fparams fd)) [] ;;; exec_list (exec funcs k) (fbody fd)) rs2) as [c3 rs3] eqn:E3.
    cbn [fst snd] in *.
    destruct Hbody as [Hm3 HI3]; [apply (call_result_unbound (fret fd)); exact Hn|].
    rewrite Hm3. cbn [fst snd].
    destruct Hbel as [Htl _]. cbn in Htl.
    destruct (inv_top _ HI3) as (C3 & lr3 & Hfr3 & _).
    rewrite Hfr3 in Htl. cbn in Htl. subst lr3.
    split.
    + unfold pop_frame_st, emb. cbn. rewrite Hfr3. cbn. rewrite Hfr1. cbn. reflexivity.
    + unfold pop_frame_st. rewrite Hfr3, Hfr1. apply Inv_frames; [exact HI3|exact HC].
Qed.
Lemma expr_step e Gf lm : wf_expr funcs S e -> frames_in_L lm -> frames_in_L Gf ->
  (forall x, In x (vars e) -> ghosts_ok Gf x) ->
  sim Gf lm (meval true funcs (Datatypes.S k) e) (eval funcs (Datatypes.S k) e).
Proof.
  intros Hwf Hlm HGf Hgh.
  assert (sub : forall e', wf_expr funcs S e' -> incl (vars e') (vars e) -> sim Gf lm (meval true funcs k e') (eval funcs k e')).
  { intros e' Hw Hi. apply IHe; try assumption. intros x Hx. apply Hgh, Hi, Hx. }
  destruct e; cbn [wf_expr] in Hwf; cbn [vars] in sub.
  - apply sim_lift.
  - apply read_sim; [exact Hlm|apply Hgh; left; reflexivity].
  - cbn [meval eval]. apply sim_bind; [apply sub; [exact Hwf|apply incl_refl]|]. intros. apply sim_lift.
  - destruct Hwf as [H1 H2]. cbn [meval eval].
    apply sim_bind; [apply sub; [exact H1|apply incl_appl, incl_refl]|]. intros.
    apply sim_bind; [apply sub; [exact H2|apply incl_appr, incl_refl]|]. intros. apply sim_lift.
  - destruct Hwf as [H1 H2]. cbn [meval eval].
    apply sim_bind; [apply sub; [exact H1|apply incl_appl, incl_refl]|]. intros v.
    destruct (v =? 0); [apply sim_lift|].
    apply sim_bind; [apply sub; [exact H2|apply incl_appr, incl_refl]|]. intros. apply sim_lift.
  - destruct Hwf as [H1 H2]. cbn [meval eval].
    apply sim_bind; [apply sub; [exact H1|apply incl_appl, incl_refl]|]. intros v.
    destruct (v =? 0); [|apply sim_lift].
    apply sim_bind; [apply sub; [exact H2|apply incl_appr, incl_refl]|]. intros. apply sim_lift.
  - destruct Hwf as [H1 [H2 H3]]. cbn [meval eval].
    apply sim_bind; [apply sub; [exact H1|apply incl_appl, incl_refl]|]. intros v.
    destruct (v =? 0); apply sub; try assumption; apply incl_appr; [apply incl_appr|apply incl_appl]; apply incl_refl.
  - apply call_sim; assumption.
  - cbn [meval eval]. apply sim_bind.
    + apply eval_list_sim. apply exprs_sim; try assumption. intros x Hx. apply Hgh. right. exact Hx.
    + intros. apply read_sim; [exact Hlm|apply Hgh; left; reflexivity].
Qed.

Lemma stmt_step st lm : wf_stmt funcs L S st -> frames_in_L lm ->
  sim [] lm (mexec true funcs (Datatypes.S k) st) (exec funcs (Datatypes.S k) st).
Proof.
  (* [simpl], not [cbn]: unfolding mexec / exec with cbn leaves the other function of the mutual
     fixpoint (meval / eval) as an unfolded fix in the goal *)
  intros Hwf Hlm. destruct st; cbn [wf_stmt] in Hwf.
  - destruct sta.
    + destruct Hwf as [H1 H2]. apply static_decl_sim; assumption.
    + destruct Hwf as [H1 H2]. simpl mexec. simpl exec.
      apply sim_bind; [destruct init; [apply body_expr_sim; assumption|apply sim_lift]|]. intros. apply declare_sim. exact H1.
  - destruct Hwf as [H1 H2]. simpl mexec. simpl exec.
    apply sim_bind; [apply eval_list_sim; apply body_exprs_sim; assumption|]. intros. apply declare_sim. exact H1.
  - destruct Hwf as [H1 H2]. destruct op; simpl mexec; simpl exec.
    + apply sim_bind; [apply lval_sim; assumption|]. intros tg.
      apply sim_bind; [apply read_sim; [exact Hlm|apply ghosts_nil]|]. intros.
      apply sim_bind; [apply body_expr_sim; assumption|]. intros.
      apply sim_bind; [apply sim_lift|]. intros. apply write_sim; [exact Hlm|apply ghosts_nil].
    + apply sim_bind; [apply body_expr_sim; assumption|]. intros.
      apply sim_bind; [apply lval_sim; assumption|]. intros tg. apply assign_sim. exact Hlm.
  - simpl mexec. simpl exec. apply sim_bind; [apply lval_sim; assumption|]. intros tg.
    apply sim_bind; [apply read_sim; [exact Hlm|apply ghosts_nil]|]. intros.
    apply sim_bind; [apply sim_lift|]. intros. apply write_sim; [exact Hlm|apply ghosts_nil].
  - simpl mexec. simpl exec. apply sim_bind; [apply body_expr_sim; assumption|]. intros. apply sim_lift.
  - destruct Hwf as [H1 [H2 H3]]. simpl mexec. simpl exec.
    apply sim_bind; [apply body_expr_sim; assumption|]. intros v. destruct (v =? 0); apply block_stmts_sim; assumption.
  - destruct Hwf as [H1 H2]. simpl mexec. simpl exec.
    apply sim_bind; [apply body_expr_sim; assumption|]. intros v. destruct (v =? 0); [apply sim_lift|].
    apply sim_loop_step; [apply block_stmts_sim; assumption|]. apply IHx; [cbn [wf_stmt]; split; assumption|exact Hlm].
  - destruct Hwf as [H1 [H2 [H3 H4]]]. simpl mexec. simpl exec. apply block_sim.
    apply sim_bind; [apply stmts_sim; assumption|]. intros _.
    apply sim_bind; [apply body_expr_sim; assumption|]. intros v. destruct (v =? 0); [apply sim_lift|].
    apply sim_loop_step; [apply block_stmts_sim; assumption|].
    apply sim_bind; [apply stmts_sim; assumption|]. intros _.
    apply IHx; [cbn [wf_stmt allP fold_right]; repeat split; assumption|exact Hlm].
  - apply sim_lift.
  - apply sim_lift.
  - destruct e; simpl mexec; simpl exec; [|apply sim_lift]. cbn [wf_opt] in Hwf.
    apply sim_bind; [apply body_expr_sim; assumption|]. intros. apply sim_lift.
  - simpl mexec. simpl exec. apply block_stmts_sim; assumption.
  - simpl mexec. simpl exec. apply sim_bind; [apply print_args_sim; apply body_exprs_sim; assumption|]. intros _.
    destruct nl; [apply out_sim|apply sim_lift].
  - simpl mexec. simpl exec. apply decl_members_sim. intros i Hi. apply Hwf. exact Hi.
  - simpl mexec. simpl exec. apply copy_members_sim. exact Hlm.
Qed.
End Step.

Theorem refine_all : forall k,
  (forall e Gf lm, wf_expr funcs S e -> frames_in_L lm -> frames_in_L Gf ->
     (forall x, In x (vars e) -> ghosts_ok Gf x) -> sim Gf lm (meval true funcs k e) (eval funcs k e)) /\
  (forall st lm, wf_stmt funcs L S st -> frames_in_L lm -> sim [] lm (mexec true funcs k st) (exec funcs k st)).
Proof.
  induction k as [|k [IHe IHx]]; [split; intros; apply sim_lift|].
  split; [apply expr_step|apply stmt_step]; assumption.
Qed.
End Refine.

Lemma assoc_in_fst {A} x (l : list (ident * A)) : assoc x l <> None -> In x (map fst l).
Proof.
  induction l as [|[y a] r IH]; cbn; [congruence|]. destruct (Nat.eqb x y) eqn:E.
  - apply Nat.eqb_eq in E. intros _. left. congruence.
  - intros H. right. apply IH. exact H.
Qed.

Lemma init_globals_names gs acc g x :
  Print.init_globals gs acc = Some g -> assoc x g <> None -> In x (map gname gs) \/ assoc x acc <> None.
Proof.
  revert acc. induction gs as [|d r IH]; intros acc; cbn [Print.init_globals map].
  - intros [= <-] H. right. exact H.
  - destruct (coerce_all (gty d) (ginit d)); try discriminate. intros Hg Hx.
    destruct (IH _ Hg Hx) as [H|H]; [left; right; exact H|].
    cbn in H. destruct (Nat.eqb x (gname d)) eqn:E; [apply Nat.eqb_eq in E; left; left; congruence|right; exact H].
Qed.
