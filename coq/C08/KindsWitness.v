(* C08 - the restore policy of evaluate_function_call_impl is exactly what the property needs: one
   program that leaves through all four exits separates every unsound policy from Ref. *)
From Coq Require Import List ZArith.
From Cb Require Import Lang.Syntax Lang.Print C08.Kinds C08.KindsLemmas.
Import ListNotations.
Local Open Scope Z_scope.

Definition n70 : ident := 70%nat.
Definition bump : list kstmt := [KAsg n70 (KBin Add (KVar n70) (KNum 1))].
Definition counter (f : ident) (k : kind) (init : Z) (tail : list kstmt) : kfunc :=
  {| kfname := f; kfret := k; kfvia := 0%nat; kfparams := [];
     kfbody := KDecl true KLong n70 (KNum init) :: bump ++ tail |}.

(* f1 runs to its end (void), f2 returns a long, f3 returns a string, f4 divides by zero;
   f5 owns a static of the same name and counts its own steps between the calls *)
Definition w_exits : kprog :=
  {| kpglob := [];
     kpfuncs :=
       [ counter 1%nat KVoid 100 [];
         counter 2%nat KLong 200 [KRet (Some (KVar n70))];
         counter 3%nat KStr 300 [KRet (Some (KLit KStr 1))];
         counter 4%nat KLong 400 [KRet (Some (KBin Div (KNum 1) (KNum 0)))];
         counter 5%nat KLong 0
           ([KExpr (KCall 1%nat [])] ++ bump ++
            [KDecl false KLong 2%nat (KCall 2%nat [])] ++ bump ++
            [KDecl false KStr 3%nat (KCall 3%nat [])] ++ bump ++
            [KDecl false KLong 4%nat (KNum 0); KTry 4%nat (KCall 4%nat [])] ++ bump ++
            [KRet (Some (KVar n70))]) ];
     kpmain := [KPrint [(KLong, KCall 5%nat [])]; KPrint [(KLong, KCall 5%nat [])]] |}.

Example w_exits_ref : kref_run 40 w_exits = ([KOVal KLong 5; KONl; KOVal KLong 10; KONl], Finished).
Proof. vm_compute. reflexivity. Qed.

Lemma unsound_policy_separated pol : policy_ok pol = false -> k_run true pol 40 w_exits <> kref_run 40 w_exits.
Proof.
  rewrite w_exits_ref.
  destruct pol as [[] [] [] [] []]; unfold policy_ok; simpl; intro H; try discriminate H;
    vm_compute; intro Heq; discriminate Heq.
Qed.

(* the filed change C08-1: 6771 moved behind the re-throws, 6911 made conditional on a flag that is
   never set there - the string / double callee leaves the register on its own name *)
Definition seeded_policy : policy := {| p_end := true; p_ret := false; p_int := true; p_outer := false; p_err := true |}.
Definition w_seeded : kprog :=
  {| kpglob := [];
     kpfuncs :=
       [ counter 1%nat KStr 100 [KRet (Some (KLit KStr 0))];
         counter 2%nat KInt 0 [KDecl false KStr 1%nat (KCall 1%nat []); KAsg n70 (KBin Add (KVar n70) (KNum 1));
                           KPrint [(KStr, KVar 1%nat); (KLong, KVar n70)]; KRet (Some (KVar n70))] ];
     kpmain := [KPrint [(KInt, KCall 2%nat [])]; KPrint [(KInt, KCall 2%nat [])]] |}.
Example w_seeded_ref : kref_run 40 w_seeded =
  ([KOVal KStr 0; KOSp; KOVal KLong 2; KONl; KOVal KInt 2; KONl;
    KOVal KStr 0; KOSp; KOVal KLong 4; KONl; KOVal KInt 4; KONl], Finished).
Proof. vm_compute. reflexivity. Qed.
Example w_seeded_bad : k_run true seeded_policy 40 w_seeded =
  ([KOVal KStr 0; KOSp; KOVal KLong 102; KONl; KOVal KInt 102; KONl;
    KOVal KStr 0; KOSp; KOVal KLong 104; KONl; KOVal KInt 104; KONl], Finished).
Proof. vm_compute. reflexivity. Qed.
