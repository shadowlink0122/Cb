(* C17 - provenance and order of the emitted lines, for EVERY directive sequence (well nested or not):
   the output of the line loop is obtained from a subsequence of the source lines, in source order, each
   emitted line being either the macro expansion of a plain text line or the error comment of that line.
   The theorems are in Properties_C17_order.v. *)
From Coq Require Import List.
From Cb Require Import C17.Model C17.Spec.
Import ListNotations.
Local Open Scope list_scope.

(* what one source line may contribute to the output *)
Definition from_line (rk : str * kind) (o : str) : Prop :=
  o = err_comment (fst rk) \/ (snd rk = KPlain PText /\ exists t, o = fst (expand t (fst rk))).

(* [provenance ls out]: out is produced line by line from a subsequence of ls, order kept *)
Inductive provenance : list (str * kind) -> list str -> Prop :=
| pv_nil : provenance [] []
| pv_skip rk ls out : provenance ls out -> provenance (rk :: ls) out
| pv_take rk ls o out : from_line rk o -> provenance ls out -> provenance (rk :: ls) (o :: out).

Lemma fail_line_out live c raw :
  outp (fail_line live c raw) = outp c ++ (if live then [err_comment raw] else []).
Proof. unfold fail_line; destruct live; simpl; [reflexivity | now rewrite app_nil_r]. Qed.

(* one step appends nothing or one line that comes from the line just read *)
Definition step_new (c : core) (rk : str * kind) (c' : core) : Prop :=
  outp c' = outp c \/ exists o, outp c' = outp c ++ [o] /\ from_line rk o.

Lemma step_new_fail live c raw k : step_new c (raw, k) (fail_line live c raw).
Proof.
  unfold step_new; rewrite fail_line_out; destruct live.
  - right; exists (err_comment raw); split; [reflexivity | left; reflexivity].
  - left; apply app_nil_r.
Qed.

Lemma step_new_same c rk c' : outp c' = outp c -> step_new c rk c'.
Proof. intro H; left; exact H. Qed.

Lemma plain_step_new live c raw k : step_new c (raw, KPlain k) (plain_step live c raw k).
Proof.
  destruct k; cbn [plain_step];
    try (destruct live; try apply step_new_fail; apply step_new_same; reflexivity);
    try apply step_new_fail.
  - (* PText *)
    destruct live; [|apply step_new_same; reflexivity].
    destruct (expand (tab c) raw) as [e over] eqn:He.
    right; exists e; split.
    + destruct over; reflexivity.
    + right; split; [reflexivity|]. exists (tab c). cbn [fst]. now rewrite He.
  - (* PDefine *)
    destruct live; [|apply step_new_same; reflexivity].
    apply step_new_same. destruct fn; reflexivity.
  - (* PDefineFnBad *)
    destruct live; [apply (step_new_fail true (add_warn c))|apply step_new_same; reflexivity].
Qed.

Lemma step_step_new p rk : step_new (cor p) rk (cor (step p rk)).
Proof.
  destruct rk as [raw k]. change (step_new (tick (cor p)) (raw, k) (cor (step p (raw, k)))). (* [tick] keeps [outp] *)
  destruct (step_cor p raw k) as [->|[[live ->]|(pk & -> & ->)]].
  - apply step_new_same. reflexivity.
  - apply step_new_fail.
  - apply plain_step_new.
Qed.

Lemma run_provenance ls : forall p,
  exists out, outp (cor (run ls p)) = outp (cor p) ++ out /\ provenance ls out.
Proof.
  induction ls as [|rk ls IH]; intro p.
  - exists []; split; [cbn; now rewrite app_nil_r | constructor].
  - rewrite run_cons.
    destruct (IH (step p rk)) as [out [Ho Hp]].
    destruct (step_step_new p rk) as [Hs | [o [Hs Hf]]].
    + exists out; split; [now rewrite Ho, Hs | now constructor].
    + exists (o :: out); split; [rewrite Ho, Hs, <- app_assoc; reflexivity | now constructor].
Qed.

(* directives that are not errors never reach the output: a step on a well-formed directive line
   (#ifdef/#ifndef, #define, #undef, #warning, #error, #include, empty directive) leaves the output alone *)
Definition quiet_kind (k : kind) : bool :=
  match k with
  | KIfdef _ | KIfndef _ => true
  | KPlain (PDefine _ _ _) | KPlain (PUndef _) | KPlain PNop | KPlain PError | KPlain PWarn | KPlain PInclude => true
  | _ => false
  end.
