(* C17 - completeness of error reporting: a line list that is NOT the flattening of a tree of
   well-nested conditional groups always ends with at least one more error - unbalanced
   directives are never ignored. *)
From Coq Require Import List Arith.
From Cb Require Import C17.Model C17.Spec.
Import ListNotations.

(* the nesting discipline alone; the stack holds the else_seen flags *)
Fixpoint wn (ls : list (str * kind)) (st : list bool) : bool :=
  match ls with
  | [] => match st with [] => true | _ => false end
  | (_, k) :: r =>
      match k with
      | KPlain _ => wn r st
      | KIfdef _ | KIfndef _ => wn r (false :: st)
      | KElif _ => match st with false :: _ => wn r st | _ => false end
      | KElse => match st with false :: t => wn r (true :: t) | _ => false end
      | KEndif => match st with _ :: t => wn r t | [] => false end
      end
  end.

(* one line of [wn]: the stack of flags after it, or [None] where the discipline is broken *)
Definition wn1 (k : kind) (st : list bool) : option (list bool) :=
  match k with
  | KPlain _ => Some st
  | KIfdef _ | KIfndef _ => Some (false :: st)
  | KElif _ => match st with false :: _ => Some st | _ => None end
  | KElse => match st with false :: t => Some (true :: t) | _ => None end
  | KEndif => match st with _ :: t => Some t | [] => None end
  end.

Lemma wn_cons raw k r st : wn ((raw, k) :: r) st = match wn1 k st with Some st' => wn r st' | None => false end.
Proof. destruct k, st as [|[|] t]; reflexivity. Qed.

(* [dec st ls]: [ls] is a run of complete items followed, for each open group recorded in [st]
   (innermost first), by the rest of that group and the items after it *)
Inductive dec : list bool -> list (str * kind) -> Prop :=
| dec_items i st r : rest st r -> dec st (fl_items i ++ r)
with rest : list bool -> list (str * kind) -> Prop :=
| rest_nil : rest [] []
| rest_open el ob rawend st r : dec st r ->
    rest (false :: st) (fl_elifs el ++ fl_oitems ob ++ (rawend, KEndif) :: r)
| rest_else rawend st r : dec st r -> rest (true :: st) ((rawend, KEndif) :: r).

Lemma dec_rest st r : rest st r -> dec st r.
Proof. apply (dec_items INil). Qed.

Lemma dec_plain raw pk st l : dec st l -> dec st ((raw, KPlain pk) :: l).
Proof. intros [i st' r H]. apply (dec_items (ICons (IPlain raw pk) i)), H. Qed.

Lemma dec_group raw c st l : dec (false :: st) l ->
  dec st ((raw, match c with CDef n => KIfdef n | CNdef n => KIfndef n end) :: l).
Proof.
  intros H. inversion H as [i st' r Hr]; subst. inversion Hr as [|el ob rawend st0 r0 Hd|]; subst.
  destruct Hd as [i0 st r1 H1].
  replace (_ :: _) with (fl_items (ICons (IGroup raw c i el ob rawend) i0) ++ r1).
  - apply dec_items, H1.
  - cbn [fl_items fl_item app]. rewrite <- !app_assoc. reflexivity.
Qed.

Lemma wn_dec ls : forall st, wn ls st = true -> dec st ls.
Proof.
  induction ls as [|[raw k] r IH]; intros st H; cbn [wn] in H.
  - destruct st; [|discriminate]. apply dec_rest, rest_nil.
  - destruct k as [pk|n|n|n| |].
    + apply dec_plain, IH, H.
    + apply (dec_group raw (CDef n)), IH, H.
    + apply (dec_group raw (CNdef n)), IH, H.
    + destruct st as [|[|] t]; try discriminate. apply IH in H.
      inversion H as [i st' r' H']; subst. inversion H' as [|el ob rawend st0 r0 Hr|]; subst.
      rewrite (app_assoc (fl_items i)). apply dec_rest, (rest_open (ECons raw n i el) ob rawend), Hr.
    + destruct st as [|[|] t]; try discriminate. apply IH in H.
      inversion H as [i st' r' H']; subst. inversion H' as [| |rawend st0 r0 Hr]; subst.
      apply dec_rest, (rest_open ENil (OSome raw i) rawend), Hr.
    + destruct st as [|b t]; [discriminate|]. apply IH in H. destruct b.
      * apply dec_rest, rest_else, H.
      * apply dec_rest, (rest_open ENil ONone), H.
Qed.

(* every file whose nesting is accepted is the flattening of a tree *)
Lemma wn_is_tree ls : wn ls [] = true -> exists its, ls = fl_items its.
Proof.
  intros H. apply wn_dec in H. inversion H as [i st r Hr]; subst. inversion Hr. exists i. apply app_nil_r.
Qed.

(* conversely a tree's flattening is accepted *)
Lemma tree_wn :
  (forall it st r, wn (fl_item it ++ r) st = wn r st) /\
  (forall its st r, wn (fl_items its ++ r) st = wn r st) /\
  (forall es t r, wn (fl_elifs es ++ r) (false :: t) = wn r (false :: t)) /\
  (forall ob t r, exists b, wn (fl_oitems ob ++ r) (false :: t) = wn r (b :: t)).
Proof.
  apply tree_mind.
  - intros raw k st r. reflexivity.
  - intros r0 c body IHb el IHe els IHo r1 st r. cbn [fl_item app]. rewrite wn_cons.
    replace (wn1 _ st) with (Some (false :: st)) by (destruct c; reflexivity).
    rewrite <- !app_assoc, IHb, IHe. destruct (IHo st ([(r1, KEndif)] ++ r)) as [b ->]. reflexivity.
  - intros st r. reflexivity.
  - intros i IHi r0 IHr st r. cbn [fl_items]. rewrite <- app_assoc, IHi, IHr. reflexivity.
  - intros t r. reflexivity.
  - intros raw n b IHb r0 IHr t r. cbn [fl_elifs app wn]. rewrite <- app_assoc, IHb, IHr. reflexivity.
  - intros t r. exists false. reflexivity.
  - intros raw b IHb t r. exists true. cbn [fl_oitems app wn]. rewrite IHb. reflexivity.
Qed.

(* the machine's stack of else_seen flags *)
Definition flags (p : pstate) : list bool := map else_seen (stack p).

(* the machine follows the discipline where it can and reports an error where it cannot *)
Lemma step_flags p raw k :
  match wn1 k (flags p) with
  | Some st' => flags (step p (raw, k)) = st'
  | None => nerr (cor (step p (raw, k))) = S (nerr (cor p))
  end.
Proof.
  destruct p as [st c], k as [pk|n|n|n| |]; try reflexivity;
    destruct st as [|[m [|] [|]] st]; try reflexivity; apply (nerr_fail_line _ (tick c)).
Qed.

(* a file that violates the nesting discipline always gains an error *)
Lemma ill_nested_is_error ls : forall p, wn ls (flags p) = false ->
  nerr (cor p) < nerr (finish (run ls p)).
Proof.
  induction ls as [|[raw k] r IH]; intros p H.
  - change (run [] p) with p. unfold finish, flags in *. destruct (stack p); [discriminate|apply le_n].
  - rewrite wn_cons in H. rewrite run_cons. pose proof (step_flags p raw k) as S.
    destruct (wn1 k (flags p)) as [st'|].
    + eapply Nat.le_lt_trans; [apply nerr_step|]. apply IH. rewrite S. exact H.
    + unfold lt. rewrite <- S. etransitivity; [apply nerr_run|]. unfold finish. destruct (stack _); [apply le_n|apply le_S, le_n].
Qed.
