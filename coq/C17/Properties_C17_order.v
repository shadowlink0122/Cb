(* C17 - property theorems only: provenance and order of the emitted lines ("emits, in order, exactly
   those source lines ..."), for EVERY sequence of lines and directives, well nested or not, any initial
   macro table. Statements are about the Mech model of preprocessor.cpp (Model.v); the induction over
   the line loop is in Order.v. *)
From Coq Require Import List String Lia.
Local Open Scope string_scope.
Local Open Scope list_scope.
From Cb Require Import C17.Model C17.Spec C17.Order.
Import ListNotations.

(* The output of Preprocessor::process is produced from a subsequence of the source lines in source
   order: nothing is invented, duplicated or reordered. Each emitted line is the macro expansion of a
   plain text line, or the "// ... [preprocessor error]" comment of the line that was rejected. *)
Theorem output_is_ordered_subsequence_of_source : forall t file lines,
  provenance (map (fun l => (l, classify l)) lines) (outp (process t file lines)).
Proof.
  intros t file lines. unfold process, finish.
  destruct (run_provenance (map (fun l => (l, classify l)) lines) (mkp [] (init_core t file))) as [out [Ho Hp]].
  cbn [cor mkp init_core outp app] in Ho. destruct (stack _); cbn [add_err outp]; rewrite Ho; exact Hp.
Qed.
Print Assumptions output_is_ordered_subsequence_of_source.

(* the same from any machine state (open conditionals, earlier output), which is what holds in the
   middle of a file *)
Theorem run_appends_ordered_subsequence : forall ls p,
  exists out, outp (cor (run ls p)) = outp (cor p) ++ out /\ provenance ls out.
Proof. exact run_provenance. Qed.
Print Assumptions run_appends_ordered_subsequence.

Theorem at_most_one_output_line_per_source_line : forall ls out,
  provenance ls out -> List.length out <= List.length ls.
Proof. induction 1 as [|rk ls out _ IH|rk ls o out _ _ IH]; simpl; lia. Qed.
Print Assumptions at_most_one_output_line_per_source_line.

(* a text line in live text is emitted exactly once, expanded under the table in force at that line
   (with __LINE__ / __FILE__ refreshed); a text line in a skipped branch changes nothing *)
Theorem live_text_line_emitted_once : forall st c raw, skipping st = false ->
  outp (cor (step (mkp st c) (raw, KPlain PText))) = outp c ++ [fst (expand (tab (tick c)) raw)].
Proof.
  intros st c raw Hs. rewrite step_plain. unfold act. rewrite Hs. cbn [cor mkp plain_step negb].
  destruct (expand (tab (tick c)) raw) as [e over]; destruct over; reflexivity.
Qed.
Print Assumptions live_text_line_emitted_once.

Theorem skipped_text_line_silent : forall st c raw, skipping st = true ->
  outp (cor (step (mkp st c) (raw, KPlain PText))) = outp c /\
  stack (step (mkp st c) (raw, KPlain PText)) = st /\
  nerr (cor (step (mkp st c) (raw, KPlain PText))) = nerr c.
Proof. intros st c raw Hs. rewrite step_plain. unfold act. rewrite Hs. repeat split. Qed.
Print Assumptions skipped_text_line_silent.

(* a well-formed directive line is never copied to the output, live or skipped *)
Theorem wellformed_directive_never_emitted : forall p raw k, quiet_kind k = true ->
  outp (cor (step p (raw, k))) = outp (cor p).
Proof.
  intros [st c] raw k Hq. destruct k as [pk|n|n|n| |]; try discriminate Hq; [|reflexivity..].
  rewrite step_plain. destruct pk; try discriminate Hq; cbn [cor mkp plain_step]; destruct (act st); try reflexivity.
  destruct fn; reflexivity.
Qed.
Print Assumptions wellformed_directive_never_emitted.

(* non-vacuity: a concrete file with nesting, a stray #endif and a macro use; three of its eight
   lines reach the output, in source order *)
Example provenance_somewhere :
  let f := map s2l ["#define A 7"; "x = A;"; "#ifdef B"; "dead"; "#else"; "live A"; "#endif"; "#endif"] in
  outp (process [] (s2l "f.cb") f) = map s2l ["x = 7;"; "live 7"; "// #endif [preprocessor error]"].
Proof. vm_compute. reflexivity. Qed.
