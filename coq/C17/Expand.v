(* C17 - lemmas about the macro-expansion model: every position [search] returns is a whole-word
   occurrence outside the recorded strings; a pass leaves a text alone exactly when it is
   [fully_expanded]; how [passes] ends ([converged], [cap_hit]); and, on text without string
   literals, the sweep finds the next use wherever it resumed, so that a line of n uses of a macro
   is expanded completely for every n. *)
From Coq Require Import List Arith Bool Ascii String Lia NArith.
From Cb Require Import C17.Model.
Import ListNotations.

Lemma find_at_sound name s i p : find_at name s i = Some p ->
  i <= p /\ is_prefix name (skipn (p - i) s) = true.
Proof.
  revert i; induction s as [|c r IH]; intros i; cbn [find_at].
  - destruct (is_prefix name []) eqn:E; [|discriminate]. intros [= <-]. rewrite Nat.sub_diag. auto.
  - destruct (is_prefix name (c :: r)) eqn:E.
    + intros [= <-]. rewrite Nat.sub_diag. auto.
    + intros H. apply IH in H as [H1 H2]. split; [lia|].
      replace (p - i) with (S (p - S i)) by lia. exact H2.
Qed.

Lemma skipn_add {A} (a b : nat) (l : list A) : skipn a (skipn b l) = skipn (a + b) l.
Proof.
  revert l; induction b as [|b IH]; intros l; [rewrite Nat.add_0_r; reflexivity|].
  destruct l as [|x l]; [rewrite !skipn_nil; reflexivity|].
  rewrite Nat.add_succ_r. cbn [skipn]. apply IH.
Qed.

Lemma find_from_sound name s pos p : find_from name s pos = Some p ->
  pos <= p /\ is_prefix name (skipn p s) = true.
Proof.
  unfold find_from. destruct (List.length s <? pos) eqn:E; [discriminate|].
  intros H. apply find_at_sound in H as [H1 H2]. split; [exact H1|].
  rewrite skipn_add in H2. replace (p - pos + pos) with p in H2 by lia. exact H2.
Qed.

Lemma is_prefix_app name b : is_prefix name (name ++ b) = true.
Proof. induction name as [|x name IH]; cbn; [reflexivity|]. rewrite Ascii.eqb_refl. exact IH. Qed.

(* find() passes over characters that cannot start the name *)
Lemma find_at_skip c nm g s i : ~ In c g -> find_at (c :: nm) (g ++ s) i = find_at (c :: nm) s (i + List.length g).
Proof.
  revert i; induction g as [|x g IH]; intros i H; cbn [app List.length]; [rewrite Nat.add_0_r; reflexivity|].
  cbn [find_at is_prefix]. replace (Ascii.eqb c x) with false.
  - cbn [andb]. rewrite IH, Nat.add_succ_r; [reflexivity|]. intros Hc. apply H. right. exact Hc.
  - symmetry. apply Ascii.eqb_neq. intros ->. apply H. left. reflexivity.
Qed.

Lemma find_from_skip c nm a s pos : ~ In c a -> pos <= List.length a ->
  find_from (c :: nm) (a ++ s) pos = find_at (c :: nm) s (List.length a).
Proof.
  intros H L. unfold find_from. rewrite app_length.
  replace (_ <? pos) with false by (symmetry; apply Nat.ltb_ge; lia).
  rewrite skipn_app. replace (pos - List.length a) with 0 by lia. cbn [skipn].
  rewrite find_at_skip, skipn_length; [f_equal; lia|].
  intros Hc. apply H. rewrite <- (firstn_skipn pos a). apply in_or_app. right. exact Hc.
Qed.

Lemma find_from_first c nm a b pos : ~ In c a -> pos <= List.length a ->
  find_from (c :: nm) (a ++ (c :: nm) ++ b) pos = Some (List.length a).
Proof.
  intros H L. rewrite find_from_skip by assumption.
  pose proof (is_prefix_app (c :: nm) b) as P. cbn [app] in *. cbn [find_at]. rewrite P. reflexivity.
Qed.

Lemma find_from_absent c nm a pos : ~ In c a -> find_from (c :: nm) a pos = None.
Proof.
  intros H. destruct (Nat.ltb_spec (List.length a) pos) as [L|L].
  - unfold find_from. apply Nat.ltb_lt in L. rewrite L. reflexivity.
  - rewrite <- (app_nil_r a), find_from_skip by assumption. reflexivity.
Qed.

(* every replacement position chosen by the inner loop is a whole-word occurrence of the macro
   name that lies outside the string ranges the loop was given *)
Lemma search_sound fuel name s rs pos p : search fuel name s rs pos = Some p ->
  pos <= p /\ is_prefix name (skipn p s) = true /\ in_string p rs = false /\
  start_valid s p = true /\ end_valid s p (List.length name) = true.
Proof.
  revert pos; induction fuel as [|f IH]; intros pos; cbn [search]; [discriminate|].
  destruct (find_from name s pos) as [q|] eqn:F; [|discriminate].
  apply find_from_sound in F as [F1 F2].
  destruct (in_string q rs) eqn:I.
  - intros H. apply IH in H. destruct H as (H1 & H2). split; [lia|exact H2].
  - destruct (start_valid s q && end_valid s q (List.length name)) eqn:V.
    + intros [= <-]. apply andb_true_iff in V as [V1 V2]. auto.
    + intros H. apply IH in H. destruct H as (H1 & H2). split; [lia|exact H2].
Qed.

Lemma search_none_if_absent fuel name s rs pos : find_from name s pos = None -> search fuel name s rs pos = None.
Proof. intros H. destruct fuel; cbn [search]; [reflexivity|]. rewrite H. reflexivity. Qed.

Lemma sweep_unfold f limit name body s pos ch :
  sweep (S f) limit name body s pos ch =
  match search (S (List.length s)) name s (string_ranges s) pos with
  | None => SGo s ch
  | Some p => let s' := replace_at s p (List.length name) body in
              if too_large limit s' then SOver s'
              else sweep f limit name body s' (p + List.length body) true
  end.
Proof. reflexivity. Qed.

Lemma sweep_quiet f limit name body s pos ch :
  search (S (List.length s)) name s (string_ranges s) pos = None -> sweep f limit name body s pos ch = SGo s ch.
Proof. intros H. destruct f; [reflexivity|]. rewrite sweep_unfold, H. reflexivity. Qed.

(* [occurs name s]: the text still holds a whole-word occurrence of [name] outside its string literals
   (what the inner loop would replace next) *)
Definition occurs (name s : str) : bool :=
  match search (S (List.length s)) name s (string_ranges s) 0 with Some _ => true | None => false end.
Definition fully_expanded (t : table) (s : str) : Prop :=
  forall m, In m t -> mfn m = false -> mname m <> [] -> occurs (mname m) s = false.

(* the cruder sufficient condition: no object-like macro name is a substring of the text at all *)
Definition absent (t : table) (s : str) : Prop :=
  forall m, In m t -> mfn m = false -> find_from (mname m) s 0 = None.

Lemma absent_fully_expanded t s : absent t s -> fully_expanded t s.
Proof. intros H m Hm Fn _. unfold occurs. rewrite search_none_if_absent; [reflexivity|]. apply H; assumption. Qed.

Lemma pass_quiet limit t s ch : fully_expanded t s -> pass limit t s ch = SGo s ch.
Proof.
  revert ch; induction t as [|m r IH]; intros ch H; cbn [pass]; [reflexivity|].
  assert (Hr : fully_expanded r s) by (intros x Hx; apply H; right; exact Hx).
  destruct (mfn m) eqn:Fn; [apply IH; exact Hr|].
  destruct (mname m) eqn:Nm; [apply IH; exact Hr|]. rewrite <- Nm.
  rewrite sweep_quiet; [apply IH; exact Hr|].
  assert (O : occurs (mname m) s = false) by (apply H; [left; reflexivity|exact Fn|congruence]).
  unfold occurs in O. destruct (search _ _ _ _ _); [discriminate O|reflexivity].
Qed.

Lemma passes_quiet n limit t s : fully_expanded t s -> passes n limit t s = (s, false).
Proof. intros H. destruct n; cbn [passes]; [reflexivity|]. rewrite pass_quiet by exact H. reflexivity. Qed.

Lemma expand_quiet t s : fully_expanded t s -> expand t s = (s, false).
Proof. apply passes_quiet. Qed.

(* the sweep reports "unchanged" only if it really replaced nothing and nothing was left to replace *)
Lemma sweep_unchanged f limit name body : forall s pos ch s',
  sweep f limit name body s pos ch = SGo s' false ->
  ch = false /\ s' = s /\ (f = 0 \/ search (S (List.length s)) name s (string_ranges s) pos = None).
Proof.
  induction f as [|f IH]; intros s pos ch s' H.
  - cbn [sweep] in H. injection H as <- <-. auto.
  - rewrite sweep_unfold in H.
    destruct (search (S (List.length s)) name s (string_ranges s) pos) as [p|] eqn:E.
    + cbn zeta in H. destruct (too_large limit (replace_at s p (List.length name) body)); [discriminate H|].
      apply IH in H. destruct H as [H _]. discriminate H.
    + injection H as <- <-. auto.
Qed.

Lemma fully_expanded_cons m r s : (mfn m = false -> mname m <> [] -> occurs (mname m) s = false) ->
  fully_expanded r s -> fully_expanded (m :: r) s.
Proof. intros Hm Hr x [<-|Hx]; [exact Hm|apply Hr, Hx]. Qed.

Lemma pass_unchanged limit t : forall s ch s',
  pass limit t s ch = SGo s' false -> ch = false /\ s' = s /\ fully_expanded t s.
Proof.
  induction t as [|m r IH]; intros s ch s' H; cbn [pass] in H.
  - injection H as <- <-. repeat split. intros m [].
  - destruct (mfn m) eqn:Fn; [|destruct (mname m) as [|c nm] eqn:Nm].
    1-2: apply IH in H as (-> & -> & H3); repeat split; apply fully_expanded_cons; [congruence|exact H3].
    rewrite <- Nm in H.
    destruct (sweep (S (List.length s)) limit (mname m) (mbody m) s 0 ch) as [s1 ch1|s1] eqn:Sw; [|discriminate H].
    apply IH in H as (-> & -> & H3). apply sweep_unchanged in Sw as (-> & -> & [Hn|Hn]); [discriminate Hn|].
    repeat split. apply fully_expanded_cons; [|exact H3]. intros _ _. unfold occurs. rewrite Hn. reflexivity.
Qed.

(* did the pass loop stop because a whole pass changed nothing (and not because it ran out of passes)? *)
Fixpoint converged (n : nat) (limit : N) (t : table) (s : str) : bool :=
  match n with
  | 0 => false
  | S n' => match pass limit t s false with
            | SGo s' ch => if ch then converged n' limit t s' else true
            | SOver _ => false
            end
  end.

Lemma passes_fully_expanded n limit t : forall s s' over,
  passes n limit t s = (s', over) -> converged n limit t s = true -> over = false /\ fully_expanded t s'.
Proof.
  induction n as [|n IH]; intros s s' over H C; cbn [passes converged] in *; [discriminate C|].
  destruct (pass limit t s false) as [s1 ch|s1] eqn:P; [|discriminate C].
  destruct ch.
  - eapply IH; eassumption.
  - injection H as <- <-. apply pass_unchanged in P as (_ & -> & F). auto.
Qed.

(* the only other ways the loop ends: the growth limit (reported as an error) or all [n] passes changed the text *)
Fixpoint cap_hit (n : nat) (limit : N) (t : table) (s : str) : bool :=
  match n with
  | 0 => true
  | S n' => match pass limit t s false with
            | SGo s' ch => ch && cap_hit n' limit t s'
            | SOver _ => false
            end
  end.

Definition no_quote (s : str) : Prop := forall c, In c s -> (code c =? 34) = false.

Lemma string_ranges_no_quote s : no_quote s -> string_ranges s = [].
Proof.
  intros Q. enough (G : forall i esc st, scan s i false esc st [] = []) by apply G.
  induction s as [|c r IH]; intros i esc st; cbn [scan]; [reflexivity|].
  rewrite (Q c (or_introl eq_refl)).
  assert (Qr : no_quote r) by (intros x Hx; apply Q; right; exact Hx).
  destruct esc; [|destruct (code c =? 92)]; apply IH; exact Qr.
Qed.

Lemma replace_at_here a name b body :
  replace_at (a ++ name ++ b) (List.length a) (List.length name) body = a ++ body ++ b.
Proof.
  unfold replace_at. rewrite firstn_app, firstn_all, Nat.sub_diag, app_nil_r.
  rewrite (app_assoc a name b), <- app_length, skipn_app, skipn_all, Nat.sub_diag. reflexivity.
Qed.

Lemma start_valid_break a c r : is_alnum_ c = false -> start_valid (a ++ c :: r) (S (List.length a)) = true.
Proof. intros H. unfold start_valid. cbn [Nat.eqb orb Nat.sub]. rewrite Nat.sub_0_r, nth_middle, H. reflexivity. Qed.

Lemma end_valid_break a name c r : is_alnum_ c = false ->
  end_valid (a ++ name ++ c :: r) (List.length a) (List.length name) = true.
Proof. intros H. unfold end_valid. rewrite app_assoc, <- app_length, nth_middle, H. apply orb_true_r. Qed.

Lemma too_large_length limit s s' : List.length s = List.length s' -> too_large limit s = too_large limit s'.
Proof. unfold too_large. intros ->. reflexivity. Qed.

(* on text without string literals the sweep replaces the next whole-word use of the name, wherever
   it resumed scanning before it *)
Lemma sweep_next f limit c nm body a b pos ch : ~ In c a -> pos <= List.length a ->
  no_quote (a ++ (c :: nm) ++ b) ->
  start_valid (a ++ (c :: nm) ++ b) (List.length a) = true ->
  end_valid (a ++ (c :: nm) ++ b) (List.length a) (List.length (c :: nm)) = true ->
  too_large limit (a ++ body ++ b) = false ->
  sweep (S f) limit (c :: nm) body (a ++ (c :: nm) ++ b) pos ch
  = sweep f limit (c :: nm) body (a ++ body ++ b) (List.length a + List.length body) true.
Proof.
  intros Hc Hp Q S E L. rewrite sweep_unfold, (string_ranges_no_quote _ Q). cbn [search].
  rewrite find_from_first, S, E by assumption. cbn [in_string existsb andb].
  rewrite replace_at_here, L. reflexivity.
Qed.

Lemma in_concat_repeat {A} (x : A) w k : In x (List.concat (repeat w k)) -> In x w.
Proof. intros H. apply in_concat in H as (y & Hy & Hx). apply repeat_spec in Hy. subst y. exact Hx. Qed.

(* [a] is the part of the line already swept: free of the name, ending at a word boundary *)
Lemma sweep_every_use limit k : forall a f pos ch,
  (forall x, In x a -> x <> "N"%char /\ (code x =? 34) = false) ->
  (forall r, start_valid (a ++ r) (List.length a) = true) ->
  pos <= List.length a -> List.length (List.concat (repeat (s2l "N ") k)) <= f ->
  too_large limit (a ++ List.concat (repeat (s2l "N ") k)) = false ->
  sweep f limit (s2l "N") (s2l "1") (a ++ List.concat (repeat (s2l "N ") k)) pos ch
  = SGo (a ++ List.concat (repeat (s2l "1 ") k)) (match k with 0 => ch | S _ => true end).
Proof.
  induction k as [|k IH]; intros a f pos ch A B P F L; cbn [repeat List.concat] in *;
    assert (An : ~ In "N"%char a) by (intros H; apply A in H as [H _]; congruence).
  - rewrite app_nil_r. apply sweep_quiet, search_none_if_absent, (find_from_absent "N"%char []), An.
  - destruct f as [|f]; [apply Nat.le_0_r in F; discriminate F|].
    change (s2l "N " ++ ?r) with (["N"%char] ++ " "%char :: r) in *. change (s2l "N") with ["N"%char].
    rewrite sweep_next.
    + change (a ++ s2l "1" ++ " "%char :: ?r) with (a ++ s2l "1 " ++ r). rewrite !(app_assoc a).
      rewrite IH; [destruct k; reflexivity|..].
      * intros x H. apply in_app_or in H as [H|[<-|[<-|[]]]]; [apply A; exact H| |]; split; (discriminate || reflexivity).
      * intros r. change (s2l "1 ") with (s2l "1" ++ [" "%char]).
        rewrite (app_assoc a), app_length, Nat.add_1_r, <- app_assoc.
        apply start_valid_break. reflexivity.
      * rewrite app_length. apply Nat.add_le_mono_l, Nat.le_succ_diag_r.
      * apply le_S_n, le_S_n, le_S, F.
      * etransitivity; [|exact L]. rewrite <- app_assoc. apply too_large_length. rewrite !app_length. reflexivity.
    + exact An.
    + exact P.
    + intros x H. apply in_app_or in H as [H|[<-|[<-|H]]]; [apply A; exact H|reflexivity|reflexivity|].
      apply in_concat_repeat in H as [<-|[<-|[]]]; reflexivity.
    + apply B.
    + apply end_valid_break. reflexivity.
    + etransitivity; [|exact L]. apply too_large_length. rewrite !app_length. reflexivity.
Qed.

(* the repaired loop expands every use of a macro on a line, however many there are *)
Lemma expand_every_use n :
  expand (define [] (s2l "N") (s2l "1")) (List.concat (repeat (s2l "N ") n)) = (List.concat (repeat (s2l "1 ") n), false).
Proof.
  unfold expand. set (limit := (_ + max_growth)%N).
  change max_iterations with (S 99). generalize 99. intros i. (* so that [cbn] unrolls one pass, not a hundred *)
  cbn [passes define insert pass mfn mname mbody]. change (s2l "N") with ["N"%char].
  rewrite (sweep_every_use limit n [] _ 0 false); try reflexivity.
  - destruct n; [reflexivity|]. apply passes_quiet, absent_fully_expanded.
    intros x [<-|[]] _. apply (find_from_absent "N"%char []).
    intros H. apply in_concat_repeat in H as [H|[H|[]]]; discriminate H.
  - intros x [].
  - apply Nat.le_succ_diag_r.
  - apply N.ltb_ge, N.le_add_r.
Qed.
