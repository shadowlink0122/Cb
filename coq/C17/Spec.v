(* C17 - Spec: a source file as a tree of nested conditional groups, and its meaning in the
   property's own words: a line lies in a region that is ACTIVE iff every enclosing branch is
   the first branch of its group whose condition holds under the definitions in force there;
   only active text lines are emitted (macro-expanded), only active #define/#undef change the
   table. Then the proofs that the stack machine of Model.v computes this meaning ([refinement]),
   that a skipped region is inert, and that the error count never goes down. *)
From Coq Require Import List Bool Lia.
From Cb Require Import C17.Model C17.Classify.
Import ListNotations.

Inductive cond := CDef (n : str) | CNdef (n : str).
Inductive item :=
| IPlain (raw : str) (k : pkind)
| IGroup (rawif : str) (c : cond) (body : items) (el : elifs) (els : oitems) (rawend : str)
with items := INil | ICons (i : item) (r : items)
with elifs := ENil | ECons (raw : str) (n : str) (b : items) (r : elifs)
with oitems := ONone | OSome (raw : str) (b : items).

Scheme item_mind := Induction for item Sort Prop
with items_mind := Induction for items Sort Prop
with elifs_mind := Induction for elifs Sort Prop
with oitems_mind := Induction for oitems Sort Prop.
Combined Scheme tree_mind from item_mind, items_mind, elifs_mind, oitems_mind.

Definition holds (c : cond) (t : table) : bool :=
  match c with CDef n => defined n t | CNdef n => negb (defined n t) end.

(* every physical line advances the line counter ([tick]); nothing else happens in an
   inactive region except that a malformed #ifdef is still reported *)
Fixpoint sem_item (active : bool) (c : core) (it : item) : core :=
  match it with
  | IPlain raw k => plain_step active (tick c) raw k
  | IGroup _ cnd body el els _ =>
      let c1 := tick c in
      let b0 := holds cnd (tab c1) in
      let c2 := sem_items (active && b0) c1 body in
      let r3 := sem_elifs active b0 c2 el in
      let c4 := sem_oitems (active && negb (fst r3)) (snd r3) els in
      tick c4
  end
with sem_items (active : bool) (c : core) (its : items) : core :=
  match its with
  | INil => c
  | ICons i r => sem_items active (sem_item active c i) r
  end
with sem_elifs (active tk : bool) (c : core) (es : elifs) : bool * core :=
  match es with
  | ENil => (tk, c)
  | ECons _ n b r =>
      let c1 := tick c in
      let bb := negb tk && defined n (tab c1) in
      sem_elifs active (tk || bb) (sem_items (active && bb) c1 b) r
  end
with sem_oitems (active : bool) (c : core) (o : oitems) : core :=
  match o with ONone => c | OSome _ b => sem_items active (tick c) b end.

Fixpoint fl_item (it : item) : list (str * kind) :=
  match it with
  | IPlain raw k => [(raw, KPlain k)]
  | IGroup r0 c body el els r1 =>
      (r0, match c with CDef n => KIfdef n | CNdef n => KIfndef n end)
        :: fl_items body ++ fl_elifs el ++ fl_oitems els ++ [(r1, KEndif)]
  end
with fl_items (its : items) : list (str * kind) :=
  match its with INil => [] | ICons i r => fl_item i ++ fl_items r end
with fl_elifs (es : elifs) : list (str * kind) :=
  match es with ENil => [] | ECons raw n b r => (raw, KElif n) :: fl_items b ++ fl_elifs r end
with fl_oitems (o : oitems) : list (str * kind) :=
  match o with ONone => [] | OSome raw b => (raw, KElse) :: fl_items b end.

Definition act (st : list cstate) : bool := negb (skipping st).

Lemma run_cons x l p : run (x :: l) p = run l (step p x).
Proof. reflexivity. Qed.

Lemma run_app a b p : run (a ++ b) p = run b (run a p).
Proof. unfold run. apply fold_left_app. Qed.

Lemma act_cons c st : act (c :: st) = act st && met c.
Proof. unfold act, skipping. cbn [existsb]. destruct (met c), (existsb _ st); reflexivity. Qed.

Lemma step_plain st c raw k : step (mkp st c) (raw, KPlain k) = mkp st (plain_step (act st) (tick c) raw k).
Proof. reflexivity. Qed.

Lemma step_open st c raw cnd :
  step (mkp st c) (raw, match cnd with CDef n => KIfdef n | CNdef n => KIfndef n end) =
  mkp ({| met := holds cnd (tab (tick c)); else_seen := false; taken := holds cnd (tab (tick c)) |} :: st) (tick c).
Proof. destruct cnd; reflexivity. Qed.

Lemma step_elif x st c raw n : else_seen x = false ->
  step (mkp (x :: st) c) (raw, KElif n) =
  mkp ({| met := negb (taken x) && defined n (tab (tick c)); else_seen := false;
          taken := taken x || negb (taken x) && defined n (tab (tick c)) |} :: st) (tick c).
Proof.
  intros Hx. unfold step. cbn [snd fst stack cor mkp]. rewrite Hx.
  destruct (taken x); [reflexivity|]. destruct (defined n (tab (tick c))); reflexivity.
Qed.

Lemma step_else x st c raw : else_seen x = false ->
  step (mkp (x :: st) c) (raw, KElse) = mkp ({| met := negb (taken x); else_seen := true; taken := taken x |} :: st) (tick c).
Proof. intros Hx. unfold step. cbn [snd fst stack cor mkp]. rewrite Hx. reflexivity. Qed.

Lemma step_endif x st c raw : step (mkp (x :: st) c) (raw, KEndif) = mkp st (tick c).
Proof. reflexivity. Qed.

Definition P_item (it : item) := forall st c,
  run (fl_item it) (mkp st c) = mkp st (sem_item (act st) c it).
Definition P_items (its : items) := forall st c,
  run (fl_items its) (mkp st c) = mkp st (sem_items (act st) c its).
Definition P_elifs (es : elifs) := forall x st c, else_seen x = false ->
  exists m, run (fl_elifs es) (mkp (x :: st) c) =
  mkp ({| met := m; else_seen := false; taken := fst (sem_elifs (act st) (taken x) c es) |} :: st)
      (snd (sem_elifs (act st) (taken x) c es)).
Definition P_oitems (ob : oitems) := forall x st c, else_seen x = false ->
  exists x', run (fl_oitems ob) (mkp (x :: st) c) =
  mkp (x' :: st) (sem_oitems (act st && negb (taken x)) c ob).

Lemma refinement :
  (forall it, P_item it) /\ (forall its, P_items its) /\
  (forall es, P_elifs es) /\ (forall ob, P_oitems ob).
Proof.
  apply tree_mind.
  - (* IPlain *) intros raw k st c. apply step_plain.
  - (* IGroup *) intros r0 cnd body IHb el IHe els IHo r1 st c.
    cbn [fl_item sem_item]. rewrite run_cons, step_open, !run_app, IHb, act_cons. cbn [met].
    edestruct IHe as [m ->]; [reflexivity|]. edestruct IHo as [x' ->]; [reflexivity|].
    apply step_endif.
  - (* INil *) intros st c. reflexivity.
  - (* ICons *) intros i IHi r IHr st c. cbn [fl_items sem_items].
    rewrite run_app, IHi, IHr. reflexivity.
  - (* ENil *) intros x st c Hx. exists (met x).
    destruct x as [m es tk]. cbn in Hx. subst es. reflexivity.
  - (* ECons *) intros raw n b IHb r IHr x st c Hx. cbn [fl_elifs sem_elifs].
    rewrite run_cons, step_elif, run_app, IHb, act_cons by exact Hx. cbn [met].
    edestruct IHr as [m ->]; [reflexivity|]. exists m. reflexivity.
  - (* ONone *) intros x st c Hx. exists x. reflexivity.
  - (* OSome *) intros raw b IHb x st c Hx. cbn [fl_oitems sem_oitems].
    rewrite run_cons, step_else, IHb, act_cons by exact Hx. eexists. reflexivity.
Qed.

(* two cores agree on everything a skipped region may not touch *)
Definition same_vis (a b : core) : Prop := outp a = outp b /\ nwarn a = nwarn b /\
  (forall n, n <> n_line -> n <> n_file -> defined n (tab a) = defined n (tab b)).

Lemma tick_out c : outp (tick c) = outp c /\ nwarn (tick c) = nwarn c /\ nerr (tick c) = nerr c.
Proof. cbn; auto. Qed.

(* the user-visible table (bodies included) outside __LINE__/__FILE__ *)
Fixpoint lookup (n : str) (t : table) : option macro :=
  match t with [] => None | x :: r => if str_eqb n (mname x) then Some x else lookup n r end.

Lemma str_eqb_eq a b : str_eqb a b = true <-> a = b.
Proof.
  revert b; induction a as [|x a IH]; intros [|y b]; cbn; split; intro H; try reflexivity; try discriminate.
  - apply andb_true_iff in H as [H1 H2]. apply Ascii.eqb_eq in H1. apply IH in H2. congruence.
  - inversion H; subst. rewrite Ascii.eqb_refl. apply IH. reflexivity.
Qed.
Lemma str_eqb_sym a b : str_eqb a b = str_eqb b a.
Proof.
  destruct (str_eqb a b) eqn:E.
  - apply str_eqb_eq in E. subst. symmetry. apply str_eqb_refl.
  - destruct (str_eqb b a) eqn:E2; [|reflexivity]. apply str_eqb_eq in E2. subst.
    rewrite str_eqb_refl in E. discriminate.
Qed.

Lemma lookup_insert n m t : lookup n (insert m t) = if str_eqb n (mname m) then Some m else lookup n t.
Proof.
  induction t as [|x r IH]; cbn; [reflexivity|].
  destruct (str_eqb (mname m) (mname x)) eqn:E; [|destruct (str_ltb (mname m) (mname x))]; cbn.
  - apply str_eqb_eq in E. rewrite <- E. destruct (str_eqb n (mname m)); reflexivity.
  - reflexivity.
  - rewrite IH. destruct (str_eqb n (mname x)) eqn:E2, (str_eqb n (mname m)) eqn:E3; try reflexivity.
    apply str_eqb_eq in E2, E3. rewrite <- E2, <- E3, str_eqb_refl in E. discriminate E.
Qed.

Lemma defined_lookup n t : defined n t = match lookup n t with Some _ => true | None => false end.
Proof. induction t as [|x r IH]; cbn; [reflexivity|]. destruct (str_eqb n (mname x)); cbn; auto. Qed.

Definition user_name (n : str) : Prop := n <> n_line /\ n <> n_file.

Lemma tick_lookup n c : user_name n -> lookup n (tab (tick c)) = lookup n (tab c).
Proof.
  intros [H1 H2]. cbn [tick tab]. rewrite !lookup_insert. cbn [mname].
  destruct (str_eqb n n_line) eqn:E; [apply str_eqb_eq in E; contradiction|].
  destruct (str_eqb n n_file) eqn:E'; [apply str_eqb_eq in E'; contradiction|reflexivity].
Qed.

(* what a skipped region cannot change: output, warnings, and every user macro's definition *)
Definition inert (c c' : core) : Prop :=
  outp c' = outp c /\ nwarn c' = nwarn c /\ (forall n, user_name n -> lookup n (tab c') = lookup n (tab c)).

Lemma inert_refl c : inert c c.
Proof. repeat split; auto. Qed.
Lemma inert_trans a b c : inert a b -> inert b c -> inert a c.
Proof. intros (A1 & A2 & A3) (B1 & B2 & B3). repeat split; try congruence.
  intros n Hn. rewrite B3, A3; auto. Qed.
Lemma inert_tick c : inert c (tick c).
Proof. repeat split; try reflexivity. intros n Hn. apply tick_lookup; auto. Qed.
Lemma inert_plain_dead c raw k : inert c (plain_step false c raw k).
Proof. destruct k; repeat split. Qed.

Lemma skipped_region_inert_l :
  (forall it c, inert c (sem_item false c it)) /\ (forall its c, inert c (sem_items false c its)) /\
  (forall es tk c, inert c (snd (sem_elifs false tk c es))) /\
  (forall ob c, inert c (sem_oitems false c ob)).
Proof.
  apply tree_mind; cbn [sem_item sem_items sem_elifs sem_oitems andb fst snd].
  - intros raw k c. eapply inert_trans; [apply inert_tick|apply inert_plain_dead].
  - intros r0 cnd body IHb el IHe els IHo r1 c. eapply inert_trans; [apply inert_tick|].
    eapply inert_trans; [apply IHb|].
    eapply inert_trans; [apply IHe|].
    eapply inert_trans; [apply IHo|apply inert_tick].
  - intros c. apply inert_refl.
  - intros i IHi r IHr c. eapply inert_trans; [apply IHi|apply IHr].
  - intros tk c. apply inert_refl.
  - intros raw n b IHb r IHr tk c. eapply inert_trans; [apply inert_tick|]. eapply inert_trans; [apply IHb|apply IHr].
  - intros c. apply inert_refl.
  - intros raw b IHb c. eapply inert_trans; [apply inert_tick|apply IHb].
Qed.

Lemma nerr_fail_line live c raw : nerr (fail_line live c raw) = S (nerr c).
Proof. unfold fail_line. destruct live; reflexivity. Qed.

(* what a line can do to the core besides counting it: nothing (a conditional directive obeyed),
   the error report of a conditional directive out of place, or the action of a plain line *)
Lemma step_cor p raw k :
  cor (step p (raw, k)) = tick (cor p) \/
  (exists live, cor (step p (raw, k)) = fail_line live (tick (cor p)) raw) \/
  (exists pk, k = KPlain pk /\ cor (step p (raw, k)) = plain_step (act (stack p)) (tick (cor p)) raw pk).
Proof.
  destruct p as [st c], k as [pk|n|n|n| |].
  1: right; right; exists pk; split; reflexivity.
  1-2: left; reflexivity.
  all: destruct st as [|[m [|] [|]] st]; (left; reflexivity) || (right; left; eexists; reflexivity).
Qed.

(* errors only ever accumulate: a reported error is never retracted by later lines *)
Lemma nerr_plain live c raw k : nerr c <= nerr (plain_step live c raw k).
Proof.
  destruct k; destruct live; cbn [plain_step];
    try (unfold fail_line, emit, add_err, add_warn, with_tab; cbn [nerr]; lia).
  - destruct (expand (tab c) raw) as [e over]. destruct over; unfold emit, add_err; cbn [nerr]; lia.
  - destruct fn; unfold with_tab, add_warn; cbn [nerr]; lia.
Qed.
Lemma nerr_step p rk : nerr (cor p) <= nerr (cor (step p rk)).
Proof.
  destruct rk as [raw k]. destruct (step_cor p raw k) as [->|[[live ->]|(pk & -> & ->)]].
  - apply le_n.
  - rewrite nerr_fail_line. apply le_S, le_n.
  - apply (nerr_plain _ (tick (cor p))).
Qed.
Lemma nerr_run ls p : nerr (cor p) <= nerr (cor (run ls p)).
Proof.
  revert p; induction ls as [|x ls IH]; intros p; [apply le_n|].
  rewrite run_cons. etransitivity; [apply nerr_step|apply IH].
Qed.
