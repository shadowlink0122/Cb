(* C17 - the property theorems. Statements are about the Mech model of preprocessor.cpp (Model.v);
   the lemmas they rest on are in Spec.v, Complete.v, Classify.v and Expand.v. *)
From Coq Require Import List String NArith Lia.
Local Open Scope string_scope.
Local Open Scope list_scope.
From Cb Require Import C17.Model C17.Spec C17.Expand C17.Complete C17.Classify.
Import ListNotations.

(* Conditional inclusion, any nesting depth, any initial table / line number / file name: running the
   conditional-stack machine over the lines of a well-nested file yields exactly the tree meaning -
   the selected lines in order, with the definitions in force - and no unclosed-conditional error. *)
Theorem cond_stack_refines_tree : forall its c0,
  finish (run (fl_items its) (mkp [] c0)) = sem_items true c0 its.
Proof. intros its c0. destruct refinement as [_ [H _]]. rewrite (H its [] c0). reflexivity. Qed.
Print Assumptions cond_stack_refines_tree.

(* #define / #undef / text inside a skipped branch have no effect: output, warnings and every user
   macro are unchanged by a whole inactive sub-tree. *)
Theorem skipped_define_inert : forall its c, inert c (sem_items false c its).
Proof. exact (proj1 (proj2 skipped_region_inert_l)). Qed.
Print Assumptions skipped_define_inert.

(* #else / #elif / #endif without an open conditional is an error, never ignored *)
Theorem stray_directive_is_error : forall st c raw k, st = [] ->
  (k = KElse \/ k = KEndif \/ exists n, k = KElif n) ->
  nerr (cor (step (mkp st c) (raw, k))) = S (nerr c) /\ stack (step (mkp st c) (raw, k)) = [].
Proof.
  intros st c raw k -> [->|[->|[n ->]]]; unfold step; cbn [snd fst stack cor mkp]; rewrite nerr_fail_line; auto.
Qed.
Print Assumptions stray_directive_is_error.

Theorem unclosed_conditional_is_error : forall p, stack p <> [] -> nerr (finish p) = S (nerr (cor p)).
Proof. intros p. unfold finish. destruct (stack p); [congruence|reflexivity]. Qed.
Print Assumptions unclosed_conditional_is_error.

(* completeness of the error report: a file that is not the flattening of a well-nested tree of
   conditional groups always ends with at least one more error, whatever else it contains *)
Theorem ill_nested_file_is_error : forall ls p, wn ls (flags p) = false ->
  nerr (cor p) < nerr (finish (run ls p)).
Proof. exact ill_nested_is_error. Qed.
Print Assumptions ill_nested_file_is_error.

Theorem no_error_only_if_well_nested : forall ls c0,
  nerr (finish (run ls (mkp [] c0))) = nerr c0 -> exists its, ls = fl_items its.
Proof.
  intros ls c0 H. apply wn_is_tree. destruct (wn ls []) eqn:E; [reflexivity|].
  pose proof (ill_nested_is_error ls (mkp [] c0) E) as L. cbn [cor mkp] in L. lia.
Qed.
Print Assumptions no_error_only_if_well_nested.

Theorem errors_never_retracted : forall ls p, nerr (cor p) <= nerr (cor (run ls p)).
Proof. exact nerr_run. Qed.
Print Assumptions errors_never_retracted.

Theorem unknown_directive_is_error : forall st c raw, skipping st = false ->
  let p' := step (mkp st c) (raw, KPlain PUnknown) in
  nerr (cor p') = S (nerr c) /\ outp (cor p') = outp c ++ [err_comment raw] /\ stack p' = st.
Proof. intros st c raw H. rewrite step_plain. unfold act. rewrite H. cbn. auto. Qed.
Print Assumptions unknown_directive_is_error.

(* -DNAME=V is a leading "#define NAME V": same table for every user-visible name *)
Theorem dflag_is_leading_define : forall t file raw n v, user_name n ->
  let p := step (mkp [] (init_core t file)) (raw, KPlain (PDefine n v false)) in
  stack p = [] /\ outp (cor p) = [] /\ nerr (cor p) = 0 /\
  forall m, user_name m -> lookup m (tab (cor p)) = lookup m (define t n v).
Proof.
  intros t file raw n v Hn. rewrite step_plain. cbn [stack cor mkp act skipping existsb negb plain_step].
  repeat split. intros m Hm. cbn [with_tab tab]. unfold define. rewrite !lookup_insert. cbn [mname].
  destruct (str_eqb m n); [reflexivity|]. apply (tick_lookup m (init_core t file) Hm).
Qed.
Print Assumptions dflag_is_leading_define.

(* the canonical spelling of each directive is classified as intended, for every macro name that is a
   non-empty string without white space (other spellings are exercised by the correspondence run) *)
Theorem directive_text_classified : forall n, n <> [] -> nosp n ->
  classify (s2l "#ifdef " ++ n) = KIfdef n /\ classify (s2l "#ifndef " ++ n) = KIfndef n /\
  classify (s2l "#elif " ++ n) = KElif n /\ classify (s2l "#undef " ++ n) = KPlain (PUndef n) /\
  classify (s2l "#else") = KElse /\ classify (s2l "#endif") = KEndif.
Proof.
  intros n H1 H2. repeat apply conj.
  - change (s2l "#ifdef " ++ n) with (hash :: s2l "ifdef" ++ sp :: n). rewrite classify_word_content; [reflexivity|side ..].
  - change (s2l "#ifndef " ++ n) with (hash :: s2l "ifndef" ++ sp :: n). rewrite classify_word_content; [reflexivity|side ..].
  - change (s2l "#elif " ++ n) with (hash :: s2l "elif" ++ sp :: n). rewrite classify_word_content; [reflexivity|side ..].
  - change (s2l "#undef " ++ n) with (hash :: s2l "undef" ++ sp :: n). rewrite classify_word_content; [reflexivity|side ..].
  - apply classify_else_endif.
  - apply classify_else_endif.
Qed.
Print Assumptions directive_text_classified.

Theorem define_flag_classified : forall n, name_ok n -> classify (s2l "#define " ++ n) = KPlain (PDefine n one false).
Proof.
  intros n [H1 H2]. assert (Hn : nosp n) by (intros c Hc; apply H2; exact Hc).
  change (s2l "#define " ++ n) with (hash :: s2l "define" ++ sp :: n).
  rewrite classify_word_content; [|side ..].
  cbn [str_eqb lit_ifdef lit_define].
  change (KPlain (parse_define n) = KPlain (PDefine n one false)). f_equal.
  unfold parse_define. destruct n as [|c0 cr] eqn:En; [congruence|]. rewrite <- En.
  rewrite find_first_none; [reflexivity|]. intros c Hc. apply H2. rewrite <- En. exact Hc.
Qed.
Print Assumptions define_flag_classified.

(* every position the expander replaces holds a whole-word occurrence of the macro name that lies
   outside the string-literal ranges it was given *)
Theorem replacement_is_whole_word_outside_recorded_strings : forall fuel name s rs pos p,
  search fuel name s rs pos = Some p ->
  pos <= p /\ is_prefix name (skipn p s) = true /\ in_string p rs = false /\
  start_valid s p = true /\ end_valid s p (List.length name) = true.
Proof. exact search_sound. Qed.
Print Assumptions replacement_is_whole_word_outside_recorded_strings.

Theorem line_without_macro_names_untouched : forall t s, absent t s -> expand t s = (s, false).
Proof.
  intros t s H. apply expand_quiet, absent_fully_expanded, H. Qed.
Print Assumptions line_without_macro_names_untouched.

(* the repaired loop (fix: commits for C17-stale-string-ranges and C17-cap-100): each step of the sweep
   over one macro replaces the first remaining whole-word occurrence outside the string literals of the
   CURRENT text, and goes on with the rest of the line *)
Theorem sweep_replaces_outside_current_strings : forall f limit name body s pos ch,
  sweep (S f) limit name body s pos ch =
  match search (S (List.length s)) name s (string_ranges s) pos with
  | None => SGo s ch
  | Some p => let s' := replace_at s p (List.length name) body in
              if too_large limit s' then SOver s'
              else sweep f limit name body s' (p + List.length body) true
  end.
Proof. exact sweep_unfold. Qed.
Print Assumptions sweep_replaces_outside_current_strings.

(* the two former counter-examples now behave as the property demands, and a self-referential macro
   ends in a reported error instead of exponential growth *)
Theorem former_witnesses_repaired :
  expand (define (define [] (s2l "A") (s2l "xxxxxxxx")) (s2l "B") (s2l "1")) (s2l "A ""B""") = (s2l "xxxxxxxx ""B""", false) /\
  expand (define [] (s2l "N") (s2l "1")) (List.concat (List.repeat (s2l "N ") 101)) = (List.concat (List.repeat (s2l "1 ") 101), false) /\
  snd (passes max_iterations 40 (define [] (s2l "A") (s2l "A A")) (s2l "x A y")) = true.
Proof.
  split; [vm_compute; reflexivity|]. split; [apply expand_every_use|vm_compute; reflexivity].
Qed.
Print Assumptions former_witnesses_repaired.

(* "replaced by its fully expanded body": when the expander stops because a whole pass over the macro table
   changed nothing (and not because of the growth limit or the 100-pass cap), the emitted text holds no
   whole-word occurrence of any object-like macro name outside its string literals any more; the three ways
   the loop can end are exactly: growth limit (reported as an error), convergence, cap *)
Theorem expansion_result_is_fully_expanded : forall t line s' over,
  expand t line = (s', over) ->
  converged max_iterations (N.of_nat (List.length line) + max_growth)%N t line = true ->
  over = false /\ fully_expanded t s'.
Proof. intros t line. unfold expand. apply passes_fully_expanded. Qed.
Print Assumptions expansion_result_is_fully_expanded.

Theorem expansion_ends_in_error_convergence_or_cap : forall n limit t s s' over,
  passes n limit t s = (s', over) ->
  over = true \/ converged n limit t s = true \/ cap_hit n limit t s = true.
Proof.
  induction n as [|n IH]; intros limit t s s' over H; cbn [passes converged cap_hit] in *.
  - right; right; reflexivity.
  - destruct (pass limit t s false) as [s1 ch|s1] eqn:P.
    + destruct ch; cbn [andb].
      * eapply IH; exact H.
      * right; left; reflexivity.
    + injection H as <- <-. left; reflexivity.
Qed.
Print Assumptions expansion_ends_in_error_convergence_or_cap.

(* non-vacuity: a chain of three macros converges (three changing passes and one quiet one) and is fully expanded *)
Example chain_converges :
  let t := define (define (define [] (s2l "A") (s2l "B + 1")) (s2l "B") (s2l "C * 2")) (s2l "C") (s2l "7") in
  expand t (s2l "x = A; ""A""") = (s2l "x = 7 * 2 + 1; ""A""", false) /\
  converged max_iterations (N.of_nat 10 + max_growth)%N t (s2l "x = A; ""A""") = true.
Proof. vm_compute. split; reflexivity. Qed.

(* non-vacuity: a concrete three-level file meets the hypotheses and selects what one expects *)
Example nested_example :
  let T := fun s => IPlain (s2l s) PText in
  let prog := ICons (IPlain (s2l "#define A") (PDefine (s2l "A") (s2l "1") false))
              (ICons (IGroup (s2l "#ifdef A") (CDef (s2l "A"))
                        (ICons (T "t1") (ICons (IGroup (s2l "#ifdef B") (CDef (s2l "B")) (ICons (T "t2") INil)
                           (ECons (s2l "#elif A") (s2l "A") (ICons (T "t3 A") INil) ENil) (OSome (s2l "#else") (ICons (T "t4") INil)) (s2l "#endif")) INil))
                        ENil (OSome (s2l "#else") (ICons (T "t5") INil)) (s2l "#endif")) INil) in
  outp (finish (run (fl_items prog) (mkp [] (init_core [] (s2l "f"))))) = [s2l "t1"; s2l "t3 1"].
Proof. vm_compute. reflexivity. Qed.
