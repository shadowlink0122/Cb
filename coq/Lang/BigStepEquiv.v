(* Lang - BigStepEquiv: the fuelled reference interpreter [Sem.eval/exec] computes exactly the relation
   [BigStep.beval/bexec].
     soundness     ([exec_sound])     : whatever the interpreter answers without running out of fuel is derivable;
     completeness  ([bexec_complete]) : every derivable judgement is what the interpreter answers, for every
                                        sufficiently large fuel;
     the relation never concludes "out of fuel" and is deterministic; [bmeans] says what a whole program means under
     the rules (that this is what [Print.run] computes: C01/Properties_C01_bigstep.v). *)
From Coq Require Import List ZArith Bool Lia.
From Cb Require Import Lang.Syntax Lang.Sem Lang.Print Lang.Respect Lang.Theorems Lang.FuelMono Lang.BigStep.
Import ListNotations.
Local Open Scope Z_scope.

Lemma bind_inv {A B} (m : M A) (f : A -> M B) s c s2 :
  bind m f s = (c, s2) ->
  (exists a s1, m s = (Val a, s1) /\ f a s1 = (c, s2)) \/
  (exists c1, m s = (c1, s2) /\ propagates c1 c).
Proof.
  unfold bind. destruct (m s) as [c1 s1]. destruct c1; intros H; [left; eauto|..].
  all: right; injection H as <- <-; eexists; split; [reflexivity|constructor].
Qed.

Lemma bind_abn {A B} (m : M A) (f : A -> M B) s c1 s1 (c : ctl B) :
  m s = (c1, s1) -> propagates c1 c -> bind m f s = (c, s1).
Proof. unfold bind. intros -> P. destruct P; reflexivity. Qed.

Lemma finally_inv {A} (m : M A) fin s c s' :
  finally m fin s = (c, s') -> exists s1, m s = (c, s1) /\ s' = fin s1.
Proof. unfold finally. destruct (m s) as [c1 s1]. intros [= <- <-]. eauto. Qed.
Lemma finally_eq {A} (m : M A) fin s c s1 : m s = (c, s1) -> finally m fin s = (c, fin s1).
Proof. unfold finally. intros ->. reflexivity. Qed.

Lemma map_ctl_inv {A B} (g : ctl A -> ctl B) m s c s' :
  map_ctl g m s = (c, s') -> exists c0, m s = (c0, s') /\ c = g c0.
Proof. unfold map_ctl. destruct (m s) as [c1 s1]. intros [= <- <-]. eauto. Qed.
Lemma map_ctl_eq {A B} (g : ctl A -> ctl B) m s c s1 : m s = (c, s1) -> map_ctl g m s = (g c, s1).
Proof. unfold map_ctl. intros ->. reflexivity. Qed.

Lemma loop_step_inv b nx s c s' :
  loop_step b nx s = (c, s') ->
  (exists cb s1, b s = (cb, s1) /\ goes_on cb /\ nx s1 = (c, s')) \/
  (exists cb, b s = (cb, s') /\ loop_exit cb c).
Proof.
  unfold loop_step. destruct (b s) as [cb s1]. destruct cb as [[]| | | |]; intros H.
  1, 3: left; eexists _, s1; repeat split; [constructor|exact H].
  all: right; injection H as <- <-; eexists; split; [reflexivity|constructor].
Qed.
Lemma loop_step_go b nx s cb s1 : b s = (cb, s1) -> goes_on cb -> loop_step b nx s = nx s1.
Proof. unfold loop_step. intros -> G. destruct G; reflexivity. Qed.
Lemma loop_step_exit b nx s cb s1 c : b s = (cb, s1) -> loop_exit cb c -> loop_step b nx s = (c, s1).
Proof. unfold loop_step. intros -> X. destruct X; reflexivity. Qed.

Lemma val_has_fuel {A} (a : A) : Val a <> Fail ENoFuel.
Proof. discriminate. Qed.
Lemma propagates_nofuel {A B} (c1 : ctl A) (c : ctl B) :
  propagates c1 c -> c <> Fail ENoFuel -> c1 <> Fail ENoFuel.
Proof. intros P N E. subst c1. inversion P. subst. apply N. reflexivity. Qed.
Lemma propagates_fuel {A B} (c1 : ctl A) (c : ctl B) :
  propagates c1 c -> c1 <> Fail ENoFuel -> c <> Fail ENoFuel.
Proof. intros P N E. subst c. inversion P. subst. apply N. reflexivity. Qed.
Lemma goes_on_fuel cb : goes_on cb -> cb <> Fail ENoFuel.
Proof. intros G. destruct G; discriminate. Qed.
Lemma loop_exit_nofuel cb c : loop_exit cb c -> c <> Fail ENoFuel -> cb <> Fail ENoFuel.
Proof. intros X N E. subst cb. inversion X. subst. apply N. reflexivity. Qed.
Lemma loop_exit_fuel cb c : loop_exit cb c -> cb <> Fail ENoFuel -> c <> Fail ENoFuel.
Proof. intros X N E. subst c. inversion X. subst. apply N. reflexivity. Qed.
Lemma call_result_back rt c : call_result rt c <> Fail ENoFuel -> c <> Fail ENoFuel.
Proof. intros N E. subst c. apply N. reflexivity. Qed.
Lemma propagates_same {A} (c0 c : ctl A) : propagates c0 c -> c0 = c.
Proof. intros P. destruct P; reflexivity. Qed.
Lemma propagates_val {A B} (a : A) (c : ctl B) : ~ propagates (Val a) c.
Proof. intros P. inversion P. Qed.

Lemma truth_eq y : b2z (negb (y =? 0)) = truth y.
Proof. unfold truth. destruct (y =? 0); reflexivity. Qed.

(* the primitives never answer "out of fuel" *)
Lemma coerce_fuel t v : coerce t v <> Fail ENoFuel.
Proof. unfold coerce. destruct (uns t && (v <? 0)); [discriminate|]. destruct (in_range t v); discriminate. Qed.
Lemma chk_fuel z : chk z <> Fail ENoFuel.
Proof. unfold chk. destruct (in64 z); discriminate. Qed.
Lemma arith_fuel o a b : arith o a b <> Fail ENoFuel.
Proof.
  destruct o; cbn [arith]; try apply chk_fuel; try discriminate.
  - destruct (b =? 0); [discriminate|apply chk_fuel].
  - destruct (b =? 0); [discriminate|]. destruct ((a =? int64_min) && (b =? -1)); discriminate.
  - destruct ((0 <=? b) && (b <? 64)); [apply chk_fuel|discriminate].
  - destruct ((0 <=? b) && (b <? 64)); discriminate.
Qed.
Lemma unarith_fuel o a : unarith o a <> Fail ENoFuel.
Proof. destruct o; cbn [unarith]; try apply chk_fuel; discriminate. Qed.
Lemma coerce_all_fuel t vs : coerce_all t vs <> Fail ENoFuel.
Proof.
  induction vs as [|v r IH]; cbn [coerce_all]; [discriminate|].
  pose proof (coerce_fuel t v) as Hc. destruct (coerce t v); try discriminate; [|congruence].
  destruct (coerce_all t r); try discriminate. congruence.
Qed.
Lemma call_result_fuel rt c : c <> Fail ENoFuel -> call_result rt c <> Fail ENoFuel.
Proof.
  intros N. destruct c as [a| | |v|e]; cbn [call_result]; try discriminate; [|congruence].
  destruct v as [v|]; [|discriminate]. destruct rt; [apply coerce_fuel|discriminate].
Qed.
Lemma m_read_fuel x i s c s' : m_read x i s = (c, s') -> c <> Fail ENoFuel.
Proof.
  unfold m_read. destruct (get_entry x s) as [e|]; [|intros [= <- _]; discriminate].
  destruct (flat_index _ _ _); intros [= <- _]; discriminate.
Qed.
Lemma m_write_fuel x i v s c s' : m_write x i v s = (c, s') -> c <> Fail ENoFuel.
Proof.
  unfold m_write. destruct (get_entry x s) as [e|]; [|intros [= <- _]; discriminate].
  destruct (econst e); [intros [= <- _]; discriminate|].
  destruct (flat_index _ _ _); [|intros [= <- _]; discriminate].
  pose proof (coerce_fuel (ety e) v) as Hc.
  destruct (coerce (ety e) v); intros [= <- _]; try discriminate. congruence.
Qed.
Lemma m_declare_fuel sta cst t x d vs s c s' : m_declare sta cst t x d vs s = (c, s') -> c <> Fail ENoFuel.
Proof.
  unfold m_declare. pose proof (coerce_all_fuel t vs) as Hc.
  destruct (coerce_all t vs); try (intros [= <- _]; discriminate); [|intros [= <- _]; congruence].
  destruct (sframes s) as [|f fr]; [intros [= <- _]; discriminate|].
  destruct sta; [intros [= <- _]; discriminate|].
  destruct (fscopes f); intros [= <- _]; discriminate.
Qed.
Lemma m_push_scope_fuel s c s' : m_push_scope s = (c, s') -> c <> Fail ENoFuel.
Proof. unfold m_push_scope. destruct (sframes s); intros [= <- _]; discriminate. Qed.

(* two sub-terms of the interpreter that have a judgement of their own ([binit], [bforin]) *)
Definition init_m (ev : expr -> M Z) (init : option expr) : M Z :=
  match init with Some e => ev e | None => ret 0 end.
Definition for_in (ev : expr -> M Z) (ex : stmt -> M unit) (init : list stmt) (c : expr) (upd body : list stmt) : M unit :=
  exec_list ex init ;;;
  x <- ev c ;;
  if x =? 0 then ret tt
  else loop_step (in_block ex body) (exec_list ex upd ;;; ex (SFor [] c upd body)).

(* an lvalue is its name and its evaluated index list *)
Lemma lval_bind {B} ev lv (f : ident * list Z -> M B) s :
  bind (lval_target ev lv) f s = bind (eval_list ev (lv_idx lv)) (fun is_ => f (lv_name lv, is_)) s.
Proof.
  destruct lv as [x|a idx]; [reflexivity|]. cbn [lval_target lv_idx lv_name]. unfold bind.
  destruct (eval_list ev idx s) as [[] ?]; reflexivity.
Qed.

Lemma m_static_known_eq x s : m_static_known x s = (Val (static_known x s), s).
Proof. reflexivity. Qed.
Lemma m_push_frame_eq f s : m_push_frame f s = (Val tt, push_frame_st f s).
Proof. reflexivity. Qed.
Lemma m_out_eq o s : m_out o s = (Val tt, out_st o s).
Proof. reflexivity. Qed.
Lemma sep_eq (first : bool) s : (if first then ret tt else m_out OSp) s = (Val tt, sep_st first s).
Proof. destruct first; reflexivity. Qed.

(* the interpreter's arity test decides [arity_ok] *)
Lemma arity_ok_iff fd n : arity_ok fd n <->
  (Nat.ltb n (required (fparams fd))) || (Nat.ltb (List.length (fparams fd)) n) = false.
Proof. unfold arity_ok. rewrite orb_false_iff, !Nat.ltb_ge. reflexivity. Qed.
Lemma arity_ok_test fd n : arity_ok fd n ->
  (Nat.ltb n (required (fparams fd))) || (Nat.ltb (List.length (fparams fd)) n) = false.
Proof. apply arity_ok_iff. Qed.
Lemma arity_bad_test fd n : ~ arity_ok fd n ->
  (Nat.ltb n (required (fparams fd))) || (Nat.ltb (List.length (fparams fd)) n) = true.
Proof. intros A. apply not_false_is_true. intros E. apply A, arity_ok_iff, E. Qed.

Tactic Notation "binv" hyp(H) "as" ident(a) ident(s1) ident(E) "|" ident(c1) ident(E') ident(P) :=
  apply bind_inv in H as [(a & s1 & E & H)|(c1 & E' & P)].
Ltac minv H := unfold ret, fail, lift in H; injection H as <- <-.

(* the struct judgements evaluate no expression: they are the graphs of [decl_members], [copy_cells], [copy_members] *)
Lemma bdeclm_iff x flds : forall j s c s', bdeclm x j flds s c s' <-> decl_members x j flds s = (c, s').
Proof.
  split.
  - induction 1; cbn [decl_members]; [reflexivity| |eapply bind_abn; eassumption].
    erewrite bind_val by eassumption. assumption.
  - revert j s. induction flds as [|f r IH]; intros j s H; cbn [decl_members] in H; [minv H; constructor|].
    binv H as u s1 E | c1 E P; [destruct u|]; eauto using bdeclm.
Qed.

Lemma bcopyc_iff dst src idxs : forall s c s', bcopyc dst src idxs s c s' <-> copy_cells dst src idxs s = (c, s').
Proof.
  split.
  - induction 1; cbn [copy_cells]; [reflexivity| |eapply bind_abn; eassumption|].
    + erewrite !bind_val by eassumption. assumption.
    + erewrite bind_val by eassumption. eapply bind_abn; eassumption.
  - revert s. induction idxs as [|i r IH]; intros s H; cbn [copy_cells] in H; [minv H; constructor|].
    binv H as v s1 E | c1 E P; [|eauto using bcopyc].
    binv H as u s2 E2 | c2 E2 P; [destruct u|]; eauto using bcopyc.
Qed.

Lemma bcopym_iff x y flds : forall j s c s', bcopym x y j flds s c s' <-> copy_members x y j flds s = (c, s').
Proof.
  split.
  - induction 1 as [|j f r s s1 c s2 Hc|j f r s c0 s1 c Hc]; cbn [copy_members]; [reflexivity|..];
      apply bcopyc_iff in Hc.
    + erewrite bind_val by eassumption. assumption.
    + eapply bind_abn; eassumption.
  - revert j s. induction flds as [|f r IH]; intros j s H; cbn [copy_members] in H; [minv H; constructor|].
    binv H as u s1 E | c1 E P; [destruct u|]; apply bcopyc_iff in E; eauto using bcopym.
Qed.

Lemma bdeclm_fuel x j flds s c s' : bdeclm x j flds s c s' -> c <> Fail ENoFuel.
Proof.
  induction 1; [discriminate|assumption|].
  eapply propagates_fuel; [eassumption|]. eapply m_declare_fuel; eassumption.
Qed.
Lemma bcopyc_fuel dst src idxs s c s' : bcopyc dst src idxs s c s' -> c <> Fail ENoFuel.
Proof.
  induction 1; [discriminate|assumption| |]; (eapply propagates_fuel; [eassumption|]).
  - eapply m_read_fuel; eassumption.
  - eapply m_write_fuel; eassumption.
Qed.
Lemma bcopym_fuel x y j flds s c s' : bcopym x y j flds s c s' -> c <> Fail ENoFuel.
Proof.
  induction 1; [discriminate|assumption|].
  eapply propagates_fuel; [eassumption|]. eapply bcopyc_fuel; eassumption.
Qed.

Create HintDb bs.
#[export] Hint Constructors beval bevals bargs bbind binit bexec bexecs bblock bforin bprint : bs.
#[export] Hint Constructors propagates goes_on loop_exit : bs.
#[export] Hint Resolve val_has_fuel propagates_nofuel loop_exit_nofuel goes_on_fuel : bs.

Tactic Notation "zcase" ident(x) ident(Hz) := destruct (x =? 0) eqn:Hz; [apply Z.eqb_eq in Hz; subst x | apply Z.eqb_neq in Hz].
(* choose the rule: its premises are the inverted equations, passed through the induction hypotheses, whose side
   condition "not out of fuel" the [Resolve] hints derive from that of the whole; the deepest case, a loop
   exit, needs depth 6 *)
Ltac fin := eauto 6 with bs.

Section Sound.
Variable funcs : list func.

Section Helpers.
Variables (ev : expr -> M Z) (ex : stmt -> M unit).
Hypothesis Hev : forall e s c s', ev e s = (c, s') -> c <> Fail ENoFuel -> beval funcs e s c s'.
Hypothesis Hex : forall st s c s', ex st s = (c, s') -> c <> Fail ENoFuel -> bexec funcs st s c s'.

Lemma sound_eval_list es : forall s c s',
  eval_list ev es s = (c, s') -> c <> Fail ENoFuel -> bevals funcs es s c s'.
Proof.
  induction es as [|e r IH]; intros s c s' H N; cbn [eval_list] in H.
  - minv H. constructor.
  - binv H as v s1 E | c1 E P.
    + binv H as vs s2 E2 | c2 E2 P.
      * minv H. fin.
      * fin.
    + fin.
Qed.

Lemma sound_eval_args es : forall ps s c s', (List.length es <= List.length ps)%nat ->
  eval_args ev ps es s = (c, s') -> c <> Fail ENoFuel -> bargs funcs ps es s c s'.
Proof.
  induction es as [|e r IH]; intros ps s c s' L H N; cbn [eval_args] in H.
  - minv H. constructor.
  - destruct ps as [|p pr]; [cbn [List.length] in L; lia|].
    assert (L' : (List.length r <= List.length pr)%nat) by (cbn [List.length] in L; lia).
    binv H as v s1 E | c1 E P.
    + binv H as v' s2 E2 | c2 E2 P.
      * unfold lift in E2. injection E2 as E2 <-.
        binv H as vs s3 E3 | c3 E3 P.
        -- minv H. fin.
        -- fin.
      * unfold lift in E2. injection E2 as E2 <-. fin.
    + fin.
Qed.

Lemma sound_exec_list ss : forall s c s',
  exec_list ex ss s = (c, s') -> c <> Fail ENoFuel -> bexecs funcs ss s c s'.
Proof.
  induction ss as [|st r IH]; intros s c s' H N; cbn [exec_list] in H.
  - minv H. constructor.
  - binv H as u s1 E | c1 E P.
    + destruct u. fin.
    + fin.
Qed.

Lemma sound_in_block ss s c s' :
  in_block ex ss s = (c, s') -> c <> Fail ENoFuel -> bblock funcs ss s c s'.
Proof.
  unfold in_block. intros H N. binv H as u s1 E | c1 E P.
  - destruct u. apply finally_inv in H as (s2 & H & ->). apply sound_exec_list in H; [|exact N]. fin.
  - fin.
Qed.

Lemma sound_print_args es : forall first s c s',
  print_args ev first es s = (c, s') -> c <> Fail ENoFuel -> bprint funcs first es s c s'.
Proof.
  induction es as [|e r IH]; intros first s c s' H N; cbn [print_args] in H.
  - minv H. constructor.
  - rewrite (bind_val _ _ _ _ _ (sep_eq first s)) in H.
    binv H as v s1 E | c1 E P.
    + rewrite (bind_val _ _ _ _ _ (m_out_eq (OInt v) s1)) in H. fin.
    + fin.
Qed.

Lemma sound_bind_params ps : forall vs s c s',
  bind_params ev ps vs s = (c, s') -> c <> Fail ENoFuel -> bbind funcs ps vs s c s'.
Proof.
  induction ps as [|p pr IH]; intros vs s c s' H N; cbn [bind_params] in H.
  - minv H. constructor.
  - destruct vs as [|v vr].
    + destruct (pdef p) as [d|] eqn:D.
      * binv H as v s1 E | c1 E P.
        -- binv H as u s2 E2 | c2 E2 P.
           ++ destruct u. fin.
           ++ fin.
        -- fin.
      * minv H. fin.
    + binv H as u s1 E | c1 E P.
      * destruct u. fin.
      * fin.
Qed.

Lemma sound_init init s c s' :
  init_m ev init s = (c, s') -> c <> Fail ENoFuel -> binit funcs init s c s'.
Proof. destruct init as [e|]; cbn [init_m]; intros H N; [fin|minv H; constructor]. Qed.

Lemma sound_for_in init c upd body s r s' :
  for_in ev ex init c upd body s = (r, s') -> r <> Fail ENoFuel -> bforin funcs init c upd body s r s'.
Proof.
  unfold for_in. intros H N. binv H as u s1 E | c1 E P.
  - destruct u. apply sound_exec_list in E; [|discriminate].
    binv H as x s2 E2 | c2 E2 P.
    + zcase x Hz.
      * minv H. fin.
      * apply loop_step_inv in H as [(cb & s3 & B & G & H)|(cb & B & X)].
        -- apply sound_in_block in B; [|fin].
           binv H as u s4 E3 | c3 E3 P.
           ++ destruct u. apply sound_exec_list in E3; [|discriminate]. fin.
           ++ apply sound_exec_list in E3; fin.
        -- apply sound_in_block in B; [|fin]. fin.
    + fin.
  - apply sound_exec_list in E; fin.
Qed.
End Helpers.

Theorem exec_sound : forall n,
  (forall e s c s', eval funcs n e s = (c, s') -> c <> Fail ENoFuel -> beval funcs e s c s') /\
  (forall st s c s', exec funcs n st s = (c, s') -> c <> Fail ENoFuel -> bexec funcs st s c s').
Proof.
  induction n as [|k [IHe IHx]].
  - split; intros x s c s' H N; [rewrite eval_O in H|rewrite exec_O in H]; minv H; congruence.
  - pose proof (sound_eval_list _ IHe) as Hel.
    pose proof (sound_eval_args _ IHe) as Hea.
    pose proof (sound_exec_list _ IHx) as Hxl.
    pose proof (sound_in_block _ IHx) as Hib.
    pose proof (sound_print_args _ IHe) as Hpa.
    pose proof (sound_bind_params _ IHe) as Hbp.
    pose proof (sound_init _ IHe) as Hin.
    pose proof (sound_for_in _ _ IHe IHx) as Hfor.
    split.
    + intros e s c s' H N.
      destruct e as [z|x|o a|o a b|a b|a b|c0 a b|f args|a idx].
      * rewrite eval_S_num in H. minv H. constructor.
      * rewrite eval_S_var in H. constructor. exact H.
      * rewrite eval_S_un in H. binv H as v s1 E | c1 E P.
        -- minv H. fin.
        -- fin.
      * rewrite eval_S_bin in H. binv H as x s1 E | c1 E P.
        -- binv H as y s2 E2 | c2 E2 P.
           ++ minv H. fin.
           ++ fin.
        -- fin.
      * rewrite eval_S_and in H. binv H as x s1 E | c1 E P.
        -- zcase x Hz.
           ++ minv H. fin.
           ++ binv H as y s2 E2 | c2 E2 P.
              ** minv H. rewrite truth_eq. fin.
              ** fin.
        -- fin.
      * rewrite eval_S_or in H. binv H as x s1 E | c1 E P.
        -- zcase x Hz.
           ++ binv H as y s2 E2 | c2 E2 P.
              ** minv H. rewrite truth_eq. fin.
              ** fin.
           ++ minv H. fin.
        -- fin.
      * rewrite eval_S_cond in H. binv H as x s1 E | c1 E P.
        -- zcase x Hz; fin.
        -- fin.
      * rewrite eval_S_call in H. destruct (find_func f funcs) as [fd|] eqn:F.
        2:{ minv H. fin. }
        match type of H with (if ?b then _ else _) _ = _ => destruct b eqn:A end.
        { minv H. eapply BE_Call_arity; [exact F|]. intros AO. apply arity_ok_iff in AO. congruence. }
        apply arity_ok_iff in A. pose proof (proj2 A) as L.
        binv H as vs s1 E | c1 E P.
        2:{ apply Hea in E; [|exact L|]; fin. }
        apply Hea in E; [|exact L|discriminate].
        rewrite (bind_val _ _ _ _ _ (m_push_frame_eq f s1)) in H.
        apply finally_inv in H as (s2 & H & ->). apply map_ctl_inv in H as (cb & H & ->).
        apply call_result_back in N.
        binv H as u s3 E2 | c2 E2 P.
        -- destruct u. apply Hbp in E2; [|discriminate]. apply Hxl in H; [|exact N].
           eapply BE_Call; eassumption.
        -- apply Hbp in E2; [|fin]. eapply BE_Call_bind_abn; eassumption.
      * rewrite eval_S_idx in H. binv H as is_ s1 E | c1 E P; fin.
    + intros st s c s' H N.
      destruct st as [cst sta t x init|cst t x dims init|lv [o|] e|pre inc lv|e|c0 ss1 ss2|c0 body|init c0 upd body
                     | | |[e|]|ss|nl args|sn x flds|x y flds].
      * rewrite exec_S_decl in H. destruct sta.
        -- rewrite (bind_val _ _ _ _ _ (m_static_known_eq x s)) in H.
           destruct (static_known x s) eqn:K.
           ++ minv H. apply BX_Decl_static_again. exact K.
           ++ binv H as v s1 E | c1 E P.
              ** eapply BX_Decl; [right; exact K|apply Hin; [exact E|discriminate]|exact H].
              ** eapply BX_Decl_abn; [right; exact K|apply Hin; [exact E|fin]|exact P].
        -- binv H as v s1 E | c1 E P.
           ++ eapply BX_Decl; [left; reflexivity|apply Hin; [exact E|discriminate]|exact H].
           ++ eapply BX_Decl_abn; [left; reflexivity|apply Hin; [exact E|fin]|exact P].
      * rewrite exec_S_arr in H. binv H as vs s1 E | c1 E P; fin.
      * rewrite exec_S_compound, lval_bind in H. binv H as is_ s1 E | c1 E P; [|fin].
        cbn [fst snd] in H. binv H as old s2 E2 | c2 E2 P; [|fin].
        binv H as v s3 E3 | c3 E3 P; [|fin].
        binv H as r s4 E4 | c4 E4 P.
        -- unfold lift in E4. injection E4 as E4 <-. fin.
        -- unfold lift in E4. injection E4 as E4 <-. fin.
      * rewrite exec_S_assign in H. binv H as v s1 E | c1 E P; [|fin].
        rewrite lval_bind in H. binv H as is_ s2 E2 | c2 E2 P; [|fin].
        cbn [fst snd] in H. fin.
      * rewrite exec_S_incdec, lval_bind in H. binv H as is_ s1 E | c1 E P; [|fin].
        cbn [fst snd] in H. binv H as old s2 E2 | c2 E2 P; [|fin].
        binv H as r s4 E4 | c4 E4 P.
        -- unfold lift in E4. injection E4 as E4 <-. fin.
        -- unfold lift in E4. injection E4 as E4 <-. fin.
      * rewrite exec_S_expr in H. binv H as v s1 E | c1 E P.
        -- minv H. fin.
        -- fin.
      * rewrite exec_S_if in H. binv H as x s1 E | c1 E P.
        -- zcase x Hz; fin.
        -- fin.
      * rewrite exec_S_while in H. binv H as x s1 E | c1 E P.
        -- zcase x Hz.
           ++ minv H. fin.
           ++ apply loop_step_inv in H as [(cb & s2 & B & G & H)|(cb & B & X)]; fin.
        -- fin.
      * rewrite exec_S_for in H. binv H as u s1 E | c1 E P.
        -- destruct u. apply finally_inv in H as (s2 & H & ->). fin.
        -- fin.
      * rewrite exec_S_break in H. minv H. constructor.
      * rewrite exec_S_continue in H. minv H. constructor.
      * rewrite exec_S_return in H. binv H as v s1 E | c1 E P.
        -- minv H. fin.
        -- fin.
      * rewrite exec_S_return_void in H. minv H. constructor.
      * rewrite exec_S_block in H. fin.
      * rewrite exec_S_print in H. binv H as u s1 E | c1 E P.
        -- destruct u. destruct nl.
           ++ rewrite m_out_eq in H. minv H. apply (BX_Print funcs true). fin.
           ++ minv H. apply (BX_Print funcs false). fin.
        -- fin.
      * rewrite exec_S_struct in H. apply bdeclm_iff in H. fin.
      * rewrite exec_S_copy in H. apply bcopym_iff in H. fin.
Qed.
End Sound.

Create HintDb nofuel.
#[local] Hint Resolve propagates_fuel loop_exit_fuel call_result_fuel m_read_fuel m_write_fuel m_declare_fuel
  m_push_scope_fuel arith_fuel unarith_fuel coerce_fuel bdeclm_fuel bcopym_fuel : nofuel.

Section NoFuel.
Variable funcs : list func.

Theorem bigstep_never_out_of_fuel_l :
  (forall e s c s', beval funcs e s c s' -> c <> Fail ENoFuel) /\
  (forall es s c s', bevals funcs es s c s' -> c <> Fail ENoFuel) /\
  (forall ps es s c s', bargs funcs ps es s c s' -> c <> Fail ENoFuel) /\
  (forall ps vs s c s', bbind funcs ps vs s c s' -> c <> Fail ENoFuel) /\
  (forall init s c s', binit funcs init s c s' -> c <> Fail ENoFuel) /\
  (forall st s c s', bexec funcs st s c s' -> c <> Fail ENoFuel) /\
  (forall ss s c s', bexecs funcs ss s c s' -> c <> Fail ENoFuel) /\
  (forall ss s c s', bblock funcs ss s c s' -> c <> Fail ENoFuel) /\
  (forall init c0 upd body s c s', bforin funcs init c0 upd body s c s' -> c <> Fail ENoFuel) /\
  (forall first es s c s', bprint funcs first es s c s' -> c <> Fail ENoFuel).
Proof.
  apply (bigstep_mutind funcs
    (fun _ _ c _ => c <> Fail ENoFuel) (fun _ _ c _ => c <> Fail ENoFuel) (fun _ _ _ c _ => c <> Fail ENoFuel)
    (fun _ _ _ c _ => c <> Fail ENoFuel) (fun _ _ c _ => c <> Fail ENoFuel) (fun _ _ c _ => c <> Fail ENoFuel)
    (fun _ _ c _ => c <> Fail ENoFuel) (fun _ _ c _ => c <> Fail ENoFuel) (fun _ _ _ _ _ c _ => c <> Fail ENoFuel)
    (fun _ _ _ c _ => c <> Fail ENoFuel)); intros; subst.
  (* the outcome a rule concludes is a literal, or the answer of a primitive, or the outcome of a premise,
     possibly passed on by [propagates] or [loop_exit] and then through [call_result]: three steps at most *)
  all: try discriminate.
  all: eauto 3 with nofuel nocore.
Qed.
End NoFuel.

(* "for every sufficiently large fuel": in this form the premises of a rule, each with a fuel of its own, can be
   used together *)
Definition from_fuel {A} (F : nat -> M A) (s : state) (c : ctl A) (s' : state) : Prop :=
  exists n, forall m, (n <= m)%nat -> F m s = (c, s').

Lemma lift_eq {A} (c c' : ctl A) s : c = c' -> lift c s = (c', s).
Proof. intros ->. reflexivity. Qed.
Lemma eqb_nonzero x : x <> 0 -> (x =? 0) = false.
Proof. apply Z.eqb_neq. Qed.

(* facts that hold for every sufficiently large fuel: finitely many of them hold together at one fuel *)
Definition ev_fuel (P : nat -> Prop) : Prop := exists n, forall m, (n <= m)%nat -> P m.
Lemma ev_all (P : nat -> Prop) : (forall m, P m) -> ev_fuel P.
Proof. intros H. exists O. intros m _. apply H. Qed.
Lemma ev_mp (P Q : nat -> Prop) : ev_fuel P -> ev_fuel (fun m => P m -> Q m) -> ev_fuel Q.
Proof.
  intros [n1 H1] [n2 H2]. exists (max n1 n2). intros m L.
  exact (H2 m (Nat.max_lub_r _ _ _ L) (H1 m (Nat.max_lub_l _ _ _ L))).
Qed.
Lemma ev_now (P : nat -> Prop) : ev_fuel P -> exists n, P n.
Proof. intros [n H]. exists n. apply H, le_n. Qed.
Lemma ev_S (P : nat -> Prop) : ev_fuel (fun m => P (S m)) -> ev_fuel P.
Proof. intros [n H]. exists (S n). intros [|m] L; [inversion L|]. apply H, le_S_n, L. Qed.

(* [from_fuel F s c s'] is [ev_fuel (fun m => F m s = (c, s'))]: a goal "for every sufficiently large fuel"
   becomes a goal at one fuel [m] (at [S m] for [eval] and [exec], which then take one step), with every
   [from_fuel] hypothesis an equation at [m] *)
Ltac at_fuel :=
  lazymatch goal with
  | |- from_fuel (fun m => eval _ m _) _ _ _ => apply ev_S
  | |- from_fuel (fun m => exec _ m _) _ _ _ => apply ev_S
  | |- _ => idtac
  end;
  repeat match goal with H : from_fuel _ _ _ _ |- _ => apply (ev_mp _ _ H); clear H end;
  apply ev_all; intros ?m; intros; cbv beta.
(* the interpreter's answer is computed with the premises, one step at a time: [cstep] takes the step the head
   of the goal asks for (a [bind] whose first part has a value, an iteration that goes on, a decided test);
   [cgo] repeats it and closes with the rule's last premise (an abnormal first part, a loop exit, a bracket) *)
Ltac side := first
  [ eassumption
  | apply m_static_known_eq | apply m_push_frame_eq | apply m_out_eq | apply sep_eq
  | apply lift_eq; eassumption ].
Ltac cstep := cbv beta; lazymatch goal with
  | |- bind (lval_target _ _) _ _ = _ => rewrite lval_bind; cbn [fst snd]
  | |- bind _ _ _ = _ => etransitivity; [apply bind_val; side|]
  | |- loop_step _ _ _ = _ => etransitivity; [eapply loop_step_go; [side|eassumption]|]
  | |- (if 0 =? 0 then _ else _) _ = _ => change (0 =? 0) with true; cbv iota
  | |- (if _ =? 0 then _ else _) _ = _ => rewrite eqb_nonzero by assumption
  | |- _ => first
    [ match goal with H : find_func _ _ = _ |- _ => rewrite H end
    | match goal with H : pdef _ = _ |- _ => rewrite H end
    | match goal with H : static_known _ _ = _ |- _ => rewrite H end
    | rewrite arity_ok_test by assumption
    | rewrite arity_bad_test by assumption ]
  end.
Ltac cgo := repeat cstep; cbv beta; first
  [ reflexivity
  | side
  | eapply bind_abn; [side | eassumption]
  | eapply loop_step_exit; [side | eassumption]
  | apply finally_eq; first [side | apply map_ctl_eq; cgo]
  | rewrite <- truth_eq; reflexivity
  | apply bdeclm_iff; assumption
  | apply bcopym_iff; assumption ].

Section Complete.
Variable funcs : list func.

Theorem bexec_complete_l :
  (forall e s c s', beval funcs e s c s' -> from_fuel (fun m => eval funcs m e) s c s') /\
  (forall es s c s', bevals funcs es s c s' -> from_fuel (fun m => eval_list (eval funcs m) es) s c s') /\
  (forall ps es s c s', bargs funcs ps es s c s' -> from_fuel (fun m => eval_args (eval funcs m) ps es) s c s') /\
  (forall ps vs s c s', bbind funcs ps vs s c s' -> from_fuel (fun m => bind_params (eval funcs m) ps vs) s c s') /\
  (forall init s c s', binit funcs init s c s' -> from_fuel (fun m => init_m (eval funcs m) init) s c s') /\
  (forall st s c s', bexec funcs st s c s' -> from_fuel (fun m => exec funcs m st) s c s') /\
  (forall ss s c s', bexecs funcs ss s c s' -> from_fuel (fun m => exec_list (exec funcs m) ss) s c s') /\
  (forall ss s c s', bblock funcs ss s c s' -> from_fuel (fun m => in_block (exec funcs m) ss) s c s') /\
  (forall init c0 upd body s c s', bforin funcs init c0 upd body s c s' ->
     from_fuel (fun m => for_in (eval funcs m) (exec funcs m) init c0 upd body) s c s') /\
  (forall first es s c s', bprint funcs first es s c s' -> from_fuel (fun m => print_args (eval funcs m) first es) s c s').
Proof.
  apply (bigstep_mutind funcs
    (fun e => from_fuel (fun m => eval funcs m e))
    (fun es => from_fuel (fun m => eval_list (eval funcs m) es))
    (fun ps es => from_fuel (fun m => eval_args (eval funcs m) ps es))
    (fun ps vs => from_fuel (fun m => bind_params (eval funcs m) ps vs))
    (fun init => from_fuel (fun m => init_m (eval funcs m) init))
    (fun st => from_fuel (fun m => exec funcs m st))
    (fun ss => from_fuel (fun m => exec_list (exec funcs m) ss))
    (fun ss => from_fuel (fun m => in_block (exec funcs m) ss))
    (fun init c0 upd body => from_fuel (fun m => for_in (eval funcs m) (exec funcs m) init c0 upd body))
    (fun first es => from_fuel (fun m => print_args (eval funcs m) first es)));
  intros; at_fuel; simpl eval; simpl exec;
  cbn [eval_list eval_args bind_params init_m exec_list print_args]; unfold in_block, for_in; try solve [cgo].
  - (* SDecl, value *) destruct H as [->|K]; [|destruct sta]; cgo.
  - (* SDecl, initialiser abnormal *) destruct H as [->|K]; [|destruct sta]; cgo.
  - (* SPrint *) destruct nl; cgo.
Qed.
End Complete.

Lemma from_fuel_unique {A} (F : nat -> M A) s (c1 c2 : ctl A) s1 s2 :
  from_fuel F s c1 s1 -> from_fuel F s c2 s2 -> c1 = c2 /\ s1 = s2.
Proof.
  intros [n1 H1] [n2 H2]. specialize (H1 _ (Nat.le_max_l n1 n2)). rewrite (H2 _ (Nat.le_max_r n1 n2)) in H1.
  injection H1 as <- <-. split; reflexivity.
Qed.

Section Theorems.
Variable funcs : list func.

Lemma eval_more_fuel n m e s c s' : (n <= m)%nat ->
  eval funcs n e s = (c, s') -> c <> Fail ENoFuel -> eval funcs m e s = (c, s').
Proof. intros L H N. exact (proj1 (fuel_monotone funcs n m L) e s c s' H N). Qed.
Lemma exec_more_fuel n m st s c s' : (n <= m)%nat ->
  exec funcs n st s = (c, s') -> c <> Fail ENoFuel -> exec funcs m st s = (c, s').
Proof. intros L H N. exact (proj2 (fuel_monotone funcs n m L) st s c s' H N). Qed.

Corollary exec_list_sound n ss s c s' :
  exec_list (exec funcs n) ss s = (c, s') -> c <> Fail ENoFuel -> bexecs funcs ss s c s'.
Proof. apply sound_exec_list. exact (proj2 (exec_sound funcs n)). Qed.

(* completeness, strong form: a derivable judgement is the interpreter's answer for EVERY sufficiently large fuel *)
Theorem beval_complete_strong e s c s' :
  beval funcs e s c s' -> exists n, forall m, (n <= m)%nat -> eval funcs m e s = (c, s').
Proof. exact (proj1 (bexec_complete_l funcs) e s c s'). Qed.
Theorem bexec_complete_strong st s c s' :
  bexec funcs st s c s' -> exists n, forall m, (n <= m)%nat -> exec funcs m st s = (c, s').
Proof. exact (proj1 (proj2 (proj2 (proj2 (proj2 (proj2 (bexec_complete_l funcs)))))) st s c s'). Qed.
Theorem bexecs_complete_strong ss s c s' :
  bexecs funcs ss s c s' -> exists n, forall m, (n <= m)%nat -> exec_list (exec funcs m) ss s = (c, s').
Proof. exact (proj1 (proj2 (proj2 (proj2 (proj2 (proj2 (proj2 (bexec_complete_l funcs))))))) ss s c s'). Qed.

Theorem beval_complete e s c s' : beval funcs e s c s' -> exists n, eval funcs n e s = (c, s').
Proof. intros H. exact (ev_now _ (beval_complete_strong _ _ _ _ H)). Qed.
Theorem bexec_complete st s c s' : bexec funcs st s c s' -> exists n, exec funcs n st s = (c, s').
Proof. intros H. exact (ev_now _ (bexec_complete_strong _ _ _ _ H)). Qed.
Theorem bexecs_complete ss s c s' : bexecs funcs ss s c s' -> exists n, exec_list (exec funcs n) ss s = (c, s').
Proof. intros H. exact (ev_now _ (bexecs_complete_strong _ _ _ _ H)). Qed.

Theorem bigstep_never_out_of_fuel :
  (forall e s c s', beval funcs e s c s' -> c <> Fail ENoFuel) /\
  (forall st s c s', bexec funcs st s c s' -> c <> Fail ENoFuel) /\
  (forall ss s c s', bexecs funcs ss s c s' -> c <> Fail ENoFuel).
Proof.
  pose proof (bigstep_never_out_of_fuel_l funcs) as (He & _ & _ & _ & _ & Hx & Hxs & _).
  repeat split; assumption.
Qed.

(* the relation is a partial function: at most one outcome and final state *)
Theorem beval_deterministic e s c1 s1 c2 s2 :
  beval funcs e s c1 s1 -> beval funcs e s c2 s2 -> c1 = c2 /\ s1 = s2.
Proof.
  intros H1 H2. eapply (from_fuel_unique (fun m => eval funcs m e)).
  - exact (beval_complete_strong _ _ _ _ H1).
  - exact (beval_complete_strong _ _ _ _ H2).
Qed.
Theorem bexec_deterministic st s c1 s1 c2 s2 :
  bexec funcs st s c1 s1 -> bexec funcs st s c2 s2 -> c1 = c2 /\ s1 = s2.
Proof.
  intros H1 H2. eapply (from_fuel_unique (fun m => exec funcs m st)).
  - exact (bexec_complete_strong _ _ _ _ H1).
  - exact (bexec_complete_strong _ _ _ _ H2).
Qed.
Theorem bexecs_deterministic ss s c1 s1 c2 s2 :
  bexecs funcs ss s c1 s1 -> bexecs funcs ss s c2 s2 -> c1 = c2 /\ s1 = s2.
Proof.
  intros H1 H2. eapply (from_fuel_unique (fun m => exec_list (exec funcs m) ss)).
  - exact (bexecs_complete_strong _ _ _ _ H1).
  - exact (bexecs_complete_strong _ _ _ _ H2).
Qed.
End Theorems.

Definition outcome_of (c : ctl unit) : outcome := match c with Fail e => Failed e | _ => Finished end.

(* what a program means under the rules: the globals are initialised (a value out of range ends the program
   before anything runs), then the statements of main are executed in the initial state; the transcript is the
   output of the final state, oldest first *)
Definition bmeans (p : program) (out : list oitem) (oc : outcome) : Prop :=
  match init_state p with
  | None => out = [] /\ oc = Failed ERange
  | Some s0 => exists c s, bexecs (pfuncs p) (pmain p) s0 c s /\ out = rev (sout s) /\ oc = outcome_of c
  end.

Theorem bmeans_deterministic p o1 c1 o2 c2 : bmeans p o1 c1 -> bmeans p o2 c2 -> o1 = o2 /\ c1 = c2.
Proof.
  unfold bmeans. destruct (init_state p) as [s0|].
  - intros (c & s & H & -> & ->) (c' & s' & H' & -> & ->).
    destruct (bexecs_deterministic _ _ _ _ _ _ _ H H') as [-> ->]. split; reflexivity.
  - intros [-> ->] [-> ->]. split; reflexivity.
Qed.

Theorem bmeans_never_out_of_fuel p out oc : bmeans p out oc -> oc <> Failed ENoFuel.
Proof.
  unfold bmeans. destruct (init_state p) as [s0|].
  - intros (c & s & H & _ & ->) E.
    apply (proj2 (proj2 (bigstep_never_out_of_fuel (pfuncs p))) _ _ _ _ H).
    destruct c; try discriminate. injection E as ->. reflexivity.
  - intros [_ ->]. discriminate.
Qed.
