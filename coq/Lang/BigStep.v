(* Lang - BigStep: the documented semantics of CbCore once more, as inference rules.

   A declarative reading of docs/spec.md and of the property texts C01 (sequential core), C03 (operands once,
   left to right, short-circuit && || ?:), C04 (every store is range-checked), C05 (per-dimension bounds),
   C08 (private frames, positional arguments, defaults, statics) and C09 (const): no fuel, no monad, no
   interpreter.  A judgement

       beval  e  s c s'        expression e, started in state s, ends with control outcome c in state s'
       bexec  st s c s'        the same for a statement

   holds iff it has a finite derivation, so a diverging program has NO judgement (the fuelled interpreter
   answers [Fail ENoFuel] for every fuel instead; no rule below concludes [Fail ENoFuel], see
   [BigStepEquiv.bigstep_never_out_of_fuel]).

   The store / arithmetic layer of [Sem.v] ([m_read], [m_write], [m_declare], [m_out], [m_push_scope],
   [m_push_frame], [pop_scope_st], [pop_frame_st], [arith], [unarith], [coerce], [call_result]) is used as
   plain functions on states and numbers; that layer is characterised by its own theorems (C04 C05 C08 C09).
   Definitions only; the equivalence with the interpreter is in [BigStepEquiv.v]. *)
From Coq Require Import List ZArith.
From Cb Require Import Lang.Syntax Lang.Sem.
Import ListNotations.
Local Open Scope Z_scope.

(* ---------- outcomes ---------- *)
(* "the construct ends with the outcome its sub-part ended with": break, continue, return and errors pass
   unchanged through every enclosing construct (which may have another value type) *)
Inductive propagates {A B : Type} : ctl A -> ctl B -> Prop :=
| P_Brk : propagates Brk Brk
| P_Cnt : propagates Cnt Cnt
| P_Ret v : propagates (Ret v) (Ret v)
| P_Fail e : propagates (Fail e) (Fail e).

(* outcome of a loop body after which the loop goes on (normal end, `continue`) ... *)
Inductive goes_on : ctl unit -> Prop :=
| GO_Val : goes_on (Val tt)
| GO_Cnt : goes_on Cnt.
(* ... and after which it is left: `break` ends the loop normally, `return` and errors pass through *)
Inductive loop_exit : ctl unit -> ctl unit -> Prop :=
| LX_Brk : loop_exit Brk (Val tt)
| LX_Ret v : loop_exit (Ret v) (Ret v)
| LX_Fail e : loop_exit (Fail e) (Fail e).

(* the value of `a && b` / `a || b` is 0 or 1 *)
Definition truth (y : Z) : Z := if y =? 0 then 0 else 1.

(* an lvalue is a cell name and a (possibly empty) list of index expressions *)
Definition lv_name (lv : lval) : ident := match lv with LVar x => x | LIdx a _ => a end.
Definition lv_idx (lv : lval) : list expr := match lv with LVar _ => [] | LIdx _ idx => idx end.

(* state functions read off the primitives *)
Definition static_known (x : ident) (s : state) : bool :=
  match assoc x (statics_of (cur_fn s) s) with Some _ => true | None => false end.
Definition push_frame_st (fn : ident) (s : state) : state := snd (m_push_frame fn s).
Definition out_st (o : oitem) (s : state) : state := snd (m_out o s).
(* `println(a, b)`: a blank before every argument but the first *)
Definition sep_st (first : bool) (s : state) : state := if first then s else out_st OSp s.

(* a call supplies at least the parameters without default and at most all of them *)
Definition arity_ok (fd : func) (n : nat) : Prop :=
  (required (fparams fd) <= n)%nat /\ (n <= List.length (fparams fd))%nat.

(* ---------- plain structs (no expression is evaluated) ---------- *)
(* `S v;` declares the member cells in order, each zero-initialised *)
Inductive bdeclm (x : ident) : nat -> list fld -> state -> ctl unit -> state -> Prop :=
| BDM_nil j s : bdeclm x j [] s (Val tt) s
| BDM_cons j f r s s1 c s2 :
    m_declare false false (fty f) (mkey x j) (fdims f) [] s = (Val tt, s1) ->
    bdeclm x (S j) r s1 c s2 ->
    bdeclm x j (f :: r) s c s2
| BDM_fail j f r s c0 s1 c :
    m_declare false false (fty f) (mkey x j) (fdims f) [] s = (c0, s1) -> propagates c0 c ->
    bdeclm x j (f :: r) s c s1.

(* copy the cells of one member, in row-major order: read the source cell, store it into the target cell *)
Inductive bcopyc (dst src : ident) : list (list Z) -> state -> ctl unit -> state -> Prop :=
| BCC_nil s : bcopyc dst src [] s (Val tt) s
| BCC_cons i r s v s1 s2 c s3 :
    m_read src i s = (Val v, s1) -> m_write dst i v s1 = (Val tt, s2) ->
    bcopyc dst src r s2 c s3 ->
    bcopyc dst src (i :: r) s c s3
| BCC_read_fail i r s c0 s1 c :
    m_read src i s = (c0, s1) -> propagates c0 c ->
    bcopyc dst src (i :: r) s c s1
| BCC_write_fail i r s v s1 c0 s2 c :
    m_read src i s = (Val v, s1) -> m_write dst i v s1 = (c0, s2) -> propagates c0 c ->
    bcopyc dst src (i :: r) s c s2.

(* `v<x> = v<y>;` member by member *)
Inductive bcopym (x y : ident) : nat -> list fld -> state -> ctl unit -> state -> Prop :=
| BCM_nil j s : bcopym x y j [] s (Val tt) s
| BCM_cons j f r s s1 c s2 :
    bcopyc (mkey x j) (mkey y j) (all_idx (fdims f)) s (Val tt) s1 ->
    bcopym x y (S j) r s1 c s2 ->
    bcopym x y j (f :: r) s c s2
| BCM_fail j f r s c0 s1 c :
    bcopyc (mkey x j) (mkey y j) (all_idx (fdims f)) s c0 s1 -> propagates c0 c ->
    bcopym x y j (f :: r) s c s1.

Section BigStep.
Variable funcs : list func.

Inductive beval : expr -> state -> ctl Z -> state -> Prop :=
(* literals and variables *)
| BE_Num z s : beval (ENum z) s (Val z) s
| BE_Var x s c s' :                                     (* value, or unbound name *)
    m_read x [] s = (c, s') ->
    beval (EVar x) s c s'
(* unary and binary operators: operands once, left to right (C03); exact 64-bit arithmetic (C01) *)
| BE_Un o a s v s1 :
    beval a s (Val v) s1 ->
    beval (EUn o a) s (unarith o v) s1
| BE_Un_abn o a s c0 s1 c :
    beval a s c0 s1 -> propagates c0 c ->
    beval (EUn o a) s c s1
| BE_Bin o a b s x s1 y s2 :
    beval a s (Val x) s1 -> beval b s1 (Val y) s2 ->
    beval (EBin o a b) s (arith o x y) s2                (* value, division by zero, undefined *)
| BE_Bin_abn_l o a b s c0 s1 c :
    beval a s c0 s1 -> propagates c0 c ->
    beval (EBin o a b) s c s1                            (* b is not evaluated *)
| BE_Bin_abn_r o a b s x s1 c0 s2 c :
    beval a s (Val x) s1 -> beval b s1 c0 s2 -> propagates c0 c ->
    beval (EBin o a b) s c s2
(* a && b: b is not evaluated when a is false *)
| BE_And_false a b s s1 :
    beval a s (Val 0) s1 ->
    beval (EAnd a b) s (Val 0) s1
| BE_And_true a b s x s1 y s2 :
    beval a s (Val x) s1 -> x <> 0 -> beval b s1 (Val y) s2 ->
    beval (EAnd a b) s (Val (truth y)) s2
| BE_And_abn_l a b s c0 s1 c :
    beval a s c0 s1 -> propagates c0 c ->
    beval (EAnd a b) s c s1
| BE_And_abn_r a b s x s1 c0 s2 c :
    beval a s (Val x) s1 -> x <> 0 -> beval b s1 c0 s2 -> propagates c0 c ->
    beval (EAnd a b) s c s2
(* a || b: b is not evaluated when a is true *)
| BE_Or_true a b s x s1 :
    beval a s (Val x) s1 -> x <> 0 ->
    beval (EOr a b) s (Val 1) s1
| BE_Or_false a b s s1 y s2 :
    beval a s (Val 0) s1 -> beval b s1 (Val y) s2 ->
    beval (EOr a b) s (Val (truth y)) s2
| BE_Or_abn_l a b s c0 s1 c :
    beval a s c0 s1 -> propagates c0 c ->
    beval (EOr a b) s c s1
| BE_Or_abn_r a b s s1 c0 s2 c :
    beval a s (Val 0) s1 -> beval b s1 c0 s2 -> propagates c0 c ->
    beval (EOr a b) s c s2
(* c ? a : b: only the selected branch is evaluated; its outcome is the outcome *)
| BE_Cond_true c a b s x s1 r s2 :
    beval c s (Val x) s1 -> x <> 0 -> beval a s1 r s2 ->
    beval (ECond c a b) s r s2
| BE_Cond_false c a b s s1 r s2 :
    beval c s (Val 0) s1 -> beval b s1 r s2 ->
    beval (ECond c a b) s r s2
| BE_Cond_abn c a b s c0 s1 r :
    beval c s c0 s1 -> propagates c0 r ->
    beval (ECond c a b) s r s1
(* a[i][j]: the indices left to right, then the checked read (C05: every index inside its dimension) *)
| BE_Idx a idx s is_ s1 c s2 :
    bevals idx s (Val is_) s1 -> m_read a is_ s1 = (c, s2) ->
    beval (EIdx a idx) s c s2
| BE_Idx_abn a idx s c0 s1 c :
    bevals idx s c0 s1 -> propagates c0 c ->
    beval (EIdx a idx) s c s1
(* f(args) (C08): the function must exist, the argument count must fit; arguments left to right, each converted
   to its parameter's type; a fresh frame for f; parameters bound, omitted ones from their defaults (evaluated
   in the new frame); the body; the result converted to the declared result type; the frame is popped on
   EVERY outcome of binding and body *)
| BE_Call_unbound f args s :
    find_func f funcs = None ->
    beval (ECall f args) s (Fail EUnbound) s
| BE_Call_arity f args fd s :
    find_func f funcs = Some fd -> ~ arity_ok fd (List.length args) ->
    beval (ECall f args) s (Fail EArity) s
| BE_Call_args_abn f args fd s c0 s1 c :
    find_func f funcs = Some fd -> arity_ok fd (List.length args) ->
    bargs (fparams fd) args s c0 s1 -> propagates c0 c ->
    beval (ECall f args) s c s1
| BE_Call f args fd s vs s1 s2 cb s3 :
    find_func f funcs = Some fd -> arity_ok fd (List.length args) ->
    bargs (fparams fd) args s (Val vs) s1 ->
    bbind (fparams fd) vs (push_frame_st f s1) (Val tt) s2 ->
    bexecs (fbody fd) s2 cb s3 ->
    beval (ECall f args) s (call_result (fret fd) cb) (pop_frame_st s3)
| BE_Call_bind_abn f args fd s vs s1 c0 s2 cb :
    find_func f funcs = Some fd -> arity_ok fd (List.length args) ->
    bargs (fparams fd) args s (Val vs) s1 ->
    bbind (fparams fd) vs (push_frame_st f s1) c0 s2 -> propagates c0 cb ->
    beval (ECall f args) s (call_result (fret fd) cb) (pop_frame_st s2)

(* expression lists (indices, array initialisers): left to right, stop at the first abnormal one *)
with bevals : list expr -> state -> ctl (list Z) -> state -> Prop :=
| BL_nil s : bevals [] s (Val []) s
| BL_cons e r s v s1 vs s2 :
    beval e s (Val v) s1 -> bevals r s1 (Val vs) s2 ->
    bevals (e :: r) s (Val (v :: vs)) s2
| BL_abn_hd e r s c0 s1 c :
    beval e s c0 s1 -> propagates c0 c ->
    bevals (e :: r) s c s1
| BL_abn_tl e r s v s1 c0 s2 c :
    beval e s (Val v) s1 -> bevals r s1 c0 s2 -> propagates c0 c ->
    bevals (e :: r) s c s2

(* call arguments: left to right; each value is converted to its parameter's type (range error, C04) BEFORE
   the next argument is evaluated *)
with bargs : list param -> list expr -> state -> ctl (list Z) -> state -> Prop :=
| BA_nil ps s : bargs ps [] s (Val []) s
| BA_cons p pr e r s v s1 v' vs s2 :
    beval e s (Val v) s1 -> coerce (pty p) v = Val v' -> bargs pr r s1 (Val vs) s2 ->
    bargs (p :: pr) (e :: r) s (Val (v' :: vs)) s2
| BA_abn_hd p pr e r s c0 s1 c :
    beval e s c0 s1 -> propagates c0 c ->
    bargs (p :: pr) (e :: r) s c s1
| BA_range p pr e r s v s1 c0 c :
    beval e s (Val v) s1 -> coerce (pty p) v = c0 -> propagates c0 c ->
    bargs (p :: pr) (e :: r) s c s1
| BA_abn_tl p pr e r s v s1 v' c0 s2 c :
    beval e s (Val v) s1 -> coerce (pty p) v = Val v' -> bargs pr r s1 c0 s2 -> propagates c0 c ->
    bargs (p :: pr) (e :: r) s c s2

(* binding the parameters in the callee's frame: supplied values positionally, then the declared defaults *)
with bbind : list param -> list Z -> state -> ctl unit -> state -> Prop :=
| BB_nil vs s : bbind [] vs s (Val tt) s
| BB_arg p pr v vr s s1 c s2 :
    m_declare false false (pty p) (pname p) [] [v] s = (Val tt, s1) -> bbind pr vr s1 c s2 ->
    bbind (p :: pr) (v :: vr) s c s2
| BB_arg_fail p pr v vr s c0 s1 c :
    m_declare false false (pty p) (pname p) [] [v] s = (c0, s1) -> propagates c0 c ->
    bbind (p :: pr) (v :: vr) s c s1
| BB_default p pr d s v s1 s2 c s3 :
    pdef p = Some d -> beval d s (Val v) s1 ->
    m_declare false false (pty p) (pname p) [] [v] s1 = (Val tt, s2) -> bbind pr [] s2 c s3 ->
    bbind (p :: pr) [] s c s3
| BB_default_abn p pr d s c0 s1 c :
    pdef p = Some d -> beval d s c0 s1 -> propagates c0 c ->
    bbind (p :: pr) [] s c s1
| BB_default_fail p pr d s v s1 c0 s2 c :
    pdef p = Some d -> beval d s (Val v) s1 ->
    m_declare false false (pty p) (pname p) [] [v] s1 = (c0, s2) -> propagates c0 c ->
    bbind (p :: pr) [] s c s2
| BB_missing p pr s :
    pdef p = None ->
    bbind (p :: pr) [] s (Fail EArity) s

(* optional initialiser: none means 0 *)
with binit : option expr -> state -> ctl Z -> state -> Prop :=
| BI_none s : binit None s (Val 0) s
| BI_some e s c s' : beval e s c s' -> binit (Some e) s c s'

with bexec : stmt -> state -> ctl unit -> state -> Prop :=
(* declarations: the initial value goes through the range-checked declaration (C04); a `static` is initialised
   by the first execution only and keeps its value (C08) *)
| BX_Decl_static_again cst t x init s :
    static_known x s = true ->
    bexec (SDecl cst true t x init) s (Val tt) s
| BX_Decl cst sta t x init s v s1 c s2 :
    sta = false \/ static_known x s = false ->
    binit init s (Val v) s1 -> m_declare sta cst t x [] [v] s1 = (c, s2) ->
    bexec (SDecl cst sta t x init) s c s2
| BX_Decl_abn cst sta t x init s c0 s1 c :
    sta = false \/ static_known x s = false ->
    binit init s c0 s1 -> propagates c0 c ->
    bexec (SDecl cst sta t x init) s c s1
| BX_Arr cst t x dims init s vs s1 c s2 :
    bevals init s (Val vs) s1 -> m_declare false cst t x dims vs s1 = (c, s2) ->
    bexec (SArr cst t x dims init) s c s2
| BX_Arr_abn cst t x dims init s c0 s1 c :
    bevals init s c0 s1 -> propagates c0 c ->
    bexec (SArr cst t x dims init) s c s1
(* lv = e: the value, then the target's indices, then the checked store (const C09, bounds C05, range C04) *)
| BX_Assign lv e s v s1 is_ s2 c s3 :
    beval e s (Val v) s1 -> bevals (lv_idx lv) s1 (Val is_) s2 ->
    m_write (lv_name lv) is_ v s2 = (c, s3) ->
    bexec (SAssign lv None e) s c s3
| BX_Assign_abn_value lv e s c0 s1 c :
    beval e s c0 s1 -> propagates c0 c ->
    bexec (SAssign lv None e) s c s1
| BX_Assign_abn_index lv e s v s1 c0 s2 c :
    beval e s (Val v) s1 -> bevals (lv_idx lv) s1 c0 s2 -> propagates c0 c ->
    bexec (SAssign lv None e) s c s2
(* lv op= e means lv = lv op e with lv's indices evaluated once: indices, old value, e, operation, store *)
| BX_Compound lv o e s is_ s1 old s2 v s3 r c s4 :
    bevals (lv_idx lv) s (Val is_) s1 -> m_read (lv_name lv) is_ s1 = (Val old, s2) ->
    beval e s2 (Val v) s3 -> arith o old v = Val r ->
    m_write (lv_name lv) is_ r s3 = (c, s4) ->
    bexec (SAssign lv (Some o) e) s c s4
| BX_Compound_abn_index lv o e s c0 s1 c :
    bevals (lv_idx lv) s c0 s1 -> propagates c0 c ->
    bexec (SAssign lv (Some o) e) s c s1
| BX_Compound_abn_read lv o e s is_ s1 c0 s2 c :
    bevals (lv_idx lv) s (Val is_) s1 -> m_read (lv_name lv) is_ s1 = (c0, s2) -> propagates c0 c ->
    bexec (SAssign lv (Some o) e) s c s2
| BX_Compound_abn_value lv o e s is_ s1 old s2 c0 s3 c :
    bevals (lv_idx lv) s (Val is_) s1 -> m_read (lv_name lv) is_ s1 = (Val old, s2) ->
    beval e s2 c0 s3 -> propagates c0 c ->
    bexec (SAssign lv (Some o) e) s c s3
| BX_Compound_abn_arith lv o e s is_ s1 old s2 v s3 c0 c :
    bevals (lv_idx lv) s (Val is_) s1 -> m_read (lv_name lv) is_ s1 = (Val old, s2) ->
    beval e s2 (Val v) s3 -> arith o old v = c0 -> propagates c0 c ->
    bexec (SAssign lv (Some o) e) s c s3
(* lv++ / lv-- / ++lv / --lv as statements: lv = lv +- 1 through the checked store *)
| BX_IncDec pre (inc : bool) lv s is_ s1 old s2 r c s3 :
    bevals (lv_idx lv) s (Val is_) s1 -> m_read (lv_name lv) is_ s1 = (Val old, s2) ->
    arith (if inc then Add else Sub) old 1 = Val r ->
    m_write (lv_name lv) is_ r s2 = (c, s3) ->
    bexec (SIncDec pre inc lv) s c s3
| BX_IncDec_abn_index pre inc lv s c0 s1 c :
    bevals (lv_idx lv) s c0 s1 -> propagates c0 c ->
    bexec (SIncDec pre inc lv) s c s1
| BX_IncDec_abn_read pre inc lv s is_ s1 c0 s2 c :
    bevals (lv_idx lv) s (Val is_) s1 -> m_read (lv_name lv) is_ s1 = (c0, s2) -> propagates c0 c ->
    bexec (SIncDec pre inc lv) s c s2
| BX_IncDec_abn_arith pre (inc : bool) lv s is_ s1 old s2 c0 c :
    bevals (lv_idx lv) s (Val is_) s1 -> m_read (lv_name lv) is_ s1 = (Val old, s2) ->
    arith (if inc then Add else Sub) old 1 = c0 -> propagates c0 c ->
    bexec (SIncDec pre inc lv) s c s2
(* expression statement: the value is dropped *)
| BX_Expr e s v s1 :
    beval e s (Val v) s1 ->
    bexec (SExpr e) s (Val tt) s1
| BX_Expr_abn e s c0 s1 c :
    beval e s c0 s1 -> propagates c0 c ->
    bexec (SExpr e) s c s1
(* if: the condition, then exactly one branch as a block *)
| BX_If_true c s1_ s2_ s x s1 r s2 :
    beval c s (Val x) s1 -> x <> 0 -> bblock s1_ s1 r s2 ->
    bexec (SIf c s1_ s2_) s r s2
| BX_If_false c s1_ s2_ s s1 r s2 :
    beval c s (Val 0) s1 -> bblock s2_ s1 r s2 ->
    bexec (SIf c s1_ s2_) s r s2
| BX_If_abn c s1_ s2_ s c0 s1 r :
    beval c s c0 s1 -> propagates c0 r ->
    bexec (SIf c s1_ s2_) s r s1
(* while: unfold one iteration; `continue` and a normal end of the body go on, `break` ends the loop *)
| BX_While_done c body s s1 :
    beval c s (Val 0) s1 ->
    bexec (SWhile c body) s (Val tt) s1
| BX_While_abn c body s c0 s1 r :
    beval c s c0 s1 -> propagates c0 r ->
    bexec (SWhile c body) s r s1
| BX_While_iter c body s x s1 cb s2 r s3 :
    beval c s (Val x) s1 -> x <> 0 -> bblock body s1 cb s2 -> goes_on cb ->
    bexec (SWhile c body) s2 r s3 ->
    bexec (SWhile c body) s r s3
| BX_While_exit c body s x s1 cb s2 r :
    beval c s (Val x) s1 -> x <> 0 -> bblock body s1 cb s2 -> loop_exit cb r ->
    bexec (SWhile c body) s r s2
(* for: the header has its own scope, left on EVERY outcome *)
| BX_For init c upd body s s1 r s2 :
    m_push_scope s = (Val tt, s1) -> bforin init c upd body s1 r s2 ->
    bexec (SFor init c upd body) s r (pop_scope_st s2)
| BX_For_noscope init c upd body s c0 s1 r :
    m_push_scope s = (c0, s1) -> propagates c0 r ->
    bexec (SFor init c upd body) s r s1
| BX_Break s : bexec SBreak s Brk s
| BX_Continue s : bexec SContinue s Cnt s
| BX_Return_void s : bexec (SReturn None) s (Ret None) s
| BX_Return e s v s1 :
    beval e s (Val v) s1 ->
    bexec (SReturn (Some e)) s (Ret (Some v)) s1
| BX_Return_abn e s c0 s1 c :
    beval e s c0 s1 -> propagates c0 c ->
    bexec (SReturn (Some e)) s c s1
| BX_Block ss s c s' :
    bblock ss s c s' ->
    bexec (SBlock ss) s c s'
(* print / println: every argument is evaluated and written before the next one is evaluated *)
| BX_Print (nl : bool) args s s1 :
    bprint true args s (Val tt) s1 ->
    bexec (SPrint nl args) s (Val tt) (if nl then out_st ONl s1 else s1)
| BX_Print_abn nl args s c0 s1 c :
    bprint true args s c0 s1 -> propagates c0 c ->
    bexec (SPrint nl args) s c s1
(* plain structs *)
| BX_Struct sn x flds s c s' :
    bdeclm x 0%nat flds s c s' ->
    bexec (SStruct sn x flds) s c s'
| BX_Copy x y flds s c s' :
    bcopym x y 0%nat flds s c s' ->
    bexec (SCopy x y flds) s c s'

(* statement sequences: stop at the first statement that does not end normally *)
with bexecs : list stmt -> state -> ctl unit -> state -> Prop :=
| BS_nil s : bexecs [] s (Val tt) s
| BS_cons st r s s1 c s2 :
    bexec st s (Val tt) s1 -> bexecs r s1 c s2 ->
    bexecs (st :: r) s c s2
| BS_abn st r s c0 s1 c :
    bexec st s c0 s1 -> propagates c0 c ->
    bexecs (st :: r) s c s1

(* { ss }: a new innermost scope, popped on EVERY outcome (C08: block locals end with the block) *)
with bblock : list stmt -> state -> ctl unit -> state -> Prop :=
| BK_block ss s s1 c s2 :
    m_push_scope s = (Val tt, s1) -> bexecs ss s1 c s2 ->
    bblock ss s c (pop_scope_st s2)
| BK_noscope ss s c0 s1 c :
    m_push_scope s = (c0, s1) -> propagates c0 c ->
    bblock ss s c s1

(* inside the scope of a for header: initialiser; condition; body as a block; `continue` and a normal end run
   the update; then the loop is entered again as a for without initialiser; `break` ends it *)
with bforin : list stmt -> expr -> list stmt -> list stmt -> state -> ctl unit -> state -> Prop :=
| BF_init_abn init c upd body s c0 s1 r :
    bexecs init s c0 s1 -> propagates c0 r ->
    bforin init c upd body s r s1
| BF_cond_abn init c upd body s s1 c0 s2 r :
    bexecs init s (Val tt) s1 -> beval c s1 c0 s2 -> propagates c0 r ->
    bforin init c upd body s r s2
| BF_done init c upd body s s1 s2 :
    bexecs init s (Val tt) s1 -> beval c s1 (Val 0) s2 ->
    bforin init c upd body s (Val tt) s2
| BF_iter init c upd body s s1 x s2 cb s3 s4 r s5 :
    bexecs init s (Val tt) s1 -> beval c s1 (Val x) s2 -> x <> 0 ->
    bblock body s2 cb s3 -> goes_on cb ->
    bexecs upd s3 (Val tt) s4 ->
    bexec (SFor [] c upd body) s4 r s5 ->
    bforin init c upd body s r s5
| BF_upd_abn init c upd body s s1 x s2 cb s3 c0 s4 r :
    bexecs init s (Val tt) s1 -> beval c s1 (Val x) s2 -> x <> 0 ->
    bblock body s2 cb s3 -> goes_on cb ->
    bexecs upd s3 c0 s4 -> propagates c0 r ->
    bforin init c upd body s r s4
| BF_exit init c upd body s s1 x s2 cb s3 r :
    bexecs init s (Val tt) s1 -> beval c s1 (Val x) s2 -> x <> 0 ->
    bblock body s2 cb s3 -> loop_exit cb r ->
    bforin init c upd body s r s3

(* the arguments of print / println, separated by one blank *)
with bprint : bool -> list expr -> state -> ctl unit -> state -> Prop :=
| BP_nil first s : bprint first [] s (Val tt) s
| BP_cons first e r s v s1 c s2 :
    beval e (sep_st first s) (Val v) s1 -> bprint false r (out_st (OInt v) s1) c s2 ->
    bprint first (e :: r) s c s2
| BP_abn first e r s c0 s1 c :
    beval e (sep_st first s) c0 s1 -> propagates c0 c ->
    bprint first (e :: r) s c s1.

Scheme beval_mind := Minimality for beval Sort Prop
  with bevals_mind := Minimality for bevals Sort Prop
  with bargs_mind := Minimality for bargs Sort Prop
  with bbind_mind := Minimality for bbind Sort Prop
  with binit_mind := Minimality for binit Sort Prop
  with bexec_mind := Minimality for bexec Sort Prop
  with bexecs_mind := Minimality for bexecs Sort Prop
  with bblock_mind := Minimality for bblock Sort Prop
  with bforin_mind := Minimality for bforin Sort Prop
  with bprint_mind := Minimality for bprint Sort Prop.
Combined Scheme bigstep_mutind from beval_mind, bevals_mind, bargs_mind, bbind_mind, binit_mind,
  bexec_mind, bexecs_mind, bblock_mind, bforin_mind, bprint_mind.

End BigStep.
