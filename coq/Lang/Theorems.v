(* Lang - the laws of the reference semantics that the other directories build on: one step of the
   interpreter (the equation of every clause of [eval] and [exec]), association lists read back after an
   update, output only grows (an instance of the generic induction), an error ends the run, and the
   arithmetic laws. *)
From Coq Require Import List ZArith Bool Lia.
From Cb Require Import Lang.Syntax Lang.Sem Lang.Respect.
Import ListNotations.
Local Open Scope Z_scope.

Section Equations.
Variable funcs : list func.
Variable k : nat.
Let ev := eval funcs k.
Let ex := exec funcs k.

Lemma eval_O e : eval funcs O e = fail ENoFuel. Proof. reflexivity. Qed.
Lemma exec_O st : exec funcs O st = fail ENoFuel. Proof. reflexivity. Qed.

Lemma eval_S_num z : eval funcs (S k) (ENum z) = ret z. Proof. reflexivity. Qed.
Lemma eval_S_var x : eval funcs (S k) (EVar x) = m_read x []. Proof. reflexivity. Qed.
Lemma eval_S_un o a : eval funcs (S k) (EUn o a) = (v <- ev a ;; lift (unarith o v)). Proof. reflexivity. Qed.
Lemma eval_S_bin o a b : eval funcs (S k) (EBin o a b) = (x <- ev a ;; y <- ev b ;; lift (arith o x y)).
Proof. reflexivity. Qed.
Lemma eval_S_and a b : eval funcs (S k) (EAnd a b) =
  (x <- ev a ;; if x =? 0 then ret 0 else y <- ev b ;; ret (b2z (negb (y =? 0)))).
Proof. reflexivity. Qed.
Lemma eval_S_or a b : eval funcs (S k) (EOr a b) =
  (x <- ev a ;; if x =? 0 then y <- ev b ;; ret (b2z (negb (y =? 0))) else ret 1).
Proof. reflexivity. Qed.
Lemma eval_S_cond c a b : eval funcs (S k) (ECond c a b) = (x <- ev c ;; if x =? 0 then ev b else ev a).
Proof. reflexivity. Qed.
Lemma eval_S_idx a idx : eval funcs (S k) (EIdx a idx) = (is_ <- eval_list ev idx ;; m_read a is_).
Proof. reflexivity. Qed.
Lemma eval_S_call f args : eval funcs (S k) (ECall f args) =
  match find_func f funcs with
  | None => fail EUnbound
  | Some fd =>
      if (Nat.ltb (List.length args) (required (fparams fd))) || (Nat.ltb (List.length (fparams fd)) (List.length args))
      then fail EArity
      else
        vs <- eval_args ev (fparams fd) args ;;
        m_push_frame f ;;;
        finally (map_ctl (call_result (fret fd))
                   (bind_params ev (fparams fd) vs ;;; exec_list ex (fbody fd))) pop_frame_st
  end.
Proof. reflexivity. Qed.

Lemma exec_S_decl cst sta t x init : exec funcs (S k) (SDecl cst sta t x init) =
  if sta then
    known <- m_static_known x ;;
    if known then ret tt
    else v <- (match init with Some e => ev e | None => ret 0 end) ;; m_declare true cst t x [] [v]
  else v <- (match init with Some e => ev e | None => ret 0 end) ;; m_declare false cst t x [] [v].
Proof. reflexivity. Qed.
Lemma exec_S_arr cst t x dims init : exec funcs (S k) (SArr cst t x dims init) =
  (vs <- eval_list ev init ;; m_declare false cst t x dims vs).
Proof. reflexivity. Qed.
Lemma exec_S_assign lv e : exec funcs (S k) (SAssign lv None e) =
  (v <- ev e ;; tg <- lval_target ev lv ;; m_write (fst tg) (snd tg) v).
Proof. reflexivity. Qed.
Lemma exec_S_compound lv o e : exec funcs (S k) (SAssign lv (Some o) e) =
  (tg <- lval_target ev lv ;; old <- m_read (fst tg) (snd tg) ;; v <- ev e ;;
   r <- lift (arith o old v) ;; m_write (fst tg) (snd tg) r).
Proof. reflexivity. Qed.
Lemma exec_S_incdec pre inc lv : exec funcs (S k) (SIncDec pre inc lv) =
  (tg <- lval_target ev lv ;; old <- m_read (fst tg) (snd tg) ;;
   r <- lift (arith (if inc then Add else Sub) old 1) ;; m_write (fst tg) (snd tg) r).
Proof. reflexivity. Qed.
Lemma exec_S_expr e : exec funcs (S k) (SExpr e) = (ev e ;;; ret tt). Proof. reflexivity. Qed.
Lemma exec_S_if c s1 s2 : exec funcs (S k) (SIf c s1 s2) =
  (x <- ev c ;; if x =? 0 then in_block ex s2 else in_block ex s1).
Proof. reflexivity. Qed.
Lemma exec_S_while c body : exec funcs (S k) (SWhile c body) =
  (x <- ev c ;; if x =? 0 then ret tt else loop_step (in_block ex body) (ex (SWhile c body))).
Proof. reflexivity. Qed.
Lemma exec_S_for init c upd body : exec funcs (S k) (SFor init c upd body) =
  (m_push_scope ;;;
   finally (exec_list ex init ;;;
            x <- ev c ;;
            if x =? 0 then ret tt
            else loop_step (in_block ex body) (exec_list ex upd ;;; ex (SFor [] c upd body))) pop_scope_st).
Proof. reflexivity. Qed.
Lemma exec_S_break : exec funcs (S k) SBreak = lift Brk. Proof. reflexivity. Qed.
Lemma exec_S_continue : exec funcs (S k) SContinue = lift Cnt. Proof. reflexivity. Qed.
Lemma exec_S_return_void : exec funcs (S k) (SReturn None) = lift (Ret None). Proof. reflexivity. Qed.
Lemma exec_S_return e : exec funcs (S k) (SReturn (Some e)) = (v <- ev e ;; lift (Ret (Some v))).
Proof. reflexivity. Qed.
Lemma exec_S_block ss : exec funcs (S k) (SBlock ss) = in_block ex ss. Proof. reflexivity. Qed.
Lemma exec_S_print nl args : exec funcs (S k) (SPrint nl args) =
  (print_args ev true args ;;; if nl then m_out ONl else ret tt).
Proof. reflexivity. Qed.
Lemma exec_S_struct sn x flds : exec funcs (S k) (SStruct sn x flds) = decl_members x 0 flds.
Proof. reflexivity. Qed.
Lemma exec_S_copy x y flds : exec funcs (S k) (SCopy x y flds) = copy_members x y 0 flds.
Proof. reflexivity. Qed.
End Equations.

(* reading an association list after [assoc_set]: the entry is replaced where the key is bound, nothing is added *)
Lemma assoc_assoc_set {A} x y (a : A) l :
  assoc y (assoc_set x a l) =
  if Nat.eqb y x then match assoc x l with Some _ => Some a | None => None end else assoc y l.
Proof.
  induction l as [|[z b] r IH]; cbn; [destruct (Nat.eqb y x); reflexivity|].
  destruct (Nat.eqb_spec x z) as [<-|Hxz]; cbn; [destruct (Nat.eqb y x); reflexivity|].
  rewrite IH. destruct (Nat.eqb_spec y x) as [->|Hyx]; [|reflexivity].
  destruct (Nat.eqb_spec x z); [contradiction|reflexivity].
Qed.
Lemma assoc_set_same {A} x (a : A) l b : assoc x l = Some b -> assoc x (assoc_set x a l) = Some a.
Proof. intros H. rewrite assoc_assoc_set, Nat.eqb_refl, H. reflexivity. Qed.
Lemma assoc_set_other {A} x y (a : A) l : x <> y -> assoc y (assoc_set x a l) = assoc y l.
Proof. intros H. rewrite assoc_assoc_set. destruct (Nat.eqb_spec y x); [congruence|reflexivity]. Qed.
Lemma scopes_set_length x e ss : List.length (scopes_set x e ss) = List.length ss.
Proof. induction ss as [|sc r IH]; cbn; [reflexivity|]. destruct (assoc x sc); cbn; congruence. Qed.

(* output only grows ([sout] is newest first) *)
Definition out_ext (s s' : state) : Prop := exists l, sout s' = l ++ sout s.
Lemma out_ext_refl s : out_ext s s. Proof. exists []. reflexivity. Qed.
Lemma out_ext_trans a b c : out_ext a b -> out_ext b c -> out_ext a c.
Proof. intros [l1 H1] [l2 H2]. exists (l2 ++ l1). rewrite H2, H1, app_assoc. reflexivity. Qed.

Lemma put_entry_sout x e s : sout (put_entry x e s) = sout s.
Proof.
  unfold put_entry. destruct (sframes s) as [|f fr]; [reflexivity|].
  destruct (scopes_get x (fscopes f)); [reflexivity|].
  destruct (assoc x (statics_of (ffn f) s)); reflexivity.
Qed.

Lemma write_out x i v : respects out_ext (m_write x i v).
Proof.
  intros s. unfold m_write. destruct (get_entry x s) as [e|]; [|apply out_ext_refl].
  destruct (econst e); [apply out_ext_refl|].
  destruct (flat_index _ _ _); [|apply out_ext_refl].
  destruct (coerce _ _); try apply out_ext_refl. cbn [snd]. exists []. rewrite put_entry_sout. reflexivity.
Qed.
Lemma declare_out sta cst t x d vs : respects out_ext (m_declare sta cst t x d vs).
Proof.
  intros s. unfold m_declare. destruct (coerce_all t vs); try apply out_ext_refl.
  destruct (sframes s) as [|f fr]; [exists []; reflexivity|].
  destruct sta; [exists []; reflexivity|]. destruct (fscopes f); [apply out_ext_refl|exists []; reflexivity].
Qed.

Lemma output_monotone_l funcs n :
  (forall e, respects out_ext (eval funcs n e)) /\ (forall st, respects out_ext (exec funcs n st)).
Proof.
  apply eval_exec_respect.
  - exact out_ext_refl.
  - exact out_ext_trans.
  - exact write_out.
  - exact declare_out.
  - intros o s. exists [o]. reflexivity.
  - apply block_of_prims; [exact out_ext_trans| |].
    + intros s. unfold m_push_scope. destruct (sframes s); [apply out_ext_refl|exists []; reflexivity].
    + intros s. unfold pop_scope_st. destruct (sframes s); exists []; reflexivity.
  - apply frame_of_prims; [exact out_ext_trans| |].
    + intros f s. exists []. reflexivity.
    + intros s. exists []. reflexivity.
Qed.

Lemma exec_list_app ex ss1 ss2 s :
  exec_list ex (ss1 ++ ss2) s =
  match exec_list ex ss1 s with
  | (Val _, s') => exec_list ex ss2 s'
  | (Brk, s') => (Brk, s') | (Cnt, s') => (Cnt, s') | (Ret v, s') => (Ret v, s') | (Fail e, s') => (Fail e, s')
  end.
Proof.
  revert s; induction ss1 as [|x r IH]; intros s; cbn [app exec_list].
  - reflexivity.
  - unfold bind. destruct (ex x s) as [c s1]. destruct c; try reflexivity. apply IH.
Qed.

Lemma error_cuts_run ex ss1 ss2 s e s' :
  exec_list ex ss1 s = (Fail e, s') -> exec_list ex (ss1 ++ ss2) s = (Fail e, s').
Proof. intros H. rewrite exec_list_app, H. reflexivity. Qed.

Lemma div_truncates a b q : arith Div a b = Val q -> b <> 0 /\ q = Z.quot a b /\ a = b * q + Z.rem a b.
Proof.
  unfold arith. destruct (b =? 0) eqn:E; [discriminate|]. apply Z.eqb_neq in E.
  unfold chk. destruct (in64 _); [|discriminate]. intros [= <-]. repeat split; auto. apply Z.quot_rem'.
Qed.
Lemma rem_sign_of_dividend a b r : arith Mod a b = Val r ->
  b <> 0 /\ r = Z.rem a b /\ Z.abs r < Z.abs b /\ (r = 0 \/ Z.sgn r = Z.sgn a).
Proof.
  unfold arith. destruct (b =? 0) eqn:E; [discriminate|]. apply Z.eqb_neq in E.
  destruct (_ && _); [discriminate|]. intros [= <-]. repeat split; auto.
  - apply Z.rem_bound_abs. exact E.
  - destruct (Z.eq_dec (Z.rem a b) 0) as [H|H]; [left; exact H|right]. apply Z.rem_sign_nz; assumption.
Qed.
Lemma shr_arithmetic a n r : arith Shr a n = Val r -> 0 <= n < 64 /\ r = a / 2 ^ n.
Proof.
  unfold arith. destruct ((0 <=? n) && (n <? 64)) eqn:E; [|discriminate]. intros [= <-].
  apply andb_true_iff in E as [E1 E2]. apply Z.leb_le in E1. apply Z.ltb_lt in E2.
  split; [lia|]. apply Z.shiftr_div_pow2. exact E1.
Qed.
Lemma arith_val_or_fail o a b : (exists z, arith o a b = Val z) \/ (exists er, arith o a b = Fail er).
Proof.
  destruct o; unfold arith, chk;
    repeat match goal with |- context [if ?c then _ else _] => destruct c end; eauto.
Qed.
