(* Lang - how [bind] computes, and the generic induction over the fuelled interpreter, done once. A relation between
   computations that holds on the primitives and is preserved by [bind], by the two brackets and
   by [loop_step] relates the interpreter at fuel n to the interpreter at any fuel m >= n
   ([eval_exec_related]). Two instances: a reflexive-transitive relation between states that
   every state-changing primitive respects is respected by every evaluation (section Respect
   below; the relation between computations ignores its second argument), and evaluation is
   monotone in the fuel ([FuelMono]). Adding a construct to the language costs one case here, not
   one case per property. *)
From Coq Require Import List ZArith.
From Cb Require Import Lang.Syntax Lang.Sem.
Local Open Scope Z_scope.

Lemma bind_val {A B} (m : M A) (f : A -> M B) s a s1 : m s = (Val a, s1) -> bind m f s = f a s1.
Proof. unfold bind. intros ->. reflexivity. Qed.
Lemma bind_fail {A B} (m : M A) (f : A -> M B) s e s1 : m s = (Fail e, s1) -> bind m f s = (Fail e, s1).
Proof. unfold bind. intros ->. reflexivity. Qed.
Lemma bind_inv_val {A B} (m : M A) (f : A -> M B) s b s2 :
  bind m f s = (Val b, s2) -> exists a s1, m s = (Val a, s1) /\ f a s1 = (Val b, s2).
Proof. unfold bind. destruct (m s) as [[] s1]; try discriminate. eauto. Qed.

Lemma m_read_state x i s : snd (m_read x i s) = s.
Proof. unfold m_read. destruct (get_entry x s); [|reflexivity]. destruct (flat_index _ _ _); reflexivity. Qed.

Section Related.
Variable rel : forall A, M A -> M A -> Prop.
Arguments rel {A}.

(* the interpreter out of fuel is related to anything: the base case *)
Hypothesis Rel_bot : forall A (m : M A), rel (fail ENoFuel) m.
(* what leaves the state alone ([ret], [fail], [lift], the reads) is related to itself *)
Hypothesis Rel_same : forall A (m : M A), (forall s, snd (m s) = s) -> rel m m.
Hypothesis Rel_write : forall x i v, rel (m_write x i v) (m_write x i v).
Hypothesis Rel_declare : forall sta cst t x d vs, rel (m_declare sta cst t x d vs) (m_declare sta cst t x d vs).
Hypothesis Rel_out : forall o, rel (m_out o) (m_out o).
Hypothesis Rel_bind : forall A B (m1 m2 : M A) (f1 f2 : A -> M B),
  rel m1 m2 -> (forall a, rel (f1 a) (f2 a)) -> rel (bind m1 f1) (bind m2 f2).
(* scopes and frames are entered and left only in brackets *)
Hypothesis Rel_block : forall A (m1 m2 : M A), rel m1 m2 ->
  rel (m_push_scope ;;; finally m1 pop_scope_st) (m_push_scope ;;; finally m2 pop_scope_st).
Hypothesis Rel_call : forall f rt (m1 m2 : M unit), rel m1 m2 ->
  rel (m_push_frame f ;;; finally (map_ctl (call_result rt) m1) pop_frame_st)
      (m_push_frame f ;;; finally (map_ctl (call_result rt) m2) pop_frame_st).
Hypothesis Rel_loop : forall b1 b2 n1 n2, rel b1 b2 -> rel n1 n2 -> rel (loop_step b1 n1) (loop_step b2 n2).

Lemma rel_lift {A} (c : ctl A) : rel (lift c) (lift c).
Proof. apply Rel_same. reflexivity. Qed.
Lemma rel_ret {A} (a : A) : rel (ret a) (ret a).
Proof. exact (rel_lift (Val a)). Qed.
Lemma rel_fail {A} e : rel (@fail A e) (fail e).
Proof. exact (rel_lift (Fail e)). Qed.
Lemma rel_read x i : rel (m_read x i) (m_read x i).
Proof. apply Rel_same, m_read_state. Qed.
Lemma rel_static_known x : rel (m_static_known x) (m_static_known x).
Proof. apply Rel_same. reflexivity. Qed.

Lemma rel_copy_cells dst src idxs : rel (copy_cells dst src idxs) (copy_cells dst src idxs).
Proof. induction idxs as [|i r IH]; cbn [copy_cells]; [apply rel_ret|].
  apply Rel_bind; [apply rel_read|]. intros v. apply Rel_bind; [apply Rel_write|]. intros _. exact IH. Qed.
Lemma rel_copy_members x y j flds : rel (copy_members x y j flds) (copy_members x y j flds).
Proof. revert j; induction flds as [|f r IH]; intros j; cbn [copy_members]; [apply rel_ret|].
  apply Rel_bind; [apply rel_copy_cells|]. intros _. apply IH. Qed.
Lemma rel_decl_members x j flds : rel (decl_members x j flds) (decl_members x j flds).
Proof. revert j; induction flds as [|f r IH]; intros j; cbn [decl_members]; [apply rel_ret|].
  apply Rel_bind; [apply Rel_declare|]. intros _. apply IH. Qed.

(* the list functions, over any two related pairs of evaluators *)
Section Helpers.
Variables (ev1 ev2 : expr -> M Z) (ex1 ex2 : stmt -> M unit).
Hypothesis Hev : forall e, rel (ev1 e) (ev2 e).
Hypothesis Hex : forall s, rel (ex1 s) (ex2 s).

Lemma rel_eval_list es : rel (eval_list ev1 es) (eval_list ev2 es).
Proof. induction es as [|e r IH]; cbn [eval_list]; [apply rel_ret|].
  apply Rel_bind; [apply Hev|]. intros v. apply Rel_bind; [exact IH|]. intros vs. apply rel_ret. Qed.
Lemma rel_eval_args ps es : rel (eval_args ev1 ps es) (eval_args ev2 ps es).
Proof. revert ps; induction es as [|e r IH]; intros ps; cbn [eval_args]; [apply rel_ret|].
  apply Rel_bind; [apply Hev|]. intros v. destruct ps as [|p pr].
  - apply Rel_bind; [apply IH|]. intros. apply rel_ret.
  - apply Rel_bind; [apply rel_lift|]. intros. apply Rel_bind; [apply IH|]. intros. apply rel_ret. Qed.
Lemma rel_exec_list ss : rel (exec_list ex1 ss) (exec_list ex2 ss).
Proof. induction ss as [|x r IH]; cbn [exec_list]; [apply rel_ret|].
  apply Rel_bind; [apply Hex|]. intros _. exact IH. Qed.
Lemma rel_in_block ss : rel (in_block ex1 ss) (in_block ex2 ss).
Proof. unfold in_block. apply Rel_block. apply rel_exec_list. Qed.
Lemma rel_print_args first es : rel (print_args ev1 first es) (print_args ev2 first es).
Proof. revert first; induction es as [|e r IH]; intros first; cbn [print_args]; [apply rel_ret|].
  apply Rel_bind; [destruct first; [apply rel_ret|apply Rel_out]|]. intros _.
  apply Rel_bind; [apply Hev|]. intros v. apply Rel_bind; [apply Rel_out|]. intros _. apply IH. Qed.
Lemma rel_bind_params ps vs : rel (bind_params ev1 ps vs) (bind_params ev2 ps vs).
Proof. revert vs; induction ps as [|p pr IH]; intros vs; cbn [bind_params]; [apply rel_ret|].
  destruct vs as [|v vr].
  - destruct (pdef p); [|apply rel_fail]. apply Rel_bind; [apply Hev|]. intros v.
    apply Rel_bind; [apply Rel_declare|]. intros _. apply IH.
  - apply Rel_bind; [apply Rel_declare|]. intros _. apply IH. Qed.
Lemma rel_lval_target lv : rel (lval_target ev1 lv) (lval_target ev2 lv).
Proof. destruct lv; cbn [lval_target]; [apply rel_ret|].
  apply Rel_bind; [apply rel_eval_list|]. intros. apply rel_ret. Qed.
End Helpers.

Variable funcs : list func.

Theorem eval_exec_related : forall n m, (n <= m)%nat ->
  (forall e, rel (eval funcs n e) (eval funcs m e)) /\ (forall s, rel (exec funcs n s) (exec funcs m s)).
Proof.
  induction n as [|k IH]; intros m L; [split; intros; apply Rel_bot|].
  destruct m as [|m]; [inversion L|]. destruct (IH m (le_S_n _ _ L)) as [IHe IHx].
  assert (Hel := rel_eval_list _ _ IHe).
  assert (Hxl := rel_exec_list _ _ IHx).
  assert (Hib := rel_in_block _ _ IHx).
  assert (Hlv := rel_lval_target _ _ IHe).
  split.
  (* [simpl eval], not [cbn [eval]]: [cbn] leaves the other function of the mutual fixpoint unfolded in
     the goal, and every later step carries the whole interpreter *)
  - intros e. destruct e; simpl eval.
    + apply rel_ret.
    + apply rel_read.
    + apply Rel_bind; [apply IHe|]. intros. apply rel_lift.
    + apply Rel_bind; [apply IHe|]. intros. apply Rel_bind; [apply IHe|]. intros. apply rel_lift.
    + apply Rel_bind; [apply IHe|]. intros x. destruct (x =? 0); [apply rel_ret|].
      apply Rel_bind; [apply IHe|]. intros. apply rel_ret.
    + apply Rel_bind; [apply IHe|]. intros x. destruct (x =? 0); [|apply rel_ret].
      apply Rel_bind; [apply IHe|]. intros. apply rel_ret.
    + apply Rel_bind; [apply IHe|]. intros x. destruct (x =? 0); apply IHe.
    + destruct (find_func f funcs) as [fd|]; [|apply rel_fail].
      match goal with |- rel (if ?c then _ else _) _ => destruct c end; [apply rel_fail|].
      apply Rel_bind; [apply rel_eval_args; exact IHe|]. intros vs.
      apply Rel_call. apply Rel_bind; [apply rel_bind_params; exact IHe|]. intros _. apply Hxl.
    + apply Rel_bind; [apply Hel|]. intros. apply rel_read.
  - intros s. destruct s; simpl exec.
    + destruct sta.
      * apply Rel_bind; [apply rel_static_known|]. intros known. destruct known; [apply rel_ret|].
        apply Rel_bind; [destruct init; [apply IHe|apply rel_ret]|]. intros. apply Rel_declare.
      * apply Rel_bind; [destruct init; [apply IHe|apply rel_ret]|]. intros. apply Rel_declare.
    + apply Rel_bind; [apply Hel|]. intros. apply Rel_declare.
    + destruct op.
      * apply Rel_bind; [apply Hlv|]. intros tg.
        apply Rel_bind; [apply rel_read|]. intros. apply Rel_bind; [apply IHe|]. intros.
        apply Rel_bind; [apply rel_lift|]. intros. apply Rel_write.
      * apply Rel_bind; [apply IHe|]. intros v. apply Rel_bind; [apply Hlv|]. intros tg. apply Rel_write.
    + apply Rel_bind; [apply Hlv|]. intros tg.
      apply Rel_bind; [apply rel_read|]. intros. apply Rel_bind; [apply rel_lift|]. intros. apply Rel_write.
    + apply Rel_bind; [apply IHe|]. intros. apply rel_ret.
    + apply Rel_bind; [apply IHe|]. intros x. destruct (x =? 0); apply Hib.
    + apply Rel_bind; [apply IHe|]. intros x. destruct (x =? 0); [apply rel_ret|].
      apply Rel_loop; [apply Hib|apply IHx].
    + apply Rel_block.
      apply Rel_bind; [apply Hxl|]. intros _. apply Rel_bind; [apply IHe|]. intros x.
      destruct (x =? 0); [apply rel_ret|]. apply Rel_loop; [apply Hib|].
      apply Rel_bind; [apply Hxl|]. intros _. apply IHx.
    + apply rel_lift.
    + apply rel_lift.
    + destruct e; [|apply rel_lift]. apply Rel_bind; [apply IHe|]. intros. apply rel_lift.
    + apply Hib.
    + apply Rel_bind; [apply rel_print_args; exact IHe|]. intros _. destruct nl; [apply Rel_out|apply rel_ret].
    + apply rel_decl_members.
    + apply rel_copy_members.
Qed.
End Related.

Section Respect.
Variable R : state -> state -> Prop.
Hypothesis R_refl : forall s, R s s.
Hypothesis R_trans : forall a b c, R a b -> R b c -> R a c.

Definition respects {A} (m : M A) : Prop := forall s, R s (snd (m s)).

Hypothesis H_write : forall x i v, respects (m_write x i v).
Hypothesis H_declare : forall sta cst t x d vs, respects (m_declare sta cst t x d vs).
Hypothesis H_out : forall o, respects (m_out o).
(* a bracketed computation respects R whenever its inside does (for relations that every primitive
   respects this follows from [block_of_prims], [frame_of_prims] below; bracketed properties such as
   "the caller's frames are unchanged" prove it directly) *)
Hypothesis H_block : forall A (m : M A), respects m -> respects (m_push_scope ;;; finally m pop_scope_st).
Hypothesis H_frame : forall A f (m : M A), respects m -> respects (m_push_frame f ;;; finally m pop_frame_st).

Lemma r_same {A} (m : M A) : (forall s, snd (m s) = s) -> respects m.
Proof. intros H s. rewrite H. apply R_refl. Qed.
Lemma r_ret {A} (a : A) : respects (ret a).
Proof. intros s. apply R_refl. Qed.
Lemma r_fail {A} e : respects (@fail A e).
Proof. intros s. apply R_refl. Qed.
Lemma r_lift {A} (c : ctl A) : respects (lift c).
Proof. intros s. apply R_refl. Qed.
Lemma r_read x i : respects (m_read x i).
Proof. apply r_same, m_read_state. Qed.

Lemma r_bind {A B} (m : M A) (f : A -> M B) :
  respects m -> (forall a, respects (f a)) -> respects (bind m f).
Proof.
  intros Hm Hf s. unfold bind. specialize (Hm s). destruct (m s) as [c s']. cbn [snd] in Hm.
  destruct c; cbn [snd]; try exact Hm. eapply R_trans; [exact Hm|apply Hf].
Qed.
Lemma r_finally {A} (m : M A) fin : respects m -> (forall s, R s (fin s)) -> respects (finally m fin).
Proof.
  intros Hm Hf s. unfold finally. specialize (Hm s). destruct (m s) as [c s']. cbn [snd] in *.
  eapply R_trans; [exact Hm|apply Hf].
Qed.
Lemma r_map_ctl {A B} (g : ctl A -> ctl B) m : respects m -> respects (map_ctl g m).
Proof. intros Hm s. unfold map_ctl. specialize (Hm s). destruct (m s) as [c s']. exact Hm. Qed.
Lemma r_loop_step b nx : respects b -> respects nx -> respects (loop_step b nx).
Proof.
  intros Hb Hn s. unfold loop_step. specialize (Hb s). destruct (b s) as [c s']. cbn [snd] in Hb.
  destruct c; cbn [snd]; try exact Hb.
  - eapply R_trans; [exact Hb|apply Hn].
  - eapply R_trans; [exact Hb|apply Hn].
Qed.

(* [respects] as a relation between computations: the second one is ignored *)
Section Helpers.
Variable ev : expr -> M Z.
Variable ex : stmt -> M unit.
Hypothesis Hev : forall e, respects (ev e).
Hypothesis Hex : forall s, respects (ex s).

Lemma r_eval_list es : respects (eval_list ev es).
Proof. exact (rel_eval_list (fun A m _ => respects m) (@r_same) (fun A B m _ f _ => r_bind m f) ev ev Hev es). Qed.
Lemma r_eval_args ps es : respects (eval_args ev ps es).
Proof. exact (rel_eval_args (fun A m _ => respects m) (@r_same) (fun A B m _ f _ => r_bind m f) ev ev Hev ps es). Qed.
Lemma r_exec_list ss : respects (exec_list ex ss).
Proof. exact (rel_exec_list (fun A m _ => respects m) (@r_same) (fun A B m _ f _ => r_bind m f) ex ex Hex ss). Qed.
Lemma r_bind_params ps vs : respects (bind_params ev ps vs).
Proof.
  exact (rel_bind_params (fun A m _ => respects m) (@r_same) H_declare (fun A B m _ f _ => r_bind m f) ev ev Hev ps vs).
Qed.
Lemma r_lval_target lv : respects (lval_target ev lv).
Proof. exact (rel_lval_target (fun A m _ => respects m) (@r_same) (fun A B m _ f _ => r_bind m f) ev ev Hev lv). Qed.
End Helpers.

Variable funcs : list func.

Theorem eval_exec_respect : forall n,
  (forall e, respects (eval funcs n e)) /\ (forall s, respects (exec funcs n s)).
Proof.
  intros n.
  refine (eval_exec_related (fun A m _ => respects m) _ (@r_same) H_write H_declare H_out _ _ _ _ funcs n n (le_n n)).
  - intros A _. apply r_fail.
  - intros A B m _ f _. apply r_bind.
  - intros A m _. apply H_block.
  - intros f rt m _ Hm. apply H_frame, r_map_ctl, Hm.
  - intros b _ nx _. apply r_loop_step.
Qed.

Corollary exec_list_respect n ss : respects (exec_list (exec funcs n) ss).
Proof. apply r_exec_list. apply (proj2 (eval_exec_respect n)). Qed.
End Respect.

(* relations respected by the push/pop primitives themselves are respected by the brackets *)
Section Prims.
Variable R : state -> state -> Prop.
Hypothesis R_refl : forall s, R s s.
Hypothesis R_trans : forall a b c, R a b -> R b c -> R a c.
Hypothesis H_push_scope : respects R m_push_scope.
Hypothesis H_push_frame : forall f, respects R (m_push_frame f).
Hypothesis H_pop_scope : forall s, R s (pop_scope_st s).
Hypothesis H_pop_frame : forall s, R s (pop_frame_st s).
Lemma block_of_prims A (m : M A) : respects R m -> respects R (m_push_scope ;;; finally m pop_scope_st).
Proof. intros Hm. apply r_bind; auto. intros _. apply r_finally; auto. Qed.
Lemma frame_of_prims A f (m : M A) : respects R m -> respects R (m_push_frame f ;;; finally m pop_frame_st).
Proof. intros Hm. apply r_bind; auto. intros _. apply r_finally; auto. Qed.
End Prims.
