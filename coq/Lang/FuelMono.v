(* Lang - fuel is only a termination device: an evaluation that ends without running out of fuel
   gives exactly the same control outcome and state with any larger fuel. Hence "the" meaning of a
   program is independent of the fuel chosen, as long as it suffices (C01/Properties_C01.v, run_fuel_independent). *)
From Cb Require Import Lang.Syntax Lang.Sem Lang.Respect.

Definition nofuel {A} (c : ctl A) : Prop := c = Fail ENoFuel.

(* m2 agrees with m1 wherever m1 did not run out of fuel *)
Definition le_m {A} (m1 m2 : M A) : Prop :=
  forall s c s', m1 s = (c, s') -> ~ nofuel c -> m2 s = (c, s').

Lemma le_refl {A} (m : M A) : le_m m m.
Proof. intros s c s' H _. exact H. Qed.

Lemma le_bind {A B} (m1 m2 : M A) (f1 f2 : A -> M B) :
  le_m m1 m2 -> (forall a, le_m (f1 a) (f2 a)) -> le_m (bind m1 f1) (bind m2 f2).
Proof.
  intros Hm Hf s c s' H Hc. unfold bind in *.
  destruct (m1 s) as [c1 s1] eqn:E1.
  assert (N1 : ~ nofuel c1).
  { intros N. unfold nofuel in N. subst c1. injection H as <- <-. apply Hc. reflexivity. }
  rewrite (Hm s c1 s1 E1 N1).
  destruct c1; try exact H. apply (Hf a s1 c s' H Hc).
Qed.

Lemma le_finally {A} (m1 m2 : M A) fin : le_m m1 m2 -> le_m (finally m1 fin) (finally m2 fin).
Proof.
  intros Hm s c s' H Hc. unfold finally in *. destruct (m1 s) as [c1 s1] eqn:E1.
  injection H as <- <-. rewrite (Hm s c1 s1 E1 Hc). reflexivity.
Qed.

Lemma le_map_ctl {A B} (g : ctl A -> ctl B) (m1 m2 : M A) :
  (forall c, nofuel c -> nofuel (g c)) -> le_m m1 m2 -> le_m (map_ctl g m1) (map_ctl g m2).
Proof.
  intros Hg Hm s c s' H Hc. unfold map_ctl in *. destruct (m1 s) as [c1 s1] eqn:E1.
  injection H as <- <-. assert (N1 : ~ nofuel c1) by (intros N; apply Hc, Hg, N).
  rewrite (Hm s c1 s1 E1 N1). reflexivity.
Qed.

Lemma call_result_nofuel rt c : nofuel c -> nofuel (call_result rt c).
Proof. unfold nofuel. intros ->. reflexivity. Qed.

Lemma le_loop_step b1 b2 n1 n2 : le_m b1 b2 -> le_m n1 n2 -> le_m (loop_step b1 n1) (loop_step b2 n2).
Proof.
  intros Hb Hn s c s' H Hc. unfold loop_step in *. destruct (b1 s) as [c1 s1] eqn:E1.
  assert (N1 : ~ nofuel c1).
  { intros N. unfold nofuel in N. subst c1. injection H as <- <-. apply Hc. reflexivity. }
  rewrite (Hb s c1 s1 E1 N1). destruct c1; try exact H; apply (Hn s1 c s' H Hc).
Qed.

Lemma le_exec_list (ex1 ex2 : stmt -> M unit) (Hex : forall s, le_m (ex1 s) (ex2 s)) ss :
  le_m (exec_list ex1 ss) (exec_list ex2 ss).
Proof. exact (rel_exec_list (@le_m) (fun A m _ => le_refl m) (@le_bind) ex1 ex2 Hex ss). Qed.

Section Mono.
Variable funcs : list func.

(* the interpreter at a smaller fuel is below the interpreter at a larger one: the generic induction
   of [Respect], with [le_m] as the relation between computations *)
Theorem fuel_monotone n m : (n <= m)%nat ->
  (forall e, le_m (eval funcs n e) (eval funcs m e)) /\ (forall s, le_m (exec funcs n s) (exec funcs m s)).
Proof.
  apply (eval_exec_related (@le_m)).
  - intros A m' s c s' [= <- <-] Hc. exfalso. apply Hc. reflexivity.
  - intros A m' _. apply le_refl.
  - intros. apply le_refl.
  - intros. apply le_refl.
  - intros. apply le_refl.
  - intros A B. apply le_bind.
  - intros A m1 m2 Hm. apply le_bind; [apply le_refl|]. intros _. apply le_finally, Hm.
  - intros f rt m1 m2 Hm. apply le_bind; [apply le_refl|]. intros _.
    apply le_finally, le_map_ctl; [apply call_result_nofuel|exact Hm].
  - exact le_loop_step.
Qed.
End Mono.
