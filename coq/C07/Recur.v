(* C07 - calls nested to any depth (recursion): Model.v rstmt / exec_rstmt / OCallR.
   The recursive form is a conservative extension of the one-level constructs (exec_call_in / exec_call2 /
   exec_call); through it the frame law of the recursive form (History.v) holds of every operation of a history.
   By-value isolation at every depth: a call all of whose parameters are passed by value and whose body - and the
   bodies of all the calls it makes, to any depth, each again passing by value - write only through their own
   parameters has its whole footprint in locations allocated after the call began; by the frame law EVERY location
   that existed before the call is unchanged (the caller's variables and the by-value copies of all the outer
   recursion levels), under both calling conventions.
   By-reference recursion: a write made at the bottom of a chain of n calls each of which passes its T& (array,
   self) parameter on to the next level is visible in the caller through every path.
   Last, the shape of the seeded demo (by-value recursion with a write at each level and reads after return at each
   level) and the inputs of the repaired findings, as histories (evaluated in Properties_C07.v). *)
From Coq Require Import List ZArith Bool Lia.
From Cb Require Import C07.Model C07.History.
Import ListNotations.

Definition rs_of_stmt (s : stmt) : rstmt :=
  match s with
  | TS s' => RS s'
  | TCall ps body ret => RCall ps (map RS body) ret
  end.

Lemma exec_seq_RS : forall mech ss h fr th,
  exec_seq (fun h' s' => exec_rstmt mech h' fr th s') h (map RS ss) = exec_sops h fr th ss.
Proof.
  induction ss; simpl; intros h fr th; auto.
  destruct (exec_sop h fr th a) as [[[h1 o1] f1]|]; auto.
  rewrite IHss. auto.
Qed.

Lemma exec_rstmt_call_in : forall mech h fr th ps body ret,
  exec_rstmt mech h fr th (RCall ps (map RS body) ret) = exec_call_in mech h fr th ps body ret.
Proof.
  intros. simpl. unfold exec_call_in.
  destruct (bind_in mech h fr ps [] []) as [[[h1 fr1] thn]|]; [|reflexivity].
  rewrite exec_seq_RS.
  destruct (exec_sops h1 fr1 (thn ++ th) body) as [[[h2 o2] f2]|]; reflexivity.
Qed.

Lemma exec_rstmt_call : forall mech h ps body ret,
  exec_rstmt mech h [] [] (RCall ps (map RS body) ret) = exec_call mech h ps body ret.
Proof. intros. rewrite exec_rstmt_call_in. apply exec_call_in_nil. Qed.

Lemma exec_rstmt_stmt : forall mech h fr th s,
  exec_rstmt mech h fr th (rs_of_stmt s) = exec_stmt mech h fr th s.
Proof.
  intros mech h fr th [s|ps body ret].
  - reflexivity.
  - apply exec_rstmt_call_in.
Qed.

Lemma exec_seq_stmts : forall mech ss h fr th,
  exec_seq (fun h' s' => exec_rstmt mech h' fr th s') h (map rs_of_stmt ss) = exec_stmts mech h fr th ss.
Proof.
  induction ss; simpl; intros h fr th; auto.
  rewrite exec_rstmt_stmt.
  destruct (exec_stmt mech h fr th a) as [[[h1 o1] f1]|]; auto.
  rewrite IHss. auto.
Qed.

Lemma exec_rstmt_call2 : forall mech h ps body ret,
  exec_rstmt mech h [] [] (RCall ps (map rs_of_stmt body) ret) = exec_call2 mech h ps body ret.
Proof.
  intros. simpl. unfold exec_call2. rewrite bind_in_nil.
  destruct (bind mech h ps [] []) as [[[h1 fr1] thn]|]; [|reflexivity].
  rewrite app_nil_r. rewrite exec_seq_stmts.
  destruct (exec_stmts mech h1 fr1 thn body) as [[[h2 o2] f2]|]; [|reflexivity].
  unfold finish_call.
  destruct (match ret with Some (e, _) => eval h2 fr1 e | None => Some (VInt 0) end); auto.
  destruct (copy_back h2 thn) as [[h3 fb]|]; [|reflexivity].
  destruct ret as [[e [d|]]|]; auto.
  destruct (resolve h3 [] d); auto. rewrite hwrite_t_nil. auto.
Qed.

(* hence the frame law of the recursive form holds of every operation of a history *)
Lemma exec_op_frame : forall mech h o h' out fp, exec_op mech h o = Some (h', out, fp) -> frames h h' fp.
Proof.
  intros mech h o h' out fp H. destruct o; unfold exec_op in H.
  - exact (exec_sop_frame _ _ _ _ _ _ _ H).
  - inversion H; subst. apply frames_ext.
  - destruct (eval h [] s); inversion H; subst. apply frames_ext.
  - rewrite <- exec_rstmt_call in H. exact (exec_rstmt_frame _ _ _ _ _ _ _ _ H).
  - rewrite <- exec_rstmt_call2 in H. exact (exec_rstmt_frame _ _ _ _ _ _ _ _ H).
  - exact (exec_rstmt_frame _ _ _ _ _ _ _ _ H).
Qed.

Lemma run_fp_frame : forall mech os h h' fp, run_fp mech h os = Some (h', fp) -> frames h h' fp.
Proof.
  induction os; simpl; intros h h' fp H.
  - inversion H; subst. apply frames_refl.
  - destruct (exec_op mech h a) as [[[h1 o1] f1]|] eqn:E; try discriminate.
    destruct (run_fp mech h1 os) as [[h2 f2]|] eqn:R; inversion H; subst.
    exact (frames_trans _ _ _ _ _ (exec_op_frame _ _ _ _ _ _ E) (IHos _ _ _ R)).
Qed.

(* an access path that starts at a parameter of the running callee - or at a local variable declared by one of the
   callees (a location >= n, n = the number of locations that existed before the outermost call) - and goes down
   through members / elements only *)
Fixpoint par_rooted (n : nat) (a : aexp) : bool :=
  match a with
  | APar _ => true
  | AVar l => Nat.leb n l
  | AFld a' _ => par_rooted n a'
  | _ => false
  end.

Definition sop_own (n : nat) (s : sop) : bool :=
  match s with
  | SWrite a _ => par_rooted n a
  | SCopy d _ => par_rooted n d           (* the source is only read: any expression *)
  | SAddr p _ => par_rooted n p
  | SRead _ _ => true
  end.

Definition is_val (p : param) : bool := match fst p with MVal => true | _ => false end.

(* every statement writes through the callee's own parameters only; every call passes by value only (the ARGUMENTS
   are arbitrary expressions of the calling level: f(v), f( *p), f(g.inner)), stores its result in a fresh local or
   through a parameter of the calling level, and its body is again of this form *)
Fixpoint val_only (n : nat) (s : rstmt) : bool :=
  match s with
  | RS s' => sop_own n s'
  | RCall ps body ret =>
      forallb is_val ps && forallb (val_only n) body &&
      match ret with Some (_, Some d) => par_rooted n d | _ => true end
  | RDecl _ => true                       (* T c = e; a fresh local holding a copy of any expression *)
  end.

Definition frame_ge (n : nat) (fr : frame) : Prop := Forall (fun c : cell => n <= fst c) fr.
Definition thru_lt (n : nat) (th : thru) : Prop := Forall (fun tc : loc * cell => fst tc < n) th.

Lemma resolve_par_rooted : forall n h fr a (c : cell),
  frame_ge n fr -> par_rooted n a = true -> resolve h fr a = Some c -> n <= fst c.
Proof.
  induction a; simpl; intros c G P R; try discriminate.
  - inversion R; subst. simpl. apply Nat.leb_le; auto.
  - unfold frame_ge in G. rewrite Forall_forall in G. apply G. eapply nth_error_In; eauto.
  - destruct (resolve h fr a) as [[l p]|] eqn:E; try discriminate. inversion R; subst. simpl.
    apply (IHa (l, p)); auto.
Qed.

(* a write to a fresh location is not written through: the enclosing copy-in temporaries are older *)
Lemma fp_of_own : forall n th (c : cell), thru_lt n th -> n <= fst c -> fp_of th c = [c].
Proof.
  unfold fp_of; intros n th c T G. f_equal.
  induction T as [|[t o] th Lt T IH]; simpl; auto.
  destruct (Nat.eqb_spec t (fst c)); auto. simpl in Lt. lia.
Qed.

Lemma dest_own : forall n h fr th a c w,
  frame_ge n fr -> thru_lt n th -> par_rooted n a = true -> resolve h fr a = Some c ->
  In w (fp_of th c) -> n <= fst w.
Proof.
  intros n h fr th a c w G T P R I. pose proof (resolve_par_rooted _ _ _ _ _ G P R) as Lc.
  rewrite (fp_of_own n) in I by auto. destruct I as [<-|[]]. exact Lc.
Qed.

Lemma exec_sop_own : forall n h fr th s h' o fp w,
  frame_ge n fr -> thru_lt n th -> sop_own n s = true ->
  exec_sop h fr th s = Some (h', o, fp) -> In w fp -> n <= fst w.
Proof.
  intros n h fr th s h' o fp w G T P H I. apply exec_sop_inv in H.
  assert (P' : match sop_dest s with Some a => par_rooted n a = true | None => True end) by (destruct s; simpl; auto).
  destruct (sop_dest s).
  - destruct H as (c & v & R & _ & ->). exact (dest_own _ _ _ _ _ _ _ G T P' R I).
  - destruct H as [_ ->]. destruct I.
Qed.

(* binding by value: the new frame consists of fresh locations, no copy-in parameter is created *)
Lemma bind_in_val : forall mech fr0 ps h fr th h1 fr1 th1 n,
  forallb is_val ps = true -> n <= length h -> frame_ge n fr ->
  bind_in mech h fr0 ps fr th = Some (h1, fr1, th1) -> frame_ge n fr1 /\ th1 = th.
Proof.
  induction ps as [|[m a] ps]; simpl; intros h fr th h1 fr1 th1 n V L G H.
  - inversion H; subst. auto.
  - apply andb_true_iff in V as [V1 V2]. destruct m; try discriminate.
    destruct (resolve h fr0 a); try discriminate.
    destruct (hread h c); try discriminate.
    apply (IHps _ _ _ _ _ _ n V2) in H; auto.
    + rewrite app_length; simpl; lia.
    + apply Forall_app. split; auto.
Qed.

(* a statement extends the heap, and if the heap has n locations or more the footprint lies above n *)
Definition above (n : nat) (h h' : heap) (fp : list cell) : Prop :=
  length h <= length h' /\ (n <= length h -> forall w, In w fp -> n <= fst w).

Lemma above_refl : forall n h, above n h h [].
Proof. split; auto. intros _ w []. Qed.

Lemma above_trans : forall n h h1 h2 f1 f2, above n h h1 f1 -> above n h1 h2 f2 -> above n h h2 (f1 ++ f2).
Proof.
  intros n h h1 h2 f1 f2 [L1 A1] [L2 A2]. split; [lia|].
  intros L w I. apply in_app_or in I as [I|I]; [apply A1 | apply A2]; auto. lia.
Qed.

(* the invariant: in a frame of fresh locations (>= n), with all enclosing copy-in temporaries below n, a val_only
   statement writes no location below n.  The frame fr of the calling level matters to a call only through the
   destination of its result. *)
Lemma rcall_own : forall mech n h fr th ps body ret h' o fp,
  Forall (fun s => forall mech h fr th h' o fp, val_only n s = true -> frame_ge n fr -> thru_lt n th ->
                   exec_rstmt mech h fr th s = Some (h', o, fp) -> above n h h' fp) body ->
  forallb is_val ps = true -> forallb (val_only n) body = true ->
  match ret with Some (_, Some d) => frame_ge n fr /\ par_rooted n d = true | _ => True end ->
  n <= length h -> thru_lt n th ->
  exec_rstmt mech h fr th (RCall ps body ret) = Some (h', o, fp) -> forall w, In w fp -> n <= fst w.
Proof.
  intros mech n h fr th ps body ret h' o fp IH V1 V2 V3 L T H w I. simpl in H.
  destruct (bind_in mech h fr ps [] []) as [[[h1 fr1] thn]|] eqn:B; try discriminate.
  destruct (bind_in_val _ _ _ _ _ _ _ _ _ n V1 L (Forall_nil _) B) as [G1 ->].
  apply bind_in_alloc in B as [vs ->]. simpl in H.
  destruct (exec_seq (fun h0 s' => exec_rstmt mech h0 fr1 th s') (h ++ vs) body) as [[[h2 o2] f2]|] eqn:E;
    try discriminate.
  apply (exec_seq_rel _ _ (above n) (above_refl n) (above_trans n)) in E as [L2 A2].
  2:{ rewrite forallb_forall in V2. rewrite Forall_forall in IH |- *.
      intros s0 I0 h0 h0' o0 fp0 X. exact (IH s0 I0 _ _ _ _ _ _ _ (V2 s0 I0) G1 T X). }
  unfold finish_call in H.
  destruct (match ret with Some (e, _) => eval h2 fr1 e | None => Some (VInt 0) end) as [rv|]; try discriminate.
  simpl in H. assert (A : In w f2 -> n <= fst w) by (apply A2; rewrite app_length; lia).
  destruct ret as [[e [dd|]]|].
  - destruct (resolve h2 fr dd) eqn:R; try discriminate.
    destruct (hwrite_t h2 th c rv); inversion H; subst.
    apply in_app_or in I as [I|I]; auto. destruct V3 as [G V3]. exact (dest_own _ _ _ _ _ _ _ G T V3 R I).
  - inversion H; subst. rewrite app_nil_r in I. auto.
  - inversion H; subst. rewrite app_nil_r in I. auto.
Qed.

Lemma val_only_own : forall s mech n h fr th h' o fp,
  val_only n s = true -> frame_ge n fr -> thru_lt n th ->
  exec_rstmt mech h fr th s = Some (h', o, fp) -> above n h h' fp.
Proof.
  intros s. induction s as [s|ps body ret IH|s] using rstmt_induction; intros mech n h fr th h' o fp V G T H;
    (split; [exact (proj1 (exec_rstmt_frame _ _ _ _ _ _ _ _ H))|]); intros L w I.
  - exact (exec_sop_own _ _ _ _ _ _ _ _ _ G T V H I).
  - simpl in V. apply andb_true_iff in V as [V V3]. apply andb_true_iff in V as [V1 V2].
    refine (rcall_own mech n h fr th ps body ret h' o fp _ V1 V2 _ L T H w I).
    + eapply Forall_impl; [|exact IH]. intros s0 Hs mech0 h0 fr0 th0 h0' o0 fp0. apply Hs.
    + destruct ret as [[e [d|]]|]; auto.
  - simpl in H. destruct (eval h fr s); inversion H; subst. destruct I.
Qed.

(* f(C& v) { f(v); } n levels deep, the innermost level writes v.ks = z:
     ref_chain m 0 ks z a     = f(a) with body  v.ks = z;
     ref_chain m (S n) ks z a = f(a) with body  f(v);   (the rest of the chain) *)
Fixpoint ref_chain (m : pmode) (n : nat) (ks : list nat) (z : Z) (a : aexp) : rstmt :=
  match n with
  | O => RCall [(m, a)] [RS (SWrite (flds (APar 0) ks) z)] None
  | S n' => RCall [(m, a)] [ref_chain m n' ks z (APar 0)] None
  end.

Lemma ref_chain_written : forall m n ks z a h fr l p h' o fp,
  (m = MRef \/ m = MArr \/ m = MSelf) ->
  resolve h fr a = Some (l, p) ->
  exec_rstmt false h fr [] (ref_chain m n ks z a) = Some (h', o, fp) ->
  written h h' (l, p ++ ks) (VInt z).
Proof.
  intros m n ks z. induction n as [|n IH]; intros a h fr l p h' o fp M R H;
    cbn [ref_chain exec_rstmt] in H; rewrite (bind_in_ref _ _ _ _ _ M R) in H; cbn [exec_seq app] in H.
  - destruct (exec_rstmt false _ _ _ (RS _)) as [[[h1 o1] f1]|] eqn:E; try discriminate.
    apply (exec_write_flds _ _ _ _ _ l p) in E as (W & _ & _); auto.
    inversion H; subst. exact (written_hwrite _ _ _ _ _ W).
  - destruct (exec_rstmt false _ _ _ (ref_chain m n ks z _)) as [[[h1 o1] f1]|] eqn:E; try discriminate.
    apply (IH _ _ _ l p) in E; auto.
    inversion H; subst. exact (written_base _ _ _ _ _ E).
Qed.

(* struct C { int n; int t; };  C c (location 0) = {100, 5};  C other (location 1) = {10, 6};
     int down(C v, int k) { v.n = <7+k>; if (k > 0) { int below = down(v, k-1); println(k, below, v.n); } return v.n; }
   unrolled for k = 2: three levels, each level writes its own copy, reads it after the inner call returned. *)
Definition d_heap : heap := [VAgg [VInt 100; VInt 5]; VAgg [VInt 10; VInt 6]]%Z.
Definition d_level0 : rstmt :=           (* innermost: k = 0 *)
  RCall [(MVal, APar 0)] [RS (SWrite (AFld (APar 0) 0) 7%Z)] (Some (AFld (APar 0) 0, None)).
Definition d_level1 : rstmt :=           (* k = 1: locations: v = 3, inner v = 4, below = 5 *)
  RCall [(MVal, APar 0)]
        [RS (SWrite (AFld (APar 0) 0) 8%Z); d_level0; RS (SRead 1%Z [AVar 5; AFld (APar 0) 0])]
        (Some (AFld (APar 0) 0, None)).
Definition d_ops : list op :=
  [OCallR [(MVal, AVar 1)]                (* k = 2: v = 2, below = 6 *)
          [RS (SWrite (AFld (APar 0) 0) 9%Z); d_level1; RS (SRead 2%Z [AVar 6; AFld (APar 0) 0])]
          (Some (AFld (APar 0) 0, None));   (* r = location 7 *)
   OS (SRead 3%Z [AVar 7; AFld (AVar 1) 0; AFld (AVar 1) 1; AFld (AVar 0) 0; AFld (AVar 0) 1])].

Definition zs_eqb2 (a b : list Z) : bool := if list_eq_dec Z.eq_dec a b then true else false.

(* a local declared in the callee by copy:  void f(C v) { C w = v; w.n = 70; println(1, w.n, v.n); }  f(other);
   println(2, other.n);  - the local is a third independent copy *)
Definition l_ops : list op :=
  [OCallR [(MVal, AVar 1)]
          [RDecl (APar 0); RS (SWrite (AFld (AVar 3) 0) 70%Z); RS (SRead 1%Z [AFld (AVar 3) 0; AFld (APar 0) 0])]
          None;
   OS (SRead 2%Z [AFld (AVar 1) 0])].

(* struct In { int v; int w; };  struct P { int s; In inner; int[3] arr; };
   P a (location 0), a.inner.w = 118;  P b (location 1), b.inner.w = 107.
     void f(P b) { println(1, b.inner.w); b.inner.w = 139; println(2, b.inner.w); }   f(a);    (parameter = location 2)
     println(3, a.inner.w, b.inner.w);
     a.inner = b.inner;  println(4, a.inner.w);
     b.arr[2] = 106;  P c = b;  (location 3)   println(5, c.inner.w, c.arr[2]);
     a = c;  println(6, a.arr[2], a.inner.w);
   These are the inputs of the findings C07-byval-nested-member-read-captured, C07-byval-nested-write-lost,
   C07-nested-member-assign-noop, C07-decl-copy-loses-nested-member and C07-copy-of-copy-loses-array-member, which the
   implementation got wrong until the repairs; the store gives the same lines under both conventions. *)
Definition fx_P (w : Z) : val := VAgg [VInt 0; VAgg [VInt 0; VInt w]; VAgg [VInt 0; VInt 0; VInt 0]]%Z.
Definition fx_heap : heap := [fx_P 118%Z; fx_P 107%Z].
Definition fx_iw (a : aexp) : aexp := AFld (AFld a 1) 1.
Definition fx_body : list rstmt :=
  [RS (SRead 1%Z [fx_iw (APar 0)]); RS (SWrite (fx_iw (APar 0)) 139%Z); RS (SRead 2%Z [fx_iw (APar 0)])].
Definition fx_ops : list op :=
  [OCallR [(MVal, AVar 0)] fx_body None;
   OS (SRead 3%Z [fx_iw (AVar 0); fx_iw (AVar 1)]);
   OS (SCopy (AFld (AVar 0) 1) (AFld (AVar 1) 1));
   OS (SRead 4%Z [fx_iw (AVar 0)]);
   OS (SWrite (AFld (AFld (AVar 1) 2) 2) 106%Z);
   ODecl (AVar 1);
   OS (SRead 5%Z [fx_iw (AVar 3); AFld (AFld (AVar 3) 2) 2]);
   OS (SCopy (AVar 0) (AVar 3));
   OS (SRead 6%Z [AFld (AFld (AVar 0) 2) 2; fx_iw (AVar 0)])].
