(* C07 - receivers reached through a pointer, exit forms of the callee, calls made from inside a callee body.

   The nested-call constructs (Model.v: bind_in, exec_call_in, stmt, exec_call2, OCall2) are a conservative
   extension: in the empty frame (History.v exec_call_in_nil) / with a call-free body they are the calls of main.
   Aliasing convention: a write through a T& / array / self parameter is visible in the caller through every path
   whatever the RECEIVER FORM (the argument is any access expression: c.m(), p->m(), ( *p).m()) and whatever the
   EXIT FORM of the callee (falls off the end, `return e;` into a fresh variable, `return e;` into a destination);
   the same when the method is invoked by a function that received &c: void f(T* q) { q->m(); } (the exits of
   both calls are `lift`ed; proof in Properties_C07.v).
   The code's copy-in / write-through / copy-back convention refines aliasing also when arguments contain
   dereferences (p->m()): an argument enters the binding only through the cell it resolves to, so the call is the
   call with the normalised, dereference-free argument and the refinement theorem of CallConv.v applies. *)
From Coq Require Import List ZArith.
From Cb Require Import C07.Model C07.Store C07.History.
Import ListNotations.

Lemma exec_stmts_flat : forall mech body h fr th,
  exec_stmts mech h fr th (map TS body) = exec_sops h fr th body.
Proof.
  induction body; simpl; intros; auto.
  destruct (exec_sop h fr th a) as [[[h1 o1] f1]|]; auto.
  rewrite IHbody. auto.
Qed.

Lemma exec_call2_flat_lemma : forall mech h ps body ret,
  exec_call2 mech h ps (map TS body) ret = exec_call mech h ps body ret.
Proof.
  intros. unfold exec_call2, exec_call.
  destruct (bind mech h ps [] []) as [[[h1 fr] th]|]; [|reflexivity].
  rewrite exec_stmts_flat. auto.
Qed.

(* the destination of the returned value (if any) does not overlap the cell x *)
Definition dest_clear (x : cell) (ret : option (aexp * option aexp)) : Prop :=
  match ret with
  | Some (_, Some d) => forall hx c, resolve hx [] d = Some c -> overlap c x = false
  | _ => True
  end.

Lemma copy_back_nil : forall h, copy_back h [] = Some (h, []).
Proof. reflexivity. Qed.

Lemma alias_visible_call_exits_lemma : forall m h arg ks z ret h' out fp l p,
  resolve h [] arg = Some (l, p) ->
  (m = MRef \/ m = MArr \/ m = MSelf) ->
  dest_clear (l, p ++ ks) ret ->
  exec_call false h [(m, arg)] [SWrite (flds (APar 0) ks) z] ret = Some (h', out, fp) ->
  hread h' (l, p ++ ks) = Some (VInt z) /\
  (forall a', resolve h' [] a' = Some (l, p ++ ks) -> eval h' [] a' = Some (VInt z)) /\
  (forall d, fst d < length h -> overlap (l, p ++ ks) d = false -> dest_clear d ret -> hread h' d = hread h d).
Proof.
  intros m h arg ks z ret h' out fp l p R M DC H.
  unfold exec_call in H. rewrite <- bind_in_nil, (bind_in_ref _ _ _ _ _ M R) in H. cbn [exec_sops] in H.
  destruct (exec_sop _ _ _ (SWrite _ _)) as [[[h2 o2] f2]|] eqn:E; try discriminate.
  apply (exec_write_flds _ _ _ _ _ l p) in E as (W & -> & ->); auto.
  apply written_hwrite in W. rewrite copy_back_nil in H. cbn [app] in H.
  destruct ret as [[e [dd|]]|].
  - (* the result goes to a destination: one more write, next to the cell *)
    destruct (eval h2 _ e) as [v|]; try discriminate.
    destruct (resolve h2 _ dd) as [cd|] eqn:RD; try discriminate.
    destruct (hwrite h2 cd v) as [h4|] eqn:W2; inversion H; subst.
    destruct (written_visible _ _ [] _ _ W) as (V1 & _ & V3).
    assert (V : hread h' (l, p ++ ks) = Some (VInt z)).
    { rewrite (hread_hwrite_disjoint _ _ _ _ _ W2 (DC _ _ RD)). exact V1. }
    repeat split; auto.
    + intros a' R'. unfold eval. rewrite R'. exact V.
    + intros d Ld O DD. rewrite (hread_hwrite_disjoint _ _ _ _ d W2 (DD _ _ RD)). auto.
  - destruct (eval h2 _ e) as [v|]; inversion H; subst.
    destruct (written_visible _ _ [] _ _ (written_alloc _ _ _ _ [v] W)) as (V1 & V2 & V3). auto.
  - inversion H; subst. destruct (written_visible _ _ [] _ _ W) as (V1 & V2 & V3). auto.
Qed.

Definition lift (r : option aexp) : option (aexp * option aexp) :=
  match r with Some e => Some (e, None) | None => None end.

(* a call without copy-in parameters whose result is dropped or kept in a fresh variable ends by allocating at most *)
Lemma finish_call_lift : forall h2 fr0 fr th0 out fp r h' out' fp',
  finish_call h2 fr0 fr th0 [] out fp (lift r) = Some (h', out', fp') -> exists vs, h' = h2 ++ vs.
Proof.
  unfold finish_call; intros h2 fr0 fr th0 out fp r h' out' fp' H. destruct r as [e|]; simpl in H.
  - destruct (eval h2 fr e); inversion H; subst. eauto.
  - inversion H; subst. exists []. rewrite app_nil_r. auto.
Qed.

Lemma resolve_app_mono : forall a h ext fr c, resolve h fr a = Some c -> resolve (h ++ ext) fr a = Some c.
Proof.
  induction a; simpl; intros h ext fr c H; auto.
  - destruct (resolve h fr a) as [[l p]|] eqn:E; try discriminate.
    rewrite (IHa _ ext _ _ E). auto.
  - destruct (resolve h fr a) as [c0|] eqn:E; try discriminate.
    rewrite (IHa _ ext _ _ E).
    destruct (hread h c0) as [v|] eqn:RV; try discriminate.
    rewrite (hread_app_some _ ext _ _ RV). auto.
Qed.

(* the dereference-free access expression that denotes the cell an argument resolves to in h *)
Definition norm_arg (h : heap) (a : aexp) : aexp :=
  match resolve h [] a with
  | Some (l, p) => flds (AVar l) p
  | None => a
  end.

Definition norm_params (h : heap) (ps : list param) : list param :=
  map (fun pa : param => (fst pa, norm_arg h (snd pa))) ps.

Lemma resolve_norm_arg : forall h ext a, resolve (h ++ ext) [] (norm_arg h a) = resolve (h ++ ext) [] a.
Proof.
  intros h ext a. unfold norm_arg. destruct (resolve h [] a) as [[l p]|] eqn:E; auto.
  rewrite (resolve_app_mono _ _ ext _ _ E).
  rewrite (resolve_flds p (h ++ ext) [] (AVar l) l []); auto.
Qed.

Lemma bind_norm : forall mech h ps ext fr th,
  bind mech (h ++ ext) (norm_params h ps) fr th = bind mech (h ++ ext) ps fr th.
Proof.
  induction ps as [|[m a] ps]; intros ext fr th; auto.
  cbn [norm_params map fst snd bind]. fold (norm_params h ps).
  rewrite resolve_norm_arg.
  destruct (resolve (h ++ ext) [] a) as [c|]; auto.
  destruct m; try destruct mech; try (destruct (hread (h ++ ext) c); auto); rewrite <- app_assoc; apply IHps.
Qed.

Lemma exec_call_norm : forall mech h ps body ret,
  exec_call mech h (norm_params h ps) body ret = exec_call mech h ps body ret.
Proof.
  intros. unfold exec_call.
  pose proof (bind_norm mech h ps [] [] []) as B. rewrite app_nil_r in B. rewrite B. auto.
Qed.

Local Open Scope Z_scope.
(* struct C { int n; int t; };  C c = {1, 2};  C* p = &c;
   int bump(int k) { self.n = k; return self.n; }     void vbump(int k) { self.n = k; }
   int bump_via(C* q, int k) { return q->bump(k); } *)
Definition n_heap : heap := [VAgg [VInt 1; VInt 2]; VPtr (Some (0%nat, [])); VInt 8].
Definition n_body : list sop := [SWrite (AFld (APar 0%nat) 0%nat) 8; SRead 1 [AFld (APar 0%nat) 0%nat; AFld (APar 0%nat) 1%nat]].
Definition n_recv : aexp := ADeref (AVar 1%nat).
Definition n_reads : list op := [OS (SRead 2 [AFld (AVar 0%nat) 0%nat; AFld (ADeref (AVar 1%nat)) 0%nat])].

(* p->vbump(8) / int r = p->bump(8) / c.t = p->bump(8) / bump_via(&c, 8) with both exits of both callees:
   under BOTH conventions the transcript is the same and c.n = 8 is read through c.n and p->n afterwards *)
Definition n_ops (k : nat) : list op :=
  match k with
  | 0%nat => [OCall [(MSelf, n_recv)] n_body None]
  | 1%nat => [OCall [(MSelf, n_recv)] n_body (Some (AFld (APar 0%nat) 0%nat, None))]
  | 2%nat => [OCall [(MSelf, n_recv)] n_body (Some (AFld (APar 0%nat) 0%nat, Some (AFld (AVar 0%nat) 1%nat)))]
  | 3%nat => [OCall2 [(MPtr, AVar 0%nat)] [TCall [(MSelf, ADeref (APar 0%nat))] n_body None] None]
  | 4%nat => [OCall2 [(MPtr, AVar 0%nat)] [TCall [(MSelf, ADeref (APar 0%nat))] n_body (Some (AFld (APar 0%nat) 0%nat, None))] None]
  | 5%nat => [OCall2 [(MPtr, AVar 0%nat)] [TCall [(MSelf, ADeref (APar 0%nat))] n_body None] (Some (AFld (ADeref (APar 0%nat)) 0%nat, None))]
  | _ => [OCall2 [(MPtr, AVar 0%nat)] [TCall [(MSelf, ADeref (APar 0%nat))] n_body (Some (AFld (APar 0%nat) 0%nat, Some (AVar 2%nat)))]
                 (Some (AVar 2%nat, None))]
  end.

Fixpoint zs_eqb (a b : list Z) : bool :=
  match a, b with
  | [], [] => true
  | x :: a', y :: b' => Z.eqb x y && zs_eqb a' b'
  | _, _ => false
  end.
