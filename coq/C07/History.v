(* C07 - the frame law: a statement, a call, a history changes only the cells in its footprint.
   `frames h h' fp` is proved for the recursive statement form, of which every other call form is an
   instance (Recur.v); copy independence and the visibility of writes through aliases are read off it. *)
From Coq Require Import List ZArith Lia.
From Cb Require Import C07.Model C07.Store.
Import ListNotations.

(* h' extends h and differs from it at most inside the cells of fp *)
Definition frames (h h' : heap) (fp : list cell) : Prop :=
  length h <= length h' /\
  forall d, fst d < length h -> (forall w, In w fp -> overlap w d = false) -> hread h' d = hread h d.

Lemma frames_refl : forall h, frames h h [].
Proof. split; auto. Qed.

Lemma frames_trans : forall h h1 h2 f1 f2, frames h h1 f1 -> frames h1 h2 f2 -> frames h h2 (f1 ++ f2).
Proof.
  intros h h1 h2 f1 f2 [L1 F1] [L2 F2]. split; [lia|]. intros d L F.
  rewrite F2, F1; auto; try lia; intros w I; apply F, in_or_app; auto.
Qed.

Lemma frames_alloc : forall h h' fp vs, frames h h' fp -> frames h (h' ++ vs) fp.
Proof.
  intros h h' fp vs [L F]. split; [rewrite app_length; lia|].
  intros d Ld O. rewrite hread_alloc by lia. auto.
Qed.

Lemma frames_ext : forall h vs, frames h (h ++ vs) [].
Proof. intros. apply frames_alloc, frames_refl. Qed.

Lemma frames_hwrite : forall h c x h', hwrite h c x = Some h' -> frames h h' [c].
Proof.
  intros h c x h' W. split; [rewrite (hwrite_length _ _ _ _ W); auto|].
  intros d _ F. apply (hread_hwrite_disjoint _ _ _ _ d W). apply F. simpl; auto.
Qed.

Lemma write_thru_frame : forall th h c x h', write_thru h th c x = Some h' -> frames h h' (thru_cells th c).
Proof.
  induction th as [|[t o] th]; simpl; intros h c x h' H.
  - inversion H; subst. apply frames_refl.
  - destruct (Nat.eqb t (fst c)); [|eauto].
    destruct (hwrite h (fst o, snd o ++ snd c) x) eqn:W; try discriminate.
    exact (frames_trans _ _ _ [_] _ (frames_hwrite _ _ _ _ W) (IHth _ _ _ _ H)).
Qed.

Lemma hwrite_t_frame : forall th h c x h', hwrite_t h th c x = Some h' -> frames h h' (fp_of th c).
Proof.
  unfold hwrite_t; intros th h c x h' H. destruct (hwrite h c x) eqn:W; try discriminate.
  exact (frames_trans _ _ _ [c] _ (frames_hwrite _ _ _ _ W) (write_thru_frame _ _ _ _ _ H)).
Qed.

Lemma hwrite_t_nil : forall h c x, hwrite_t h [] c x = hwrite h c x.
Proof. intros. unfold hwrite_t. destruct (hwrite h c x); auto. Qed.

Definition sop_dest (s : sop) : option aexp :=
  match s with SWrite a _ | SCopy a _ | SAddr a _ => Some a | SRead _ _ => None end.

(* every statement with a destination is one write (through th) to the cell the destination resolves to *)
Lemma exec_sop_inv : forall h fr th s h' o fp,
  exec_sop h fr th s = Some (h', o, fp) ->
  match sop_dest s with
  | Some a => exists c v, resolve h fr a = Some c /\ hwrite_t h th c v = Some h' /\ fp = fp_of th c
  | None => h' = h /\ fp = []
  end.
Proof.
  intros h fr th s h' o fp H. destruct s; simpl in *.
  - destruct (resolve h fr a) as [c|]; try discriminate.
    destruct (hwrite_t h th c (VInt z)) eqn:W; inversion H; subst. eauto.
  - destruct (eval h fr s) as [v|]; try discriminate. destruct (resolve h fr d) as [c|]; try discriminate.
    destruct (hwrite_t h th c v) eqn:W; inversion H; subst. eauto.
  - destruct (resolve h fr p) as [c|]; try discriminate. destruct (resolve h fr t) as [tc|]; try discriminate.
    destruct (hwrite_t h th c (VPtr (Some tc))) eqn:W; inversion H; subst. eauto.
  - destruct (read_all h fr rs); inversion H; auto.
Qed.

Lemma exec_sop_frame : forall h fr th s h' o fp, exec_sop h fr th s = Some (h', o, fp) -> frames h h' fp.
Proof.
  intros h fr th s h' o fp H. apply exec_sop_inv in H. destruct (sop_dest s).
  - destruct H as (c & v & _ & W & ->). exact (hwrite_t_frame _ _ _ _ _ W).
  - destruct H as [-> ->]. apply frames_refl.
Qed.

Lemma exec_sops_frame : forall ss h fr th h' o fp, exec_sops h fr th ss = Some (h', o, fp) -> frames h h' fp.
Proof.
  induction ss; simpl; intros h fr th h' o fp H.
  - inversion H; subst. apply frames_refl.
  - destruct (exec_sop h fr th a) as [[[h1 o1] f1]|] eqn:E; try discriminate.
    destruct (exec_sops h1 fr th ss) as [[[h2 o2] f2]|] eqn:E2; try discriminate.
    inversion H; subst. exact (frames_trans _ _ _ _ _ (exec_sop_frame _ _ _ _ _ _ _ E) (IHss _ _ _ _ _ _ E2)).
Qed.

Lemma copy_back_frame : forall th h h' fb, copy_back h th = Some (h', fb) -> frames h h' fb.
Proof.
  induction th as [|[t o] th]; simpl; intros h h' fb H.
  - inversion H; subst. apply frames_refl.
  - destruct (hread h (t, [])); try discriminate. destruct (hwrite h o v) eqn:W; try discriminate.
    destruct (copy_back h0 th) as [[h2 f]|] eqn:C; try discriminate. inversion H; subst.
    exact (frames_trans _ _ _ [o] _ (frames_hwrite _ _ _ _ W) (IHth _ _ _ C)).
Qed.

Lemma bind_in_nil : forall mech ps h fr th, bind_in mech h [] ps fr th = bind mech h ps fr th.
Proof.
  induction ps as [|[m a] ps]; simpl; intros h fr th; auto.
  destruct (resolve h [] a); auto.
  destruct m; try (destruct mech); try (destruct (hread h c)); auto.
Qed.

Lemma exec_call_in_nil : forall mech h ps body ret,
  exec_call_in mech h [] [] ps body ret = exec_call mech h ps body ret.
Proof.
  intros. unfold exec_call_in, exec_call. rewrite bind_in_nil.
  destruct (bind mech h ps [] []) as [[[h1 fr] th]|]; [|reflexivity].
  rewrite app_nil_r.
  destruct (exec_sops h1 fr th body) as [[[h2 out] fp]|]; [|reflexivity].
  destruct (match ret with Some (e, _) => eval h2 fr e | None => Some (VInt 0) end); auto.
  destruct (copy_back h2 th) as [[h3 fb]|]; [|reflexivity].
  destruct ret as [[e [d|]]|]; auto.
  destruct (resolve h3 [] d); auto. rewrite hwrite_t_nil. reflexivity.
Qed.

Lemma bind_in_alloc : forall mech fr0 ps h fr th h1 fr1 th1,
  bind_in mech h fr0 ps fr th = Some (h1, fr1, th1) -> exists vs, h1 = h ++ vs.
Proof.
  induction ps as [|[m a] ps]; simpl; intros h fr th h1 fr1 th1 H.
  - inversion H; subst. exists []. rewrite app_nil_r; auto.
  - destruct (resolve h fr0 a); try discriminate.
    destruct m; try destruct mech; try (destruct (hread h c); try discriminate);
      apply IHps in H as [vs ->]; rewrite <- app_assoc; eauto.
Qed.

Lemma bind_frame : forall mech ps h fr th h1 fr1 th1,
  bind mech h ps fr th = Some (h1, fr1, th1) -> frames h h1 [].
Proof.
  intros mech ps h fr th h1 fr1 th1 H. rewrite <- bind_in_nil in H.
  apply bind_in_alloc in H as [vs ->]. apply frames_ext.
Qed.

(* the end of a call adds the copy-back and the destination of the result to the footprint of the body *)
Lemma finish_call_frame : forall h2 fr0 fr th0 thn out fp ret h' out' fp',
  finish_call h2 fr0 fr th0 thn out fp ret = Some (h', out', fp') ->
  exists fe, fp' = fp ++ fe /\ frames h2 h' fe.
Proof.
  unfold finish_call; intros h2 fr0 fr th0 thn out fp ret h' out' fp' H.
  destruct (match ret with Some (e, _) => eval h2 fr e | None => Some (VInt 0) end) as [rv|]; try discriminate.
  destruct (copy_back h2 thn) as [[h3 fb]|] eqn:C; try discriminate. apply copy_back_frame in C.
  destruct ret as [[e [dd|]]|].
  - destruct (resolve h3 fr0 dd); try discriminate. destruct (hwrite_t h3 th0 c rv) eqn:W; try discriminate.
    inversion H; subst. eexists; split; eauto. exact (frames_trans _ _ _ _ _ C (hwrite_t_frame _ _ _ _ _ W)).
  - inversion H; subst. eexists; split; eauto. apply frames_alloc, C.
  - inversion H; subst. eauto.
Qed.

(* induction principle for the nested inductive rstmt *)
Section RstmtInd.
  Context (P : rstmt -> Prop).
  Context (HS : forall s, P (RS s)).
  Context (HC : forall ps body ret, Forall P body -> P (RCall ps body ret)).
  Context (HD : forall s, P (RDecl s)).
  Fixpoint rstmt_induction (s : rstmt) : P s :=
    match s with
    | RS s' => HS s'
    | RCall ps body ret =>
        HC ps body ret
           ((fix go (l : list rstmt) : Forall P l :=
               match l with
               | [] => Forall_nil P
               | x :: l' => Forall_cons x (rstmt_induction x) (go l')
               end) body)
    | RDecl s' => HD s'
    end.
End RstmtInd.

(* a relation between the heap before, the heap after and the footprint that holds of every step and composes
   holds of the sequence *)
Lemma exec_seq_rel : forall (A : Type) (f : heap -> A -> option res) (Q : heap -> heap -> list cell -> Prop),
  (forall h, Q h h []) ->
  (forall h h1 h2 f1 f2, Q h h1 f1 -> Q h1 h2 f2 -> Q h h2 (f1 ++ f2)) ->
  forall ss, Forall (fun s => forall h h' out fp, f h s = Some (h', out, fp) -> Q h h' fp) ss ->
  forall h h' out fp, exec_seq f h ss = Some (h', out, fp) -> Q h h' fp.
Proof.
  intros A f Q Qr Qt ss HF. induction HF as [|s ss Hs HF IH]; simpl; intros h h' out fp H.
  - inversion H; subst. apply Qr.
  - destruct (f h s) as [[[h1 o1] f1]|] eqn:E; try discriminate.
    destruct (exec_seq f h1 ss) as [[[h2 o2] f2]|] eqn:E2; try discriminate.
    inversion H; subst. exact (Qt _ _ _ _ _ (Hs _ _ _ _ E) (IH _ _ _ _ E2)).
Qed.

Lemma exec_rstmt_frame : forall s mech h fr th h' out fp,
  exec_rstmt mech h fr th s = Some (h', out, fp) -> frames h h' fp.
Proof.
  intros s. induction s as [s|ps body ret IH|s] using rstmt_induction; intros mech h fr th h' out fp H; simpl in H.
  - exact (exec_sop_frame _ _ _ _ _ _ _ H).
  - destruct (bind_in mech h fr ps [] []) as [[[h1 fr1] thn]|] eqn:B; try discriminate.
    destruct (exec_seq (fun h0 s' => exec_rstmt mech h0 fr1 (thn ++ th) s') h1 body) as [[[h2 o2] f2]|] eqn:E;
      try discriminate.
    apply bind_in_alloc in B as [vs ->].
    apply finish_call_frame in H as (fe & -> & F).
    apply (exec_seq_rel _ _ frames frames_refl frames_trans) in E.
    + apply (frames_trans _ _ _ [] _ (frames_ext h vs)).
      exact (frames_trans _ _ _ _ _ E F).
    + eapply Forall_impl; [|exact IH]. intros s0 Hs h0 h0' out0 fp0 X. exact (Hs _ _ _ _ _ _ _ X).
  - destruct (eval h fr s); inversion H; subst. apply frames_ext.
Qed.

(* the location a destination is rooted at, where the syntax shows it: a member path of a variable *)
Fixpoint root_of (a : aexp) : option loc :=
  match a with
  | AVar l => Some l
  | APar _ => None
  | AFld a' _ => root_of a'
  | ADeref _ => None
  end.

Definition dest_root (s : sop) : option (option loc) :=   (* None: no destination *)
  match s with
  | SWrite a _ => Some (root_of a)
  | SCopy d _ => Some (root_of d)
  | SAddr p _ => Some (root_of p)
  | SRead _ _ => None
  end.

(* every statement is a plain statement of main whose destination (if any) is a deref-free member path
   of a variable other than l *)
Definition writes_avoid (l : loc) (os : list op) : Prop :=
  Forall (fun o => match o with
                   | OS s => match dest_root s with
                             | None => True
                             | Some (Some r) => r <> l
                             | Some None => False
                             end
                   | ONop _ => True
                   | ODecl _ => True
                   | OCall _ _ _ => False
                   | OCall2 _ _ _ => False
                   | OCallR _ _ _ => False
                   end) os.

Lemma resolve_root : forall h fr a r c, root_of a = Some r -> resolve h fr a = Some c -> fst c = r.
Proof.
  induction a; simpl; intros r c H R; try discriminate.
  - inversion H; inversion R; subst; auto.
  - destruct (resolve h fr a) as [[l p]|] eqn:E; try discriminate. inversion R; subst. simpl.
    apply (IHa r (l, p)); auto.
Qed.

Lemma dest_root_dest : forall s, dest_root s = option_map root_of (sop_dest s).
Proof. destruct s; reflexivity. Qed.

Lemma writes_avoid_fp : forall mech l os h h' fp,
  writes_avoid l os -> run_fp mech h os = Some (h', fp) -> forall w, In w fp -> fst w <> l.
Proof.
  induction os; simpl; intros h h' fp WA H w I.
  - inversion H; subst. destruct I.
  - inversion WA as [|? ? Ha WA']; subst.
    destruct (exec_op mech h a) as [[[h1 o1] f1]|] eqn:E; try discriminate.
    destruct (run_fp mech h1 os) as [[h2 f2]|] eqn:R; try discriminate. inversion H; subst.
    apply in_app_or in I as [I|I]; [|eapply IHos; eauto].
    destruct a; simpl in E; try contradiction.
    + rewrite dest_root_dest in Ha. apply exec_sop_inv in E. destruct (sop_dest s) as [a|]; simpl in Ha.
      * destruct E as (c & v & Rc & _ & ->). destruct (root_of a) eqn:RT; [|contradiction].
        destruct I as [<-|[]]. rewrite (resolve_root _ _ _ _ _ RT Rc). exact Ha.
      * destruct E as [_ ->]. destruct I.
    + inversion E; subst. destruct I.
    + destruct (eval h [] s); inversion E; subst. destruct I.
Qed.

Fixpoint flds (a : aexp) (ks : list nat) : aexp :=
  match ks with [] => a | k :: ks' => flds (AFld a k) ks' end.

Lemma resolve_flds : forall ks h fr a l p,
  resolve h fr a = Some (l, p) -> resolve h fr (flds a ks) = Some (l, p ++ ks).
Proof.
  induction ks; simpl; intros.
  - rewrite app_nil_r; auto.
  - rewrite (IHks h fr (AFld a0 a) l (p ++ [a])).
    + rewrite <- app_assoc. auto.
    + simpl. rewrite H. auto.
Qed.

Lemma exec_write_flds : forall h fr a ks z l p h' o fp,
  resolve h fr a = Some (l, p) ->
  exec_sop h fr [] (SWrite (flds a ks) z) = Some (h', o, fp) ->
  hwrite h (l, p ++ ks) (VInt z) = Some h' /\ o = [] /\ fp = [(l, p ++ ks)].
Proof.
  intros h fr a ks z l p h' o fp R H. simpl in H. rewrite (resolve_flds ks _ _ _ _ _ R), hwrite_t_nil in H.
  destruct (hwrite h (l, p ++ ks) (VInt z)); inversion H; auto.
Qed.

(* in the aliasing convention a T&, an array parameter and self are bound alike: the parameter is the argument's
   cell (plus one unused location, Model.v bind) *)
Lemma bind_in_ref : forall m h fr a c,
  (m = MRef \/ m = MArr \/ m = MSelf) -> resolve h fr a = Some c ->
  bind_in false h fr [(m, a)] [] [] = Some (h ++ [VInt 0], [c], []).
Proof. intros m h fr a c M R. simpl. rewrite R. destruct M as [->|[->| ->]]; auto. Qed.

(* a T* parameter that received &arg: dereferencing it in the callee gives the argument's cell *)
Lemma bind_in_ptr : forall mech h fr a c,
  resolve h fr a = Some c ->
  bind_in mech h fr [(MPtr, a)] [] [] = Some (h ++ [VPtr (Some c)], [(length h, [])], []) /\
  resolve (h ++ [VPtr (Some c)]) [(length h, [])] (ADeref (APar 0)) = Some c.
Proof.
  intros mech h fr a c R. simpl. rewrite R. split; auto.
  unfold hread. simpl. rewrite nth_error_app2, Nat.sub_diag by auto. auto.
Qed.

(* the cell c of h holds v in h', and h' differs from h in c only: what a caller sees of a callee's write *)
Definition written (h h' : heap) (c : cell) (v : val) : Prop := hread h' c = Some v /\ frames h h' [c].

Lemma written_hwrite : forall h vs c x h', hwrite (h ++ vs) c x = Some h' -> written h h' c x.
Proof.
  intros h vs c x h' W. split. exact (hread_hwrite_same _ _ _ _ W).
  exact (frames_trans _ _ _ [] _ (frames_ext h vs) (frames_hwrite _ _ _ _ W)).
Qed.

Lemma written_alloc : forall h h' c v vs, written h h' c v -> written h (h' ++ vs) c v.
Proof. intros h h' c v vs [R F]. split. apply hread_app_some, R. apply frames_alloc, F. Qed.

Lemma written_base : forall h vs h' c v, written (h ++ vs) h' c v -> written h h' c v.
Proof.
  intros h vs h' c v [R F]. split; auto.
  exact (frames_trans _ _ _ [] _ (frames_ext h vs) F).
Qed.

(* what a reader of h' has of it: the value through every access path of any frame, and nothing else has changed *)
Lemma written_visible : forall h h' fr c v, written h h' c v ->
  hread h' c = Some v /\
  (forall a', resolve h' fr a' = Some c -> eval h' fr a' = Some v) /\
  (forall d, fst d < length h -> overlap c d = false -> hread h' d = hread h d).
Proof.
  intros h h' fr c v [R [_ F]]. repeat split; auto.
  - intros a' R'. unfold eval. rewrite R'. auto.
  - intros d Ld O. apply F; auto. intros w [<-|[]]. auto.
Qed.
