(* C07 - property theorems (the lemmas they rest on: Store.v, History.v, CallConv.v, Nested.v, Recur.v; the
   witnesses' inputs: Witness.v, Nested.v, Recur.v).
   The model is the location + path store of Model.v; `mech = false` is the aliasing convention of the
   property, `mech = true` mirrors the code's copy-in / write-through / copy-back of array parameters and self.
   The implementation's double representation of struct values is NOT modelled (property claimed partial). *)
From Coq Require Import List ZArith Bool Lia.
From Cb Require Import C07.Model C07.Store C07.History C07.CallConv C07.Witness C07.Nested C07.Recur.
Import ListNotations.
Local Open Scope Z_scope.

(* a write changes exactly the addressed cell: it reads back, everything below it is the written tree,
   every cell that does not overlap it keeps its value, nothing is allocated *)
Theorem write_frame : forall h c x h',
  hwrite h c x = Some h' ->
  hread h' c = Some x /\
  (forall q, hread h' (fst c, snd c ++ q) = read_at x q) /\
  (forall d, overlap c d = false -> hread h' d = hread h d) /\
  length h' = length h.
Proof.
  intros h [l p] x h' H. repeat split.
  - eapply hread_hwrite_same; eauto.
  - intros. eapply hread_hwrite_below; eauto.
  - intros. eapply hread_hwrite_disjoint; eauto.
  - eapply hwrite_length; eauto.
Qed.
Print Assumptions write_frame.

(* ... lifted to arbitrary histories (statements, declarations, calls with any parameter modes, under either
   calling convention): a cell outside the footprint of the history is unchanged *)
Theorem write_frame_history : forall mech os h h' fp d,
  run_fp mech h os = Some (h', fp) -> (fst d < length h)%nat ->
  (forall w, In w fp -> overlap w d = false) ->
  hread h' d = hread h d.
Proof. intros mech os h h' fp d H. apply (run_fp_frame _ _ _ _ _ H). Qed.
Print Assumptions write_frame_history.

(* after b = a the two variables hold equal trees, and NO later history that stays out of b's location changes
   any read under b (whatever it does to a, through any path) - and vice versa *)
Theorem copy_independent : forall mech h b a h1 o1 f1,
  b <> a ->
  exec_sop h [] [] (SCopy (AVar b) (AVar a)) = Some (h1, o1, f1) ->
  (forall q, hread h1 (b, q) = hread h (a, q)) /\
  (forall q, hread h1 (a, q) = hread h (a, q)) /\
  (forall os h2 fp, run_fp mech h1 os = Some (h2, fp) ->
     (forall w, In w fp -> fst w <> b) -> forall q, hread h2 (b, q) = hread h1 (b, q)) /\
  (forall os h2 fp, run_fp mech h1 os = Some (h2, fp) ->
     (forall w, In w fp -> fst w <> a) -> forall q, hread h2 (a, q) = hread h1 (a, q)).
Proof.
  intros mech h b a h1 o1 f1 N H. simpl in H. unfold eval in H. simpl in H.
  destruct (hread h (a, [])) eqn:R; try discriminate. rewrite hwrite_t_nil in H.
  destruct (hwrite h (b, []) v) eqn:W; inversion H; subst; clear H.
  assert (Lb : (b < length h1)%nat) by exact (hread_Some_lt _ (b, []) _ (hread_hwrite_same _ _ _ _ W)).
  assert (La : (a < length h1)%nat).
  { rewrite (hwrite_length _ _ _ _ W). exact (hread_Some_lt _ (a, []) _ R). }
  (* a history whose footprint stays out of a location leaves every cell of the location alone *)
  assert (F : forall l os h2 fp, (l < length h1)%nat -> run_fp mech h1 os = Some (h2, fp) ->
              (forall w, In w fp -> fst w <> l) -> forall q, hread h2 (l, q) = hread h1 (l, q)).
  { intros l os h2 fp L Rn F q. apply (write_frame_history _ _ _ _ _ (l, q) Rn L).
    intros [m r] I. apply overlap_loc_neq, (F _ I). }
  repeat split; eauto.
  - intros q. rewrite (hread_hwrite_below _ b [] q _ _ W : hread h1 (b, q) = _).
    rewrite (hread_app h a [] q : hread h (a, q) = _), R. auto.
  - intros q. apply (hread_hwrite_disjoint _ _ _ _ _ W), overlap_loc_neq, N.
Qed.
Print Assumptions copy_independent.

(* the syntactic reading: any sequence of main statements whose destinations are member/element paths of
   variables other than b (resp. a) - "writes under a" (resp. "under b") - leaves every read under b (resp. a)
   at the value copied *)
Theorem copy_independent_syntactic : forall mech h b a h1 o1 f1 os h2 fp q,
  b <> a ->
  exec_sop h [] [] (SCopy (AVar b) (AVar a)) = Some (h1, o1, f1) ->
  run_fp mech h1 os = Some (h2, fp) ->
  (writes_avoid b os -> hread h2 (b, q) = hread h (a, q)) /\
  (writes_avoid a os -> hread h2 (a, q) = hread h (a, q)).
Proof.
  intros mech h b a h1 o1 f1 os h2 fp q N C R.
  destruct (copy_independent mech _ _ _ _ _ _ N C) as [E1 [E2 [F1 F2]]].
  split; intros WA.
  - rewrite (F1 _ _ _ R); auto. eapply writes_avoid_fp; eauto.
  - rewrite (F2 _ _ _ R); auto. eapply writes_avoid_fp; eauto.
Qed.
Print Assumptions copy_independent_syntactic.

(* two access paths that resolve to the same cell read the same value; a path resolving below another reads
   the corresponding sub-tree (in every state, hence after every history) *)
Theorem paths_agree : forall h fr a1 a2 c,
  resolve h fr a1 = Some c ->
  (resolve h fr a2 = Some c -> eval h fr a2 = eval h fr a1) /\
  (forall q, resolve h fr a2 = Some (fst c, snd c ++ q) ->
     eval h fr a2 = match eval h fr a1 with Some u => read_at u q | None => None end).
Proof.
  intros h fr a1 a2 [l p] R1. unfold eval. rewrite R1. split.
  - intros ->. auto.
  - intros q ->. simpl. apply hread_app.
Qed.
Print Assumptions paths_agree.

(* a write through ANY access path (name, member path, element, dereference, arrow, parameter) is read back
   through EVERY path to the same cell as soon as the statement completes; non-overlapping cells are untouched *)
Theorem alias_visible : forall h fr a z h' o fp c,
  exec_sop h fr [] (SWrite a z) = Some (h', o, fp) ->
  resolve h fr a = Some c ->
  (forall a', resolve h' fr a' = Some c -> eval h' fr a' = Some (VInt z)) /\
  (forall a' d, resolve h' fr a' = Some d -> overlap c d = false -> eval h' fr a' = hread h d).
Proof.
  intros h fr a z h' o fp c H R. simpl in H. rewrite R, hwrite_t_nil in H.
  destruct (hwrite h c (VInt z)) eqn:W; inversion H; subst; clear H. split.
  - intros a' R'. unfold eval. rewrite R'. eapply hread_hwrite_same; eauto.
  - intros a' d R' O. unfold eval. rewrite R'. eapply hread_hwrite_disjoint; eauto.
Qed.
Print Assumptions alias_visible.

(* p = &t; makes *p denote t's cell *)
Theorem addr_then_deref : forall h fr lp t h' o fp tc,
  exec_sop h fr [] (SAddr (AVar lp) t) = Some (h', o, fp) ->
  resolve h fr t = Some tc ->
  resolve h' fr (ADeref (AVar lp)) = Some tc.
Proof.
  intros h fr lp t h' o fp tc H R. simpl in H. rewrite R, hwrite_t_nil in H.
  destruct (hwrite h (lp, []) (VPtr (Some tc))) eqn:W; inversion H; subst; clear H.
  simpl. rewrite (hread_hwrite_same _ _ _ _ W). auto.
Qed.
Print Assumptions addr_then_deref.

(* aliasing convention: a callee write through a T& / array / self parameter is visible in the caller through
   every path to arg.ks once the call completes; nothing else changes *)
Theorem alias_visible_call : forall m h arg ks z h' out fp l p,
  resolve h [] arg = Some (l, p) ->
  (l < length h)%nat ->
  (m = MRef \/ m = MArr \/ m = MSelf) ->
  exec_call false h [(m, arg)] [SWrite (flds (APar 0) ks) z] None = Some (h', out, fp) ->
  hread h' (l, p ++ ks) = Some (VInt z) /\
  (forall a', resolve h' [] a' = Some (l, p ++ ks) -> eval h' [] a' = Some (VInt z)) /\
  (forall d, (fst d < length h)%nat -> overlap (l, p ++ ks) d = false -> hread h' d = hread h d).
Proof.
  intros m h arg ks z h' out fp l p R _ M H.
  destruct (alias_visible_call_exits_lemma m h arg ks z None h' out fp l p R M I H) as (V1 & V2 & V3).
  repeat split; auto. intros d Ld O. exact (V3 d Ld O I).
Qed.
Print Assumptions alias_visible_call.

(* the same through a T* parameter that received &arg (either convention) *)
Theorem alias_visible_ptr_call : forall mech h arg ks z h' out fp l p,
  resolve h [] arg = Some (l, p) ->
  (l < length h)%nat ->
  exec_call mech h [(MPtr, arg)] [SWrite (flds (ADeref (APar 0)) ks) z] None = Some (h', out, fp) ->
  hread h' (l, p ++ ks) = Some (VInt z) /\
  (forall a', resolve h' [] a' = Some (l, p ++ ks) -> eval h' [] a' = Some (VInt z)) /\
  (forall d, (fst d < length h)%nat -> overlap (l, p ++ ks) d = false -> hread h' d = hread h d).
Proof.
  intros mech h arg ks z h' out fp l p R _ H.
  destruct (bind_in_ptr mech h [] arg _ R) as [B RD].
  unfold exec_call in H. rewrite <- bind_in_nil, B in H. cbn [exec_sops] in H.
  destruct (exec_sop _ _ _ (SWrite _ _)) as [[[h2 o2] f2]|] eqn:E; try discriminate.
  apply (exec_write_flds _ _ _ _ _ l p) in E as (W & -> & ->); auto.
  cbn [copy_back app] in H. inversion H; subst.
  exact (written_visible _ _ [] _ _ (written_hwrite _ _ _ _ _ W)).
Qed.
Print Assumptions alias_visible_ptr_call.

(* REFINEMENT (partial: callee bodies and arguments without dereferences and without &; the struct double
   representation is outside the model): the code's copy-in / write-through / copy-back convention for array
   parameters and self produces the same transcript and the same caller-visible heap as aliasing, for every
   heap, every parameter list and every body in which a write through a copy-in parameter never hits the argument
   of another copy-in parameter and a write through anything else never hits a copy-in argument (`call_ok`,
   executable) *)
Theorem copyback_refines_alias_partial : forall h ps body ret hs out fps,
  call_ok h ps body = true -> ret_ok (length h) ret = true ->
  exec_call false h ps body ret = Some (hs, out, fps) ->
  exists hm fpm,
    exec_call true h ps body ret = Some (hm, out, fpm) /\
    length hm = length hs /\
    (forall l, (l < length h)%nat -> nth_error hm l = nth_error hs l) /\
    match ret with
    | Some (_, None) => nth_error hm (length hm - 1) = nth_error hs (length hs - 1)
    | _ => True
    end.
Proof.
  intros h ps body ret hs out fps OK RO H.
  unfold call_ok in OK. apply andb_true_iff in OK as [OA OB].
  unfold exec_call in H |- *.
  destruct (bind false h ps [] []) as [[[hs1 frs] ths]|] eqn:BS; try discriminate.
  destruct (bind true h ps [] []) as [[[hm1 frm] th]|] eqn:BM; try discriminate.
  assert (ths = []) by (eapply bind_false_thru; eauto). subst ths.
  destruct (bind_sim (length h) ps h h [] [] [] [] hs1 frs [] (inv_init h) OA BS) as (hm1' & frm' & th' & BM' & [S1 TK1 FR1 _ _]).
  rewrite BM in BM'. inversion BM'; subst hm1' frm' th'; clear BM'.
  destruct (exec_sops hs1 frs [] body) as [[[hs2 o2] f2]|] eqn:ES; try discriminate.
  destruct (sops_sim (length h) (length hm1) th frs frm body hs1 hm1 hs2 o2 f2 S1 TK1 FR1 OB ES)
    as [hm2 [fp2 [EM S2]]].
  rewrite EM.
  pose proof (proj1 (exec_sops_frame _ _ _ _ _ _ _ EM)) as LM.
  rewrite (copy_back_sim (length h) (length hm1) th hs2 hm2 S2 TK1 LM th (incl_refl th)). simpl in H.
  assert (RV : match ret with Some (e, _) => eval hm2 frm e | None => Some (VInt 0) end =
               match ret with Some (e, _) => eval hs2 frs e | None => Some (VInt 0) end).
  { destruct ret as [[e [d|]]|]; auto; simpl in RO.
    - apply andb_true_iff in RO as [RE _]. eapply eval_sim; eauto.
    - eapply eval_sim; eauto. }
  rewrite RV.
  destruct (match ret with Some (e, _) => eval hs2 frs e | None => Some (VInt 0) end) as [rv|]; try discriminate.
  pose proof (sim_len _ _ _ S2) as L2.
  (* the caller's locations are no temporaries: there the two heaps agree *)
  assert (EQ : forall l, (l < length h)%nat -> nth_error hm2 l = nth_error hs2 l).
  { intros l Ll. apply (sim_rest _ _ _ S2), (thru_ok_nokey _ _ _ _ TK1). auto. }
  destruct ret as [[e [d|]]|]; simpl in RO.
  - apply andb_true_iff in RO as [RE RD].
    rewrite (resolve_sresolve (length h) hs2 [] d RD) in H.
    rewrite (resolve_sresolve (length h) hm2 [] d RD).
    destruct (sresolve [] d) as [[lc pc]|] eqn:RC; try discriminate.
    pose proof (sresolve_nil_below _ _ _ RD RC) as CB. simpl in CB.
    destruct (hwrite hs2 (lc, pc) rv) eqn:W; inversion H; subst; clear H.
    destruct (hwrite_inv _ _ _ _ W) as (ts & ts' & E & WA & ->). simpl in E, WA.
    rewrite <- (EQ _ CB) in E. rewrite (hwrite_intro _ _ _ _ _ _ E WA).
    eexists; eexists; split; eauto. repeat split; auto.
    + rewrite !length_upd. auto.
    + intros l Ll. apply nth_error_upd_eq; auto.
  - inversion H; subst; clear H.
    eexists; eexists; split; eauto. repeat split.
    + rewrite !app_length. simpl. lia.
    + intros l Ll. pose proof (proj1 (bind_frame _ _ _ _ _ _ _ _ BM)). rewrite !nth_error_app1 by lia. auto.
    + rewrite !app_length. simpl. rewrite !Nat.add_sub. rewrite !nth_error_app2 by lia.
      rewrite L2. auto.
  - inversion H; subst; clear H. exists hm2, (fp2 ++ map snd th). auto.
Qed.
Print Assumptions copyback_refines_alias_partial.

(* hence, under the code's convention too, a write through an array parameter / self is visible in the caller
   after the call (same side condition) *)
Theorem alias_visible_copyin_partial : forall m h arg ks z hs out fp l p,
  (m = MArr \/ m = MSelf) ->
  resolve h [] arg = Some (l, p) -> (l < length h)%nat ->
  call_ok h [(m, arg)] [SWrite (flds (APar 0) ks) z] = true ->
  exec_call false h [(m, arg)] [SWrite (flds (APar 0) ks) z] None = Some (hs, out, fp) ->
  exists hm fpm,
    exec_call true h [(m, arg)] [SWrite (flds (APar 0) ks) z] None = Some (hm, out, fpm) /\
    hread hm (l, p ++ ks) = Some (VInt z) /\
    (forall d, (fst d < length h)%nat -> overlap (l, p ++ ks) d = false -> hread hm d = hread h d).
Proof.
  intros m h arg ks z hs out fp l p M R L OK H.
  destruct (copyback_refines_alias_partial h _ _ None hs out fp OK eq_refl H) as (hm & fpm & HM & _ & EQ & _).
  destruct (alias_visible_call m h arg ks z hs out fp l p R L (or_intror M) H) as (V1 & _ & V3).
  exists hm, fpm. split; auto. split.
  - rewrite <- V1. apply hread_ext, EQ, L.
  - intros d Ld O. rewrite <- (V3 d Ld O). apply hread_ext, EQ, Ld.
Qed.
Print Assumptions alias_visible_copyin_partial.

Example call_ok_satisfiable : call_ok w_heap w_params ok_body = true /\ call_ok s_heap s_params ok_body = true.
Proof. vm_compute. auto. Qed.

(* REFUTED on the faithful model of the pinned code (and on the real binary): without the side condition the
   copy-back loses a write made by plain name inside the callee, and the parameter reads a stale value.
   void f(int[3] r) { r[0] = 10; g[1] = 20; println(1, r[0], r[1], g[0], g[1]); }  f(g); *)
Theorem alias_visible_arrparam_refuted :
  exists hs os fs hm om fm,
    exec_call false w_heap w_params w_body None = Some (hs, os, fs) /\
    exec_call true w_heap w_params w_body None = Some (hm, om, fm) /\
    os = [[1; 10; 20; 10; 20]] /\ om = [[1; 10; 2; 10; 20]] /\
    hread hs (0%nat, [1%nat]) = Some (VInt 20) /\
    hread hm (0%nat, [1%nat]) = Some (VInt 2) /\
    call_ok w_heap w_params w_body = false.
Proof. vm_compute. repeat eexists. Qed.
Print Assumptions alias_visible_arrparam_refuted.

(* impl { void m() { self.s = 5; gp.t = 6; println(2, self.s, self.t, gp.s, gp.t); } }  gp.m(); *)
Theorem alias_visible_self_refuted :
  exists hs os fs hm om fm,
    exec_call false s_heap s_params s_body None = Some (hs, os, fs) /\
    exec_call true s_heap s_params s_body None = Some (hm, om, fm) /\
    os = [[2; 5; 6; 5; 6]] /\ om = [[2; 5; 2; 5; 6]] /\
    hread hs (0%nat, [1%nat]) = Some (VInt 6) /\
    hread hm (0%nat, [1%nat]) = Some (VInt 2) /\
    call_ok s_heap s_params s_body = false.
Proof. vm_compute. repeat eexists. Qed.
Print Assumptions alias_visible_self_refuted.

(* void f(int[3] r, int[3] q) { r[0] = 10; println(3, q[0]); }  f(g, g);  - the write itself is undone *)
Theorem paths_agree_two_arrparams_refuted :
  exists hs os fs hm om fm,
    exec_call false w_heap d_params d_body None = Some (hs, os, fs) /\
    exec_call true w_heap d_params d_body None = Some (hm, om, fm) /\
    os = [[3; 10]] /\ om = [[3; 1]] /\
    hread hs (0%nat, [0%nat]) = Some (VInt 10) /\
    hread hm (0%nat, [0%nat]) = Some (VInt 1) /\
    call_ok w_heap d_params d_body = false.
Proof. vm_compute. repeat eexists. Qed.
Print Assumptions paths_agree_two_arrparams_refuted.

(* the constructs for calls made from inside a callee body (Model.v: exec_call_in, stmt, OCall2) are a conservative
   extension: in the empty frame, resp. with a call-free body, they are exactly the calls of main *)
Theorem nested_calls_conservative : forall mech h ps body ret,
  exec_call_in mech h [] [] ps body ret = exec_call mech h ps body ret /\
  exec_call2 mech h ps (map TS body) ret = exec_call mech h ps body ret.
Proof. intros. split. apply exec_call_in_nil. apply exec_call2_flat_lemma. Qed.
Print Assumptions nested_calls_conservative.

(* aliasing convention, EVERY receiver/argument form x EVERY exit form: the argument is any access expression
   (c.m(), p->m(), ( *p).m(): arg = ADeref ...), the callee falls off the end (ret = None), returns a value into a
   fresh variable (Some (e, None)) or into a destination that does not overlap the cell (Some (e, Some d)): the write
   through the T& / array / self parameter is read back through every caller path once the call completes, and
   every other cell (not overlapping, not the destination) is unchanged *)
Theorem alias_visible_call_exits : forall m h arg ks z ret h' out fp l p,
  resolve h [] arg = Some (l, p) ->
  (l < length h)%nat ->
  (m = MRef \/ m = MArr \/ m = MSelf) ->
  dest_clear (l, p ++ ks) ret ->
  exec_call false h [(m, arg)] [SWrite (flds (APar 0) ks) z] ret = Some (h', out, fp) ->
  hread h' (l, p ++ ks) = Some (VInt z) /\
  (forall a', resolve h' [] a' = Some (l, p ++ ks) -> eval h' [] a' = Some (VInt z)) /\
  (forall d, (fst d < length h)%nat -> overlap (l, p ++ ks) d = false -> dest_clear d ret -> hread h' d = hread h d).
Proof.
  intros m h arg ks z ret h' out fp l p R _.
  exact (alias_visible_call_exits_lemma m h arg ks z ret h' out fp l p R).
Qed.
Print Assumptions alias_visible_call_exits.

(* the method is invoked by a callee that received &arg:  T f(C* q) { [r =] q->m(); [return e;] }  with
   m() { self.ks = z; [return e';] } - all four combinations of exits: visible in the caller through every path *)
Theorem alias_visible_nested_ptr_call : forall h arg ks z iret oret h' out fp l p,
  resolve h [] arg = Some (l, p) ->
  (l < length h)%nat ->
  exec_call2 false h [(MPtr, arg)]
             [TCall [(MSelf, ADeref (APar 0))] [SWrite (flds (APar 0) ks) z] (lift iret)] (lift oret)
    = Some (h', out, fp) ->
  hread h' (l, p ++ ks) = Some (VInt z) /\
  (forall a', resolve h' [] a' = Some (l, p ++ ks) -> eval h' [] a' = Some (VInt z)) /\
  (forall d, (fst d < length h)%nat -> overlap (l, p ++ ks) d = false -> hread h' d = hread h d).
Proof.
  intros h arg ks z iret oret h' out fp l p R _ H.
  destruct (bind_in_ptr false h [] arg _ R) as [B RD].
  rewrite <- exec_rstmt_call2 in H. cbn [map rs_of_stmt exec_rstmt] in H. rewrite B in H.
  cbn [exec_seq exec_rstmt] in H.
  rewrite (bind_in_ref MSelf _ _ _ _ (or_intror (or_intror eq_refl)) RD) in H. cbn [exec_seq exec_rstmt] in H.
  destruct (exec_sop _ _ _ (SWrite _ _)) as [[[h2 o2] f2]|] eqn:E; try discriminate.
  apply (exec_write_flds _ _ _ _ _ l p) in E as (W & _ & _); auto.
  apply written_hwrite, written_base in W.
  (* both calls end by allocating at most: the callee's write stays what the caller sees *)
  destruct (finish_call _ _ _ _ _ _ _ (lift iret)) as [[[h3 o3] f3]|] eqn:F1; try discriminate.
  apply finish_call_lift in F1 as [vs1 ->].
  apply finish_call_lift in H as [vs2 ->].
  exact (written_visible _ _ [] _ _ (written_alloc _ _ _ _ vs2 (written_alloc _ _ _ _ vs1 W))).
Qed.
Print Assumptions alias_visible_nested_ptr_call.

(* REFINEMENT with dereferences in the arguments (p->m(), ( *p).m(), f( *p)): an argument enters the binding only
   through the cell it resolves to, hence the side condition is call_ok on the normalised parameter list.
   (partial: callee bodies without dereferences and without &, no nested calls; struct double representation
   outside the model) *)
Theorem copyback_refines_alias_deref_partial : forall h ps body ret hs out fps,
  call_ok h (norm_params h ps) body = true -> ret_ok (length h) ret = true ->
  exec_call false h ps body ret = Some (hs, out, fps) ->
  exists hm fpm,
    exec_call true h ps body ret = Some (hm, out, fpm) /\
    length hm = length hs /\
    (forall l, (l < length h)%nat -> nth_error hm l = nth_error hs l) /\
    match ret with
    | Some (_, None) => nth_error hm (length hm - 1) = nth_error hs (length hs - 1)
    | _ => True
    end.
Proof.
  intros h ps body ret hs out fps OK RO H.
  rewrite <- (exec_call_norm false) in H.
  destruct (copyback_refines_alias_partial h _ body ret hs out fps OK RO H) as [hm [fpm [HM X]]].
  rewrite (exec_call_norm true) in HM. eauto.
Qed.
Print Assumptions copyback_refines_alias_deref_partial.

(* hence under the code's copy-in / write-through / copy-back convention: a write through self (or an array
   parameter) made by a callee invoked through ANY receiver expression and leaving in ANY way is visible in the
   caller after the call; nothing else changes *)
Theorem alias_visible_receiver_copyin_partial : forall m h recv ks z ret hs out fp l p,
  (m = MArr \/ m = MSelf) ->
  resolve h [] recv = Some (l, p) -> (l < length h)%nat ->
  call_ok h [(m, flds (AVar l) p)] [SWrite (flds (APar 0) ks) z] = true ->
  ret_ok (length h) ret = true ->
  dest_clear (l, p ++ ks) ret ->
  exec_call false h [(m, recv)] [SWrite (flds (APar 0) ks) z] ret = Some (hs, out, fp) ->
  exists hm fpm,
    exec_call true h [(m, recv)] [SWrite (flds (APar 0) ks) z] ret = Some (hm, out, fpm) /\
    hread hm (l, p ++ ks) = Some (VInt z) /\
    (forall d, (fst d < length h)%nat -> overlap (l, p ++ ks) d = false -> dest_clear d ret -> hread hm d = hread h d).
Proof.
  intros m h recv ks z ret hs out fp l p M R L OK RO DC H.
  assert (NP : norm_params h [(m, recv)] = [(m, flds (AVar l) p)]).
  { unfold norm_params, norm_arg. simpl. rewrite R. auto. }
  rewrite <- NP in OK.
  destruct (copyback_refines_alias_deref_partial h _ _ ret hs out fp OK RO H) as (hm & fpm & HM & _ & EQ & _).
  destruct (alias_visible_call_exits m h recv ks z ret hs out fp l p R L (or_intror M) DC H) as (V1 & _ & V3).
  exists hm, fpm. split; auto. split.
  - rewrite <- V1. apply hread_ext, EQ, L.
  - intros d Ld O DD. rewrite <- (V3 d Ld O DD). apply hread_ext, EQ, Ld.
Qed.
Print Assumptions alias_visible_receiver_copyin_partial.

(* the shape of the demo (C* p = &c; p->vbump(8); int r = p->bump(8); c.t = p->bump(8); bump_via(&c, 8) with
   every exit of both callees): both conventions print the same lines and c.n = 8 is read through c.n and p->n *)
Example ptr_receiver_exits_witness :
  forallb (fun k =>
    match transcript false n_heap (n_ops k ++ n_reads), transcript true n_heap (n_ops k ++ n_reads) with
    | (os, true), (om, true) =>
        match os, om with
        | [l1; l2], [l1'; l2'] =>
            zs_eqb l1 [1; 8; 2] && zs_eqb l1' [1; 8; 2] && zs_eqb l2 [2; 8; 8] && zs_eqb l2' [2; 8; 8]
        | _, _ => false
        end
    | _, _ => false
    end) (seq 0 7) = true.
Proof. vm_compute. reflexivity. Qed.

(* calls nested to ANY depth (recursion): write_frame_history, copy_independent and copy_independent_syntactic above
   range over histories that contain OCallR - calls whose bodies call to any depth - as well (lemma exec_rstmt_frame
   in History.v) *)

(* the recursive construct (Model.v: rstmt, exec_rstmt, OCallR) is a conservative extension: on a body of simple
   statements it is exec_call_in / OCall, on a body with one level of calls it is OCall2 *)
Theorem recursive_calls_conservative : forall mech h fr th ps body ret body2,
  exec_rstmt mech h fr th (RCall ps (map RS body) ret) = exec_call_in mech h fr th ps body ret /\
  exec_op mech h (OCallR ps (map rs_of_stmt body2) ret) = exec_op mech h (OCall2 ps body2 ret) /\
  exec_op mech h (OCallR ps (map RS body) ret) = exec_op mech h (OCall ps body ret).
Proof.
  intros. split; [apply exec_rstmt_call_in|]. unfold exec_op.
  split; [apply exec_rstmt_call2 | apply exec_rstmt_call].
Qed.
Print Assumptions recursive_calls_conservative.

(* BY-VALUE ISOLATION AT EVERY DEPTH.  A call - made from main or from inside any callee (frame fr, enclosing copy-in
   parameters th) - that passes ALL its arguments by value (structs with scalar, nested-struct and array members,
   arrays of the model: any tree), whose body writes only through the callee's own parameters and the locals it declares
   (`T c = e;` copies of any expression) and makes only calls of the same kind, to ANY depth (val_only: by-value
   recursion f(C v) -> f(v) -> f(v) ... included; the arguments are arbitrary expressions of the calling level), and
   whose result is dropped or kept in a fresh variable, leaves EVERY
   location that existed before the call unchanged: the caller's variables (the arguments too) and the by-value
   copies owned by every outer level.  A parameter is its location: the names of the caller's variables, of the
   outer levels' parameters or of globals play no role.  Both calling conventions. *)
Theorem byval_calls_private : forall mech h fr th ps body e h' o fp (d : cell),
  forallb is_val ps = true -> forallb (val_only (length h)) body = true ->
  thru_lt (length h) th ->
  (exec_rstmt mech h fr th (RCall ps body None) = Some (h', o, fp) \/
   exec_rstmt mech h fr th (RCall ps body (Some (e, None))) = Some (h', o, fp)) ->
  (fst d < length h)%nat ->
  hread h' d = hread h d.
Proof.
  intros mech h fr th ps body e h' o fp d V1 V2 T H Ld.
  (* the footprint of either call lies above the old heap (Recur.v rcall_own); the frame law does the rest *)
  assert (X : forall ret, match ret with Some (_, Some _) => False | _ => True end ->
              exec_rstmt mech h fr th (RCall ps body ret) = Some (h', o, fp) -> hread h' d = hread h d).
  { intros ret Hr E. destruct d as [ld pd]. apply (proj2 (exec_rstmt_frame _ _ _ _ _ _ _ _ E) _ Ld).
    intros [lw pw] I. apply overlap_loc_neq. simpl in Ld.
    assert (length h <= lw)%nat; [|lia].
    refine (rcall_own mech _ h fr th ps body ret h' o fp _ V1 V2 _ (le_n _) T E (lw, pw) I).
    - apply Forall_forall. intros s _ mech0 h0 fr0 th0 h0' o0 fp0. apply val_only_own.
    - destruct ret as [[e0 [d0|]]|]; tauto. }
  destruct H as [H|H]; [apply (X None) | apply (X (Some (e, None)))]; auto.
Qed.
Print Assumptions byval_calls_private.

(* BY-REFERENCE RECURSION (aliasing convention): void f(C& v) { f(v); } n levels deep - also with an array parameter
   or self handed down - whose innermost level writes v.ks = z: after the outermost call returns the value is read
   through every path of the calling level to arg.ks, and every other cell that existed before is unchanged *)
Theorem alias_visible_recursion : forall m n ks z a h fr l p h' o fp,
  (m = MRef \/ m = MArr \/ m = MSelf) ->
  resolve h fr a = Some (l, p) -> (l < length h)%nat ->
  exec_rstmt false h fr [] (ref_chain m n ks z a) = Some (h', o, fp) ->
  hread h' (l, p ++ ks) = Some (VInt z) /\
  (forall a', resolve h' fr a' = Some (l, p ++ ks) -> eval h' fr a' = Some (VInt z)) /\
  (forall d : cell, (fst d < length h)%nat -> overlap (l, p ++ ks) d = false -> hread h' d = hread h d) /\
  (length h <= length h')%nat.
Proof.
  intros m n ks z a h fr l p h' o fp M R _ H.
  pose proof (ref_chain_written m n ks z a h fr l p h' o fp M R H) as W.
  destruct (written_visible _ _ fr _ _ W) as (V1 & V2 & V3). repeat split; auto. apply W.
Qed.
Print Assumptions alias_visible_recursion.

Example val_only_satisfiable :
  forallb (val_only (length d_heap)) [d_level1] = true /\ forallb is_val [(MVal, AVar 1%nat)] = true.
Proof. split; reflexivity. Qed.

(* the shape of the seeded demo C07-3: int down(C v, int k) { v.n = ..; if (k > 0) { int below = down(v, k - 1);
   println(k, below, v.n); } return v.n; } three levels deep: every level reads its OWN value after the inner call
   returned (7/8, 8/9), the caller's `other` and `c` are untouched - under both conventions *)
Example byval_recursion_witness :
  forallb (fun mech =>
    match transcript mech d_heap d_ops with
    | ([l1; l2; l3], true) =>
        zs_eqb2 l1 [1; 7; 8] && zs_eqb2 l2 [2; 8; 9] && zs_eqb2 l3 [3; 9; 10; 6; 100; 5]
    | _ => false
    end) [false; true] = true.
Proof. vm_compute. reflexivity. Qed.

Example callee_local_witness :
  forallb (fun mech =>
    match transcript mech d_heap l_ops with
    | ([l1; l2], true) => zs_eqb2 l1 [1; 70; 10] && zs_eqb2 l2 [2; 10]
    | _ => false
    end) [false; true] = true /\
  forallb (val_only (length d_heap)) [RDecl (APar 0%nat); RS (SWrite (AFld (AVar 3%nat) 0%nat) 70)] = true.
Proof. split; vm_compute; reflexivity. Qed.

(* the inputs of the five findings repaired in the code (/repo commits 9713ee9, 6bf51ec, f1b3774, 1608427), as one
   history over two P objects:
   void f(P b){ println(1, b.inner.w); b.inner.w = 139; println(2, b.inner.w); }  f(a) with a live b - the parameter is
   its own location whatever its name, the caller's a.inner.w / b.inner.w stay 118 / 107; a.inner = b.inner; P c = b;
   a = c (copy of a copy) carry the nested and the array members - under both conventions; the callee body is in the
   domain of byval_calls_private.  The same programs are regression replays (known_findings/C07.json fixed_replays). *)
Example repaired_inputs_witness :
  forallb (fun mech =>
    match transcript mech fx_heap fx_ops with
    | ([l1; l2; l3; l4; l5; l6], true) =>
        zs_eqb2 l1 [1; 118] && zs_eqb2 l2 [2; 139] && zs_eqb2 l3 [3; 118; 107] && zs_eqb2 l4 [4; 107] &&
        zs_eqb2 l5 [5; 107; 106] && zs_eqb2 l6 [6; 106; 107]
    | _ => false
    end) [false; true] = true /\
  forallb (val_only (length fx_heap)) fx_body = true.
Proof. split; vm_compute; reflexivity. Qed.
