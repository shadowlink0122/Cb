(* C07 - witnesses: the code's copy-in / write-through / copy-back convention is NOT aliasing when the callee
   also reaches the argument through another path (both confirmed on the real binary, known_findings/C07.json). *)
From Coq Require Import List ZArith.
From Cb Require Import C07.Model.
Import ListNotations.
Local Open Scope Z_scope.

(* int[3] g = [1,2,3];  void f(int[3] r) { r[0] = 10; g[1] = 20; println(1, r[0], r[1], g[0], g[1]); }  f(g);
   aliasing: g[1] = 20 survives the call; code: the copy-back overwrites it with the stale copy *)
Definition w_heap : heap := [VAgg [VInt 1; VInt 2; VInt 3]].
Definition w_params : list param := [(MArr, AVar 0%nat)].
Definition w_body : list sop :=
  [SWrite (AFld (APar 0%nat) 0%nat) 10; SWrite (AFld (AVar 0%nat) 1%nat) 20;
   SRead 1 [AFld (APar 0%nat) 0%nat; AFld (APar 0%nat) 1%nat; AFld (AVar 0%nat) 0%nat; AFld (AVar 0%nat) 1%nat]].

(* struct P { int s; int t; };  P gp = {1, 2};  impl { void m() { self.s = 5; gp.t = 6; println(2, self.s, self.t, gp.s, gp.t); } }  gp.m(); *)
Definition s_heap : heap := [VAgg [VInt 1; VInt 2]].
Definition s_params : list param := [(MSelf, AVar 0%nat)].
Definition s_body : list sop :=
  [SWrite (AFld (APar 0%nat) 0%nat) 5; SWrite (AFld (AVar 0%nat) 1%nat) 6;
   SRead 2 [AFld (APar 0%nat) 0%nat; AFld (APar 0%nat) 1%nat; AFld (AVar 0%nat) 0%nat; AFld (AVar 0%nat) 1%nat]].

(* the same array passed twice: void f(int[3] r, int[3] q) { r[0] = 10; println(3, q[0]); }  f(g, g);
   the second copy-back undoes the write *)
Definition d_params : list param := [(MArr, AVar 0%nat); (MArr, AVar 0%nat)].
Definition d_body : list sop := [SWrite (AFld (APar 0%nat) 0%nat) 10; SRead 3 [AFld (APar 1%nat) 0%nat]].

(* the side condition of the refinement theorem is satisfiable: the same callees without the by-name write *)
Definition ok_body : list sop :=
  [SWrite (AFld (APar 0%nat) 0%nat) 10; SRead 1 [AFld (APar 0%nat) 0%nat; AFld (APar 0%nat) 1%nat; AFld (AVar 0%nat) 0%nat; AFld (AVar 0%nat) 1%nat]].
