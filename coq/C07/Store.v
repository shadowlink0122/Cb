(* C07 - laws of the location + path store: a write changes exactly the addressed cell. *)
From Coq Require Import List Bool Arith.
From Cb Require Import C07.Model.
Import ListNotations.

Lemma length_upd : forall A (l : list A) k x, length (upd l k x) = length l.
Proof. induction l; destruct k; simpl; intros; auto. Qed.

Lemma nth_error_upd_same : forall A (l : list A) k x y,
  nth_error l k = Some y -> nth_error (upd l k x) k = Some x.
Proof. induction l; destruct k; simpl; intros; try discriminate; eauto. Qed.

Lemma nth_error_upd_other : forall A (l : list A) k j x,
  k <> j -> nth_error (upd l k x) j = nth_error l j.
Proof.
  induction l; destruct k; destruct j; simpl; intros; auto; try congruence.
Qed.

Lemma upd_same_value : forall A (l : list A) k x, nth_error l k = Some x -> upd l k x = l.
Proof.
  induction l; destruct k; simpl; intros; try discriminate; auto.
  - congruence.
  - f_equal; auto.
Qed.

Lemma upd_out_of_range : forall A (l : list A) k x, nth_error l k = None -> upd l k x = l.
Proof.
  induction l; destruct k; simpl; intros; try discriminate; auto. f_equal; auto.
Qed.

Lemma nth_error_upd_eq : forall A (l1 l2 : list A) k j x,
  length l1 = length l2 -> nth_error l1 j = nth_error l2 j ->
  nth_error (upd l1 k x) j = nth_error (upd l2 k x) j.
Proof.
  intros A l1 l2 k j x L E. destruct (Nat.eq_dec k j).
  - subst. destruct (nth_error l1 j) eqn:E1.
    + erewrite nth_error_upd_same; eauto. symmetry in E. erewrite nth_error_upd_same; eauto.
    + assert (nth_error l2 j = None) by congruence.
      rewrite upd_out_of_range by auto. rewrite upd_out_of_range by auto. congruence.
  - rewrite !nth_error_upd_other; auto.
Qed.

Lemma upd_upd_same : forall A (l : list A) k x y, upd (upd l k x) k y = upd l k y.
Proof. induction l; destruct k; simpl; intros; auto. f_equal; auto. Qed.

Lemma is_prefix_refl : forall p, is_prefix p p = true.
Proof. induction p; simpl; auto. rewrite Nat.eqb_refl. auto. Qed.

Lemma is_prefix_app : forall p q, is_prefix p (p ++ q) = true.
Proof. induction p; simpl; intros; auto. rewrite Nat.eqb_refl. simpl. auto. Qed.

Lemma is_prefix_spec : forall p q, is_prefix p q = true <-> exists r, q = p ++ r.
Proof.
  induction p; simpl; intros.
  - split; eauto.
  - destruct q as [|b q].
    + split; [discriminate | intros [r H]; discriminate].
    + rewrite andb_true_iff, Nat.eqb_eq, IHp. split.
      * intros [-> [r ->]]. eauto.
      * intros [r H]. inversion H; subst. eauto.
Qed.

Lemma is_prefix_trans : forall p q r, is_prefix p q = true -> is_prefix q r = true -> is_prefix p r = true.
Proof.
  intros p q r H1 H2. apply is_prefix_spec in H1 as [a ->]. apply is_prefix_spec in H2 as [b ->].
  rewrite <- app_assoc. apply is_prefix_app.
Qed.

(* extending one of two incomparable paths keeps them incomparable *)
Lemma is_prefix_app_false : forall p q r, is_prefix p q = false -> is_prefix q p = false ->
  is_prefix (p ++ r) q = false /\ is_prefix q (p ++ r) = false.
Proof.
  induction p; simpl; intros q r H1 H2; try discriminate.
  destruct q as [|b q]; simpl in *; try discriminate.
  rewrite (Nat.eqb_sym b a) in *. destruct (Nat.eqb a b); simpl in *; auto.
Qed.

Lemma overlap_sym : forall c d, overlap c d = overlap d c.
Proof.
  intros [l p] [m q]; unfold overlap; simpl. rewrite (Nat.eqb_sym l m). f_equal. apply orb_comm.
Qed.

Lemma overlap_loc_neq : forall l p m q, l <> m -> overlap (l, p) (m, q) = false.
Proof. intros. unfold overlap; simpl. apply Nat.eqb_neq in H. rewrite H. auto. Qed.

Lemma overlap_below : forall l p q d, overlap (l, p) d = false -> overlap (l, p ++ q) d = false.
Proof.
  intros l p q [m r]. unfold overlap; simpl. destruct (Nat.eqb l m); simpl; [|auto].
  intros H. apply orb_false_iff in H as [H1 H2]. apply orb_false_iff, is_prefix_app_false; auto.
Qed.

Lemma read_at_app : forall p v q,
  read_at v (p ++ q) = match read_at v p with Some u => read_at u q | None => None end.
Proof.
  induction p; simpl; intros; auto.
  destruct v; auto. destruct (nth_error vs a); auto.
Qed.

Lemma read_write_same : forall p v x v', write_at v p x = Some v' -> read_at v' p = Some x.
Proof.
  induction p; simpl; intros v x v' H.
  - congruence.
  - destruct v; try discriminate. destruct (nth_error vs a) eqn:E; try discriminate.
    destruct (write_at v p x) eqn:W; try discriminate. inversion H; subst; clear H.
    simpl. erewrite nth_error_upd_same; eauto.
Qed.

Lemma read_write_below : forall p q v x v', write_at v p x = Some v' -> read_at v' (p ++ q) = read_at x q.
Proof.
  intros. rewrite read_at_app. erewrite read_write_same; eauto.
Qed.

Lemma read_write_disjoint : forall p v x v' q,
  write_at v p x = Some v' -> is_prefix p q = false -> is_prefix q p = false -> read_at v' q = read_at v q.
Proof.
  induction p; simpl; intros v x v' q H H1 H2; try discriminate.
  destruct v; try discriminate. destruct (nth_error vs a) eqn:E; try discriminate.
  destruct (write_at v p x) eqn:W; try discriminate. inversion H; subst; clear H.
  destruct q as [|b q]; simpl in *; try discriminate.
  destruct (Nat.eqb_spec a b).
  - subst. rewrite Nat.eqb_refl in H2. simpl in *.
    erewrite nth_error_upd_same; eauto. rewrite E. eauto.
  - rewrite nth_error_upd_other; auto.
Qed.

(* a write below p reads the subtree at p, writes inside it and puts it back *)
Lemma write_at_app : forall p r v x v',
  write_at v (p ++ r) x = Some v' ->
  exists u u', read_at v p = Some u /\ write_at u r x = Some u' /\ read_at v' p = Some u'.
Proof.
  induction p; simpl; intros r v x v' H.
  - eauto.
  - destruct v; try discriminate. destruct (nth_error vs a) eqn:E; try discriminate.
    destruct (write_at v (p ++ r) x) eqn:W; try discriminate. inversion H; subst; clear H.
    simpl. erewrite nth_error_upd_same; eauto.
Qed.

Lemma write_read_id : forall p v x, read_at v p = Some x -> write_at v p x = Some v.
Proof.
  induction p; simpl; intros v x H.
  - congruence.
  - destruct v; try discriminate. destruct (nth_error vs a) eqn:E; try discriminate.
    rewrite (IHp _ _ H). rewrite upd_same_value; auto.
Qed.

Lemma write_at_defined : forall p v x, (exists v', write_at v p x = Some v') <-> (exists u, read_at v p = Some u).
Proof.
  induction p; simpl; intros v x.
  - split; eauto.
  - destruct v; try (split; intros [? H]; discriminate).
    destruct (nth_error vs a) eqn:E; try (split; intros [? H]; discriminate).
    rewrite <- (IHp v x). split.
    + intros [v' H]. destruct (write_at v p x); try discriminate. eauto.
    + intros [v' H]. rewrite H. eauto.
Qed.

Lemma write_write_same : forall p v x y v1,
  write_at v p x = Some v1 -> write_at v1 p y = write_at v p y.
Proof.
  induction p; simpl; intros v x y v1 H.
  - auto.
  - destruct v; try discriminate. destruct (nth_error vs a) eqn:E; try discriminate.
    destruct (write_at v p x) eqn:W; try discriminate. inversion H; subst; clear H.
    erewrite nth_error_upd_same; eauto. rewrite (IHp _ _ y _ W).
    destruct (write_at v p y); auto. rewrite upd_upd_same. auto.
Qed.

(* a write to the heap is a write to the tree of one location *)
Lemma hwrite_inv : forall h c x h', hwrite h c x = Some h' ->
  exists t t', nth_error h (fst c) = Some t /\ write_at t (snd c) x = Some t' /\ h' = upd h (fst c) t'.
Proof.
  unfold hwrite; intros h c x h' H. destruct (nth_error h (fst c)) as [t|]; try discriminate.
  destruct (write_at t (snd c) x) as [t'|] eqn:W; inversion H; subst. eauto.
Qed.

Lemma hwrite_intro : forall h (l : loc) (p : path) x t t',
  nth_error h l = Some t -> write_at t p x = Some t' -> hwrite h (l, p) x = Some (upd h l t').
Proof. unfold hwrite; simpl; intros h l p x t t' E W. rewrite E, W. auto. Qed.

Lemma hwrite_length : forall h c x h', hwrite h c x = Some h' -> length h' = length h.
Proof. intros h c x h' H. apply hwrite_inv in H as (t & t' & _ & _ & ->). apply length_upd. Qed.

Lemma hread_hwrite_same : forall h c x h', hwrite h c x = Some h' -> hread h' c = Some x.
Proof.
  intros h c x h' H. apply hwrite_inv in H as (t & t' & E & W & ->). unfold hread.
  rewrite (nth_error_upd_same _ _ _ _ _ E). exact (read_write_same _ _ _ _ W).
Qed.

Lemma hread_hwrite_below : forall h l p q x h',
  hwrite h (l, p) x = Some h' -> hread h' (l, p ++ q) = read_at x q.
Proof.
  intros h l p q x h' H. apply hwrite_inv in H as (t & t' & E & W & ->). unfold hread. simpl in *.
  rewrite (nth_error_upd_same _ _ _ _ _ E). exact (read_write_below _ _ _ _ _ W).
Qed.

Lemma hread_hwrite_disjoint : forall h c x h' d,
  hwrite h c x = Some h' -> overlap c d = false -> hread h' d = hread h d.
Proof.
  intros h [l p] x h' [m q] H O. apply hwrite_inv in H as (t & t' & E & W & ->).
  unfold hread, overlap in *. simpl in *.
  destruct (Nat.eqb_spec l m).
  - subst. simpl in O. apply orb_false_iff in O as [O1 O2].
    rewrite (nth_error_upd_same _ _ _ _ _ E), E. exact (read_write_disjoint _ _ _ _ _ W O1 O2).
  - rewrite nth_error_upd_other; auto.
Qed.

Lemma hread_hwrite_other_loc : forall h c x h' l,
  hwrite h c x = Some h' -> fst c <> l -> nth_error h' l = nth_error h l.
Proof.
  intros h c x h' l H N. apply hwrite_inv in H as (t & t' & _ & _ & ->). apply nth_error_upd_other; auto.
Qed.

Lemma hwrite_same_value : forall h c x, hread h c = Some x -> hwrite h c x = Some h.
Proof.
  unfold hread, hwrite; intros. destruct (nth_error h (fst c)) eqn:E; try discriminate.
  rewrite (write_read_id _ _ _ H). rewrite upd_same_value; auto.
Qed.

Lemma hwrite_defined : forall h c x, (exists h', hwrite h c x = Some h') <-> (exists u, hread h c = Some u).
Proof.
  unfold hread, hwrite; intros. destruct (nth_error h (fst c)); try (split; intros [? H]; discriminate).
  rewrite <- (write_at_defined (snd c) v x). split.
  - intros [h' H]. destruct (write_at v (snd c) x); try discriminate. eauto.
  - intros [v' H]. rewrite H. eauto.
Qed.

Lemma hread_app : forall h l p q,
  hread h (l, p ++ q) = match hread h (l, p) with Some u => read_at u q | None => None end.
Proof.
  unfold hread; simpl; intros. destruct (nth_error h l); auto. apply read_at_app.
Qed.

Lemma hread_alloc : forall h vs c, fst c < length h -> hread (h ++ vs) c = hread h c.
Proof.
  unfold hread; intros. rewrite nth_error_app1; auto.
Qed.

Lemma hread_Some_lt : forall h c v, hread h c = Some v -> fst c < length h.
Proof.
  unfold hread; intros h c v H. apply nth_error_Some. destruct (nth_error h (fst c)); congruence.
Qed.

Lemma hread_app_some : forall h vs c v, hread h c = Some v -> hread (h ++ vs) c = Some v.
Proof. intros h vs c v H. rewrite hread_alloc; eauto using hread_Some_lt. Qed.

Lemma hread_ext : forall (h1 h2 : heap) (d : cell), nth_error h1 (fst d) = nth_error h2 (fst d) -> hread h1 d = hread h2 d.
Proof. unfold hread; intros h1 h2 d H. rewrite H. auto. Qed.
