(* C07 - the code's calling convention for array parameters and self (copy-in / write-through / copy-back)
   against the aliasing convention of the property.

   Simulation: while a callee runs, the Mech heap equals the Spec heap everywhere except at the
   temporaries, and every temporary mirrors the argument cell it was copied from.  The invariant is kept by
   reads (always) and by writes that are "exclusive": a write through a copy-in parameter may not hit the
   argument of ANOTHER copy-in parameter, a write through anything else may not hit ANY copy-in argument.
   Then the copy-back at exit is the identity and both conventions produce the same transcript and the same
   caller-visible heap (Properties_C07.v copyback_refines_alias_partial: bind_sim, sops_sim, copy_back_sim in a
   row).  Without exclusivity the law fails (inputs in Witness.v, evaluated in Properties_C07.v). *)
From Coq Require Import List ZArith Bool Lia.
From Cb Require Import C07.Model C07.Store C07.History.
Import ListNotations.

Fixpoint aexp_ok (base : nat) (a : aexp) : bool :=    (* deref-free, variables are caller variables *)
  match a with
  | AVar l => Nat.ltb l base
  | APar _ => true
  | AFld a' _ => aexp_ok base a'
  | ADeref _ => false
  end.

Fixpoint sresolve (fr : frame) (a : aexp) : option cell :=
  match a with
  | AVar l => Some (l, [])
  | APar i => nth_error fr i
  | AFld a' k => match sresolve fr a' with Some (l, p) => Some (l, p ++ [k]) | None => None end
  | ADeref _ => None
  end.

Lemma resolve_sresolve : forall base h fr a, aexp_ok base a = true -> resolve h fr a = sresolve fr a.
Proof.
  induction a; simpl; intros; auto; try discriminate. rewrite IHa; auto.
Qed.

Definition excl_b (th : thru) (x x' : cell) : bool :=
  forallb (fun e : loc * cell => Nat.eqb (fst e) (fst x') || negb (overlap x (snd e))) th.

Definition dest_ok (base : nat) (th : thru) (frs frm : frame) (d : aexp) : bool :=
  aexp_ok base d &&
  match sresolve frs d, sresolve frm d with
  | Some x, Some x' => excl_b th x x'
  | _, _ => true
  end.

Definition stmt_ok (base : nat) (th : thru) (frs frm : frame) (s : sop) : bool :=
  match s with
  | SWrite a _ => dest_ok base th frs frm a
  | SCopy d s' => dest_ok base th frs frm d && aexp_ok base s'
  | SAddr _ _ => false
  | SRead _ rs => forallb (aexp_ok base) rs
  end.

Definition arg_ok (h : heap) (pa : param) : bool :=
  aexp_ok (length h) (snd pa) &&
  (if copy_in (fst pa)
   then match sresolve [] (snd pa) with
        | Some c => match hread h c with Some _ => true | None => false end
        | None => false
        end
   else true).

(* the executable side condition of the refinement theorem *)
Definition call_ok (h : heap) (ps : list param) (body : list sop) : bool :=
  forallb (arg_ok h) ps &&
  match bind false h ps [] [], bind true h ps [] [] with
  | Some (_, frs, _), Some (_, frm, th) => forallb (stmt_ok (length h) th frs frm) body
  | _, _ => false
  end.

Definition keys (th : thru) : list loc := map fst th.

Record thru_ok (base : nat) (n : nat) (th : thru) : Prop := {
  tk_nodup : NoDup (keys th);
  tk_range : forall t c, In (t, c) th -> base <= t < n /\ fst c < base
}.

Record sim (th : thru) (hs hm : heap) : Prop := {
  sim_len : length hs = length hm;
  sim_tmp : forall t c, In (t, c) th -> nth_error hm t = hread hs c;
  sim_rest : forall l, ~ In l (keys th) -> nth_error hm l = nth_error hs l
}.

Inductive cell_rel (th : thru) : cell -> cell -> Prop :=
| CR_same : forall x, ~ In (fst x) (keys th) -> cell_rel th x x
| CR_tmp : forall t c q, In (t, c) th -> cell_rel th (fst c, snd c ++ q) (t, q).

Lemma in_keys : forall (th : thru) t c, In (t, c) th -> In t (keys th).
Proof. intros. unfold keys. change t with (fst (t, c)). apply in_map; auto. Qed.

(* the temporaries lie in [base, n): neither a caller location nor a later allocation is one *)
Lemma thru_ok_nokey : forall base n th l, thru_ok base n th -> l < base \/ n <= l -> ~ In l (keys th).
Proof.
  intros base n th l TK O K. unfold keys in K. apply in_map_iff in K as [[t c] [E K]]. simpl in E; subst.
  apply (tk_range _ _ _ TK) in K. lia.
Qed.

Lemma nodup_keys_unique : forall th t c c', NoDup (keys th) -> In (t, c) th -> In (t, c') th -> c = c'.
Proof.
  induction th as [|[t0 c0] th]; simpl; intros t c c' N I I'; try contradiction.
  inversion N; subst.
  destruct I as [I|I]; destruct I' as [I'|I'].
  - congruence.
  - inversion I; subst. exfalso. apply H1. eapply in_keys; eauto.
  - inversion I'; subst. exfalso. apply H1. eapply in_keys; eauto.
  - eauto.
Qed.

Lemma sim_read : forall th hs hm x x', sim th hs hm -> cell_rel th x x' -> hread hm x' = hread hs x.
Proof.
  intros th hs hm x x' S R. destruct R.
  - apply hread_ext, (sim_rest _ _ _ S); auto.
  - rewrite hread_app. unfold hread at 1. simpl. rewrite (sim_tmp _ _ _ S _ _ H). destruct c; auto.
Qed.

Definition frel (th : thru) (frs frm : frame) : Prop := Forall2 (cell_rel th) frs frm.

Lemma cell_rel_fld : forall th l p l' p' k,
  cell_rel th (l, p) (l', p') -> cell_rel th (l, p ++ [k]) (l', p' ++ [k]).
Proof.
  intros th l p l' p' k R. inversion R; subst.
  - apply CR_same. auto.
  - simpl in *. subst. rewrite <- app_assoc. apply (CR_tmp th l' c (p' ++ [k])). auto.
Qed.

(* an argument or destination without parameters resolves to a caller location *)
Lemma sresolve_nil_below : forall base a c, aexp_ok base a = true -> sresolve [] a = Some c -> fst c < base.
Proof.
  induction a; simpl; intros c OK R; try discriminate.
  - inversion R; subst. apply Nat.ltb_lt; auto.
  - destruct i; discriminate.
  - destruct (sresolve [] a) as [[l p]|]; try discriminate. inversion R; subst. apply (IHa (l, p)); auto.
Qed.

Lemma sresolve_rel : forall base n th frs frm a,
  thru_ok base n th -> frel th frs frm -> aexp_ok base a = true ->
  match sresolve frs a with
  | Some x => exists x', sresolve frm a = Some x' /\ cell_rel th x x'
  | None => sresolve frm a = None
  end.
Proof.
  intros base n th frs frm a TK FR. induction a; simpl; intros OK; try discriminate.
  - exists (l, []). split; auto. apply CR_same. apply (thru_ok_nokey _ _ _ _ TK). left. apply Nat.ltb_lt, OK.
  - revert i. induction FR; intros [|i]; simpl; auto.
    + eauto.
    + apply IHFR.
  - specialize (IHa OK). destruct (sresolve frs a) as [[l p]|].
    + destruct IHa as [[l' p'] [E R]]. rewrite E. eexists; split; eauto. apply cell_rel_fld; auto.
    + rewrite IHa. auto.
Qed.

Lemma write_thru_nokey : forall th h c x, ~ In (fst c) (keys th) -> write_thru h th c x = Some h.
Proof.
  induction th as [|[t o] th]; simpl; intros h c x N; auto.
  destruct (Nat.eqb_spec t (fst c)).
  - exfalso. apply N. auto.
  - apply IHth. intros I; apply N; auto.
Qed.

Lemma write_thru_key : forall th h t c q x,
  NoDup (keys th) -> In (t, c) th ->
  write_thru h th (t, q) x = hwrite h (fst c, snd c ++ q) x.
Proof.
  induction th as [|[t0 c0] th]; simpl; intros h t c q x N I; try contradiction.
  inversion N; subst.
  destruct I as [I|I].
  - inversion I; subst. rewrite Nat.eqb_refl.
    destruct (hwrite h (fst c, snd c ++ q) x); auto.
    apply write_thru_nokey. auto.
  - destruct (Nat.eqb_spec t0 t).
    + subst. exfalso. apply H1. eapply in_keys; eauto.
    + eapply IHth; eauto.
Qed.

Definition excl (th : thru) (x x' : cell) : Prop :=
  forall t2 c2, In (t2, c2) th -> t2 <> fst x' -> overlap x c2 = false.

Lemma excl_b_excl : forall th x x', excl_b th x x' = true -> excl th x x'.
Proof.
  unfold excl_b, excl; intros th x x' H t2 c2 I N.
  rewrite forallb_forall in H. specialize (H _ I). simpl in H.
  apply orb_true_iff in H as [H|H].
  - apply Nat.eqb_eq in H. contradiction.
  - apply negb_true_iff in H. auto.
Qed.

Lemma sim_write : forall base n th hs hm x x' v hs',
  sim th hs hm -> thru_ok base n th -> cell_rel th x x' -> excl th x x' ->
  hwrite hs x v = Some hs' ->
  exists hm', hwrite_t hm th x' v = Some hm' /\ sim th hs' hm'.
Proof.
  intros base n th hs hm x x' v hs' S TK R EX W. unfold hwrite_t.
  destruct (hwrite_inv _ _ _ _ W) as (ts & ts' & E & WA & ->).
  pose proof (sim_len _ _ _ S) as L.
  destruct R as [[lx px] NK | t c q I]; simpl in E, WA.
  - (* a cell outside the temporaries: same write on both sides, no write-through *)
    rewrite <- (sim_rest _ _ _ S lx NK) in E.
    rewrite (hwrite_intro _ _ _ _ _ _ E WA), write_thru_nokey by auto.
    eexists; split; eauto. constructor.
    + rewrite !length_upd. exact L.
    + intros t c I.
      assert (t <> lx) by (intro; subst; apply NK; eapply in_keys; eauto).
      rewrite nth_error_upd_other by auto. rewrite (sim_tmp _ _ _ S _ _ I).
      symmetry. apply (hread_hwrite_disjoint _ _ _ _ _ W), (EX _ _ I). auto.
    + intros l NL. apply nth_error_upd_eq; auto. apply (sim_rest _ _ _ S); auto.
  - (* a cell of the temporary t: written there and, through, in the original *)
    destruct (tk_range _ _ _ TK _ _ I) as [[Tb Tn] Cb].
    assert (TC : t <> fst c) by lia.
    destruct (write_at_app _ _ _ _ _ WA) as (u & u' & RU & WU & RU').
    assert (ET : nth_error hm t = Some u).
    { rewrite (sim_tmp _ _ _ S _ _ I). unfold hread. rewrite E. exact RU. }
    pose proof E as Ehs. rewrite <- (sim_rest _ _ _ S _ (thru_ok_nokey _ _ _ _ TK (or_introl Cb))) in E.
    rewrite (hwrite_intro _ _ _ _ _ _ ET WU : hwrite hm (t, q) v = _), (write_thru_key th _ t c q v (tk_nodup _ _ _ TK) I).
    rewrite <- (nth_error_upd_other _ hm t (fst c) u' TC) in E.
    rewrite (hwrite_intro _ _ _ _ _ _ E WA : hwrite _ (fst c, snd c ++ q) v = _).
    eexists; split; eauto. constructor.
    + rewrite !length_upd. exact L.
    + intros t2 c2 I2. destruct (Nat.eq_dec t2 t).
      * subst. rewrite (nodup_keys_unique _ _ _ _ (tk_nodup _ _ _ TK) I2 I).
        rewrite nth_error_upd_other by auto.
        rewrite (nth_error_upd_same _ _ _ _ _ ET). unfold hread. simpl.
        rewrite (nth_error_upd_same _ _ _ ts' _ Ehs). auto.
      * destruct (tk_range _ _ _ TK _ _ I2) as [[T2b T2n] C2b].
        rewrite nth_error_upd_other by lia. rewrite nth_error_upd_other by auto.
        rewrite (sim_tmp _ _ _ S _ _ I2). symmetry.
        apply (hread_hwrite_disjoint _ _ _ _ _ W), (EX _ _ I2). auto.
    + intros l NL.
      assert (l <> t) by (intro; subst; apply NL; eapply in_keys; eauto).
      apply nth_error_upd_eq.
      * rewrite length_upd. auto.
      * rewrite nth_error_upd_other by auto. apply (sim_rest _ _ _ S); auto.
Qed.

Lemma eval_sim : forall base n th hs hm frs frm a,
  sim th hs hm -> thru_ok base n th -> frel th frs frm -> aexp_ok base a = true ->
  eval hm frm a = eval hs frs a.
Proof.
  intros base n th hs hm frs frm a S TK FR OA.
  unfold eval. rewrite (resolve_sresolve base hm frm a OA), (resolve_sresolve base hs frs a OA).
  pose proof (sresolve_rel base n th frs frm a TK FR OA) as SR.
  destruct (sresolve frs a).
  - destruct SR as [x' [E R]]. rewrite E. apply (sim_read _ _ _ _ _ S R).
  - rewrite SR. auto.
Qed.

Lemma read_all_sim : forall base n th hs hm frs frm rs,
  sim th hs hm -> thru_ok base n th -> frel th frs frm ->
  forallb (aexp_ok base) rs = true ->
  read_all hm frm rs = read_all hs frs rs.
Proof.
  intros base n th hs hm frs frm rs S TK FR. induction rs; simpl; intros OK; auto.
  apply andb_true_iff in OK as [OA OR]. rewrite (IHrs OR), (eval_sim base n th hs hm frs frm a S TK FR OA). auto.
Qed.

Lemma dest_sim : forall base n th hs hm frs frm d v hs',
  sim th hs hm -> thru_ok base n th -> frel th frs frm -> dest_ok base th frs frm d = true ->
  forall x, resolve hs frs d = Some x -> hwrite hs x v = Some hs' ->
  exists x' hm', resolve hm frm d = Some x' /\ hwrite_t hm th x' v = Some hm' /\ sim th hs' hm'.
Proof.
  intros base n th hs hm frs frm d v hs' S TK FR OK x RX W.
  unfold dest_ok in OK. apply andb_true_iff in OK as [OA OE].
  rewrite (resolve_sresolve base hs frs d OA) in RX.
  pose proof (sresolve_rel base n th frs frm d TK FR OA) as SR. rewrite RX in SR, OE.
  destruct SR as [x' [E R]]. rewrite E in OE.
  destruct (sim_write base n th hs hm x x' v hs' S TK R (excl_b_excl _ _ _ OE) W) as [hm' [WM S']].
  exists x', hm'. rewrite (resolve_sresolve base hm frm d OA). auto.
Qed.

Lemma sop_sim : forall base n th hs hm frs frm s hs' out fp,
  sim th hs hm -> thru_ok base n th -> frel th frs frm -> stmt_ok base th frs frm s = true ->
  exec_sop hs frs [] s = Some (hs', out, fp) ->
  exists hm' fp', exec_sop hm frm th s = Some (hm', out, fp') /\ sim th hs' hm'.
Proof.
  intros base n th hs hm frs frm s hs' out fp S TK FR OK H. destruct s; simpl in *; try discriminate.
  - destruct (resolve hs frs a) as [x|] eqn:RX; try discriminate. rewrite hwrite_t_nil in H.
    destruct (hwrite hs x (VInt z)) eqn:W; inversion H; subst; clear H.
    destruct (dest_sim base n th hs hm frs frm a (VInt z) hs' S TK FR OK x RX W) as [x' [hm' [R' [W' S']]]].
    rewrite R', W'. eauto.
  - apply andb_true_iff in OK as [OD OS].
    rewrite (eval_sim base n th hs hm frs frm s S TK FR OS).
    destruct (eval hs frs s) as [v|]; try discriminate.
    destruct (resolve hs frs d) as [x|] eqn:RX; try discriminate. rewrite hwrite_t_nil in H.
    destruct (hwrite hs x v) eqn:W; inversion H; subst; clear H.
    destruct (dest_sim base n th hs hm frs frm d v hs' S TK FR OD x RX W) as [x' [hm' [R' [W' S']]]].
    rewrite R', W'. eauto.
  - rewrite (read_all_sim base n th hs hm frs frm rs S TK FR OK).
    destruct (read_all hs frs rs); try discriminate. inversion H; subst. eauto.
Qed.

Lemma sops_sim : forall base n th frs frm body hs hm hs' out fp,
  sim th hs hm -> thru_ok base n th -> frel th frs frm ->
  forallb (stmt_ok base th frs frm) body = true ->
  exec_sops hs frs [] body = Some (hs', out, fp) ->
  exists hm' fp', exec_sops hm frm th body = Some (hm', out, fp') /\ sim th hs' hm'.
Proof.
  induction body; simpl; intros hs hm hs' out fp S TK FR OK H.
  - inversion H; subst. eauto.
  - apply andb_true_iff in OK as [O1 O2].
    destruct (exec_sop hs frs [] a) as [[[h1 o1] f1]|] eqn:E; try discriminate.
    destruct (exec_sops h1 frs [] body) as [[[h2 o2] f2]|] eqn:E2; try discriminate.
    inversion H; subst; clear H.
    destruct (sop_sim base n th hs hm frs frm a h1 o1 f1 S TK FR O1 E) as [hm1 [fp1 [X1 S1]]].
    destruct (IHbody h1 hm1 hs' o2 f2 S1 TK FR O2 E2) as [hm2 [fp2 [X2 S2]]].
    rewrite X1, X2. eauto.
Qed.

(* every temporary still equals the cell it was copied from: the copy-back changes nothing *)
Lemma copy_back_sim : forall base n th hs hm,
  sim th hs hm -> thru_ok base n th -> n <= length hm ->
  forall th', incl th' th -> copy_back hm th' = Some (hm, map snd th').
Proof.
  intros base n th hs hm S TK LN. induction th' as [|[t c] th']; simpl; intros IN; auto.
  assert (I : In (t, c) th) by (apply IN; simpl; auto).
  destruct (tk_range _ _ _ TK _ _ I) as [[Tb Tn] Cb].
  assert (exists v, nth_error hm t = Some v) as [v EV].
  { destruct (nth_error hm t) eqn:E; eauto. apply nth_error_None in E. lia. }
  unfold hread at 1. simpl. rewrite EV.
  assert (RC : hread hm c = Some v).
  { rewrite <- EV, (sim_tmp _ _ _ S _ _ I).
    apply hread_ext, (sim_rest _ _ _ S), (thru_ok_nokey _ _ _ _ TK (or_introl Cb)). }
  rewrite (hwrite_same_value _ _ _ RC).
  rewrite IHth'. auto. intros e Ie. apply IN. simpl; auto.
Qed.

Lemma cell_rel_mono : forall th e x x',
  cell_rel th x x' -> fst x <> fst e -> cell_rel (th ++ [e]) x x'.
Proof.
  intros th e x x' R N. destruct R.
  - apply CR_same. unfold keys. rewrite map_app. intros I. apply in_app_or in I as [I|I]; auto.
    simpl in I. destruct I; auto.
  - apply CR_tmp. apply in_or_app; auto.
Qed.

Lemma NoDup_app_one : forall A (l : list A) x, NoDup l -> ~ In x l -> NoDup (l ++ [x]).
Proof.
  induction l; simpl; intros x N NI.
  - constructor; auto.
  - inversion N; subst. constructor.
    + intros I. apply in_app_or in I as [I|I]; auto. simpl in I. destruct I as [I|[]]. subst. apply NI; auto.
    + apply IHl; auto.
Qed.

Definition frame_below (n : nat) (fr : frame) : Prop := Forall (fun x : cell => fst x < n) fr.

(* everything the simulation of a call carries from one parameter to the next *)
Record inv (base : nat) (th : thru) (frs frm : frame) (hs hm : heap) : Prop := {
  inv_sim : sim th hs hm;
  inv_thru : thru_ok base (length hm) th;
  inv_frel : frel th frs frm;
  inv_below : frame_below (length hs) frs;
  inv_base : base <= length hs
}.

Lemma inv_init : forall h, inv (length h) [] [] [] h h.
Proof.
  intros h. constructor; auto.
  - constructor; auto. intros t c [].
  - constructor. apply NoDup_nil. intros t c [].
  - constructor.
  - constructor.
Qed.

(* a parameter that is not copied in: the same value is allocated on both sides, the frames get the same cell *)
Lemma inv_same : forall base th frs frm hs hm v (x : cell),
  inv base th frs frm hs hm -> fst x <= length hs -> ~ In (fst x) (keys th) ->
  inv base th (frs ++ [x]) (frm ++ [x]) (hs ++ [v]) (hm ++ [v]).
Proof.
  intros base th frs frm hs hm v x [S TK FR FB LB] Lx NK. pose proof (sim_len _ _ _ S) as L.
  constructor.
  - constructor.
    + rewrite !app_length, L. auto.
    + intros t c I. destruct (tk_range _ _ _ TK _ _ I) as [Tr Cb].
      rewrite nth_error_app1 by lia. rewrite hread_alloc by (apply Nat.lt_le_trans with base; auto).
      apply (sim_tmp _ _ _ S); auto.
    + intros l NL. destruct (Nat.lt_ge_cases l (length hs)).
      * rewrite !nth_error_app1 by lia. apply (sim_rest _ _ _ S); auto.
      * rewrite !nth_error_app2 by lia. rewrite L. auto.
  - constructor. apply (tk_nodup _ _ _ TK). intros t c I.
    destruct (tk_range _ _ _ TK _ _ I). rewrite app_length; simpl. lia.
  - apply Forall2_app; auto. constructor; auto. apply CR_same, NK.
  - apply Forall_app. split.
    + eapply Forall_impl; [|apply FB]. simpl. intros. rewrite app_length; simpl; lia.
    + constructor; auto. rewrite app_length; simpl. lia.
  - rewrite app_length; simpl; lia.
Qed.

(* an array parameter or self: the code copies the argument into a temporary, the property passes its cell *)
Lemma inv_copy_in : forall base th frs frm hs hm v (c : cell),
  inv base th frs frm hs hm -> fst c < base -> hread hs c = Some v ->
  inv base (th ++ [(length hm, c)]) (frs ++ [c]) (frm ++ [(length hm, [])]) (hs ++ [VInt 0]) (hm ++ [v]).
Proof.
  intros base th frs frm hs hm v c [S TK FR FB LB] Cb RV. pose proof (sim_len _ _ _ S) as L.
  assert (NKn : ~ In (length hm) (keys th)) by (apply (thru_ok_nokey _ _ _ _ TK); auto).
  constructor.
  - constructor.
    + rewrite !app_length. simpl. lia.
    + intros t c0 I. apply in_app_or in I as [I|I].
      * destruct (tk_range _ _ _ TK _ _ I) as [Tr Cb0].
        rewrite nth_error_app1 by lia. rewrite hread_alloc by (apply Nat.lt_le_trans with base; auto).
        apply (sim_tmp _ _ _ S); auto.
      * destruct I as [I|[]]. injection I as <- <-.
        rewrite nth_error_app2, Nat.sub_diag by lia. rewrite hread_alloc by (apply Nat.lt_le_trans with base; auto).
        auto.
    + intros l NL. unfold keys in NL. rewrite map_app in NL. simpl in NL.
      assert (l <> length hm) by (intro; subst; apply NL; apply in_or_app; simpl; auto).
      assert (~ In l (keys th)) by (intro; apply NL; apply in_or_app; auto).
      destruct (Nat.lt_ge_cases l (length hs)).
      * rewrite !nth_error_app1 by lia. apply (sim_rest _ _ _ S); auto.
      * rewrite (proj2 (nth_error_None (hm ++ [v]) l)), (proj2 (nth_error_None (hs ++ [VInt 0]) l));
          auto; rewrite app_length; simpl; lia.
  - constructor.
    + unfold keys. rewrite map_app. simpl. apply NoDup_app_one; auto. apply (tk_nodup _ _ _ TK).
    + intros t c0 I. rewrite app_length; simpl. apply in_app_or in I as [I|I].
      * destruct (tk_range _ _ _ TK _ _ I). lia.
      * destruct I as [I|[]]. inversion I; subst. lia.
  - apply Forall2_app.
    + clear - FR FB L. induction FR; auto. inversion FB; subst.
      constructor; auto. apply cell_rel_mono; auto. simpl. lia.
    + constructor; auto. pose proof (CR_tmp (th ++ [(length hm, c)]) (length hm) c []) as X.
      rewrite app_nil_r in X. destruct c; apply X. apply in_or_app; simpl; auto.
  - apply Forall_app. split.
    + eapply Forall_impl; [|apply FB]. simpl. intros. rewrite app_length; simpl; lia.
    + constructor; auto. rewrite app_length; simpl. lia.
  - rewrite app_length; simpl; lia.
Qed.

(* arg_ok with the bound on the variables kept apart from the heap, which grows while the parameters are bound:
   arg_ok h is argc (length h) h *)
Definition argc (base : nat) (h : heap) (pa : param) : bool :=
  aexp_ok base (snd pa) &&
  (if copy_in (fst pa)
   then match sresolve [] (snd pa) with
        | Some c => match hread h c with Some _ => true | None => false end
        | None => false
        end
   else true).

Lemma argc_app : forall base h vs ps, forallb (argc base h) ps = true -> forallb (argc base (h ++ vs)) ps = true.
Proof.
  intros base h vs ps H. rewrite forallb_forall in *. intros pa I. specialize (H pa I).
  unfold argc in *. apply andb_true_iff in H as [H1 H2]. rewrite H1. simpl.
  destruct (copy_in (fst pa)); auto. destruct (sresolve [] (snd pa)); auto.
  destruct (hread h c) eqn:E; try discriminate. rewrite (hread_app_some _ vs _ _ E). auto.
Qed.

Lemma bind_sim : forall base ps hs hm frs frm th ths hs1 frs1 ths1,
  inv base th frs frm hs hm ->
  forallb (argc base hs) ps = true ->
  bind false hs ps frs ths = Some (hs1, frs1, ths1) ->
  exists hm1 frm1 th1, bind true hm ps frm th = Some (hm1, frm1, th1) /\ inv base th1 frs1 frm1 hs1 hm1.
Proof.
  intros base. induction ps as [|[m a] ps]; simpl; intros hs hm frs frm th ths hs1 frs1 ths1 IV OK H.
  - inversion H; subst. eauto.
  - apply andb_true_iff in OK as [O1 O2]. apply andb_true_iff in O1 as [OA OC]. simpl in OA, OC.
    pose proof (sim_len _ _ _ (inv_sim _ _ _ _ _ _ IV)) as L.
    pose proof (inv_thru _ _ _ _ _ _ IV) as TK.
    rewrite (resolve_sresolve base hs [] a OA) in H. rewrite (resolve_sresolve base hm [] a OA).
    destruct (sresolve [] a) as [c|] eqn:RC; try discriminate.
    pose proof (sresolve_nil_below _ _ _ OA RC) as CB.
    assert (NKc : ~ In (fst c) (keys th)) by (apply (thru_ok_nokey _ _ _ _ TK); auto).
    assert (NKn : ~ In (length hm) (keys th)) by (apply (thru_ok_nokey _ _ _ _ TK); auto).
    assert (RD : hread hm c = hread hs c) by (apply (sim_read _ _ _ _ _ (inv_sim _ _ _ _ _ _ IV)), CR_same, NKc).
    pose proof (inv_base _ _ _ _ _ _ IV) as LB.
    destruct m; simpl in OC.
    4-5: (* array parameter, self: copy in *)
      rewrite RD; destruct (hread hs c) as [v|] eqn:RV; try discriminate;
      exact (IHps _ _ _ _ _ _ _ _ _ (inv_copy_in _ _ _ _ _ _ _ _ IV CB RV) (argc_app _ _ _ _ O2) H).
    + (* by value *)
      rewrite RD. destruct (hread hs c) as [v|]; try discriminate. rewrite <- L.
      refine (IHps _ _ _ _ _ _ _ _ _ (inv_same _ _ _ _ _ _ v _ IV _ _) (argc_app _ _ _ _ O2) H); simpl; auto.
      rewrite L. auto.
    + (* &arg *)
      rewrite <- L.
      refine (IHps _ _ _ _ _ _ _ _ _ (inv_same _ _ _ _ _ _ _ _ IV _ _) (argc_app _ _ _ _ O2) H); simpl; auto.
      rewrite L. auto.
    + (* T& *)
      refine (IHps _ _ _ _ _ _ _ _ _ (inv_same _ _ _ _ _ _ _ _ IV _ NKc) (argc_app _ _ _ _ O2) H). lia.
Qed.

(* the aliasing convention creates no temporaries *)
Lemma bind_false_thru : forall ps h fr th h1 fr1 th1,
  bind false h ps fr th = Some (h1, fr1, th1) -> th1 = th.
Proof.
  induction ps as [|[m a] ps]; simpl; intros h fr th h1 fr1 th1 H.
  - inversion H; auto.
  - destruct (resolve h [] a); try discriminate.
    destruct m; try (destruct (hread h c); try discriminate); eauto.
Qed.

(* the exit form of the callee mentions dereference-free paths only *)
Definition ret_ok (base : nat) (ret : option (aexp * option aexp)) : bool :=
  match ret with
  | None => true
  | Some (e, None) => aexp_ok base e
  | Some (e, Some d) => aexp_ok base e && aexp_ok base d
  end.
