(* C06 - for EVERY program, whatever variable names it uses (shadowing, re-declaration, the same name in
   caller and callee or in all levels of a recursion, W objects): a statement only touches its own
   cleanup levels and the variable scope of its own activation; a call gives back both stacks and ALL
   variable scopes of the caller exactly as they were, and never prints an imbalance line.
   Invariant: every pending entry of the current level names a variable of the current activation's
   scope (so find_variable never walks into a caller's scope and never fails). *)
From Coq Require Import List.
Import ListNotations.
From Cb Require Import C06.Model C06.Prims.

Definition dom_ok (F : frame) (Tm : list (name * ty)) : Prop :=
  forall e, In e Tm -> lookup F (fst e) <> None.
Definition dom_le (F F' : frame) : Prop := forall x, lookup F x <> None -> lookup F' x <> None.

Lemma dom_ok_nil : forall F, dom_ok F [].
Proof. intros F e []. Qed.
Lemma dom_le_refl : forall F, dom_le F F.
Proof. red; auto. Qed.
Lemma dom_le_trans : forall A B C, dom_le A B -> dom_le B C -> dom_le A C.
Proof. unfold dom_le; auto. Qed.
Lemma dom_ok_le : forall F F' Tm, dom_ok F Tm -> dom_le F F' -> dom_ok F' Tm.
Proof. unfold dom_ok, dom_le; auto. Qed.
Lemma dom_le_set_flag : forall F x, dom_le F (set_flag F x).
Proof. intros F x y H E. apply lookup_set_flag_none in E. contradiction. Qed.
Lemma dom_le_cons : forall F x v, dom_le F ((x, v) :: F).
Proof. intros F x v y H. simpl. destruct (name_eqb y x); [discriminate|exact H]. Qed.

(* the level invariant of the refinement (Prims.lvl_ok) is a special case *)
Lemma lvl_ok_dom : forall F Tm T, lvl_ok F Tm T -> dom_ok F Tm.
Proof.
  induction 1 as [|e r Tm T [_ H] _ IH]; intros e' I; [destruct I|].
  destruct I as [<-|I]; [now rewrite H|auto].
Qed.

Definition not_imb (e : event) : Prop := match e with EImb _ _ _ _ _ _ _ => False | _ => True end.

(* st' is the state mk Xs Ys (F :: Fs) t0 but for a top frame that may have grown and more output, without
   an imbalance line *)
Definition ext (Xs : list (list nat)) (Ys : list (list (name * ty))) (Fs : list frame) (t0 : list event)
               (F : frame) (st' : state) : Prop :=
  exists F' t, st' = mk Xs Ys (F' :: Fs) (t0 ++ t) /\ dom_le F F' /\ Forall not_imb t.

Lemma ext_intro : forall Xs Ys Fs t0 F t, Forall not_imb t -> ext Xs Ys Fs t0 F (mk Xs Ys (F :: Fs) (t0 ++ t)).
Proof. intros. exists F, t. auto using dom_le_refl. Qed.

Lemma ext_refl : forall Xs Ys Fs t0 F, ext Xs Ys Fs t0 F (mk Xs Ys (F :: Fs) t0).
Proof. intros. exists F, []. rewrite app_nil_r. auto using dom_le_refl. Qed.

Lemma ext_step : forall Xs Ys Fs t0 F F1 t1 st', dom_le F F1 -> Forall not_imb t1 ->
  ext Xs Ys Fs (t0 ++ t1) F1 st' -> ext Xs Ys Fs t0 F st'.
Proof.
  intros Xs Ys Fs t0 F F1 t1 st' L1 N1 (F2 & t2 & -> & L2 & N2).
  exists F2, (t1 ++ t2). rewrite app_assoc. repeat split; eauto using dom_le_trans. apply Forall_app; auto.
Qed.

(* one destructor call on a variable of the top scope: only that scope may change (a flag) *)
Lemma call_destructor_shape : forall x t a b F Fs tr0, lookup F x <> None ->
  ext a b Fs tr0 F (call_destructor x t (mk a b (F :: Fs) tr0)).
Proof.
  intros. rewrite call_destructor_eq; simpl.
  destruct (lookup F x) as [[k [|]]|] eqn:E; [apply ext_refl| |contradiction].
  exists (set_flag F x), [EDtor t k]. repeat split; auto using dom_le_set_flag. repeat constructor.
Qed.

Lemma run_destructors_shape : forall l a b F Fs tr0, dom_ok F l ->
  ext a b Fs tr0 F (run_destructors l (mk a b (F :: Fs) tr0)).
Proof.
  intros l a b F Fs tr0 H. unfold run_destructors.
  assert (H' : dom_ok F (rev l)) by (intros e He; apply H; now apply in_rev).
  clear H. revert F tr0 H'. induction (rev l) as [|e m IH]; intros F tr0 H; simpl; [apply ext_refl|].
  destruct (call_destructor_shape (fst e) (snd e) a b F Fs tr0) as (F1 & t1 & -> & L1 & N1).
  { apply H. now left. }
  apply (ext_step _ _ _ _ _ F1 t1 _ L1 N1), IH.
  eapply dom_ok_le; [|exact L1]. intros e' He'. apply H. now right.
Qed.

Lemma Forall_map_defer : forall l, Forall not_imb (map EDefer l).
Proof. induction l; simpl; constructor; simpl; auto. Qed.

(* the common part of pop_destructor_scope and execute_pre_return_cleanup (Prims: *_cons): the defers of
   the level, then its destructors *)
Lemma close_level_shape : forall D Tm a b F Fs tr0, dom_ok F Tm ->
  ext a b Fs tr0 F (run_destructors Tm (mk a b (F :: Fs) (tr0 ++ map EDefer (rev D)))).
Proof.
  intros. apply (ext_step _ _ _ _ _ F (map EDefer (rev D)));
    auto using dom_le_refl, Forall_map_defer, run_destructors_shape.
Qed.

(* a statement may also change the two innermost cleanup levels; the pending entries go on naming
   variables of the top frame *)
Definition shaped (st' : state) (Ds : list (list nat)) Ts Fs (t0 : list event) (F : frame) : Prop :=
  exists D' Tm' F' t, st' = mk (D' :: Ds) (Tm' :: Ts) (F' :: Fs) (t0 ++ t) /\
                      dom_ok F' Tm' /\ dom_le F F' /\ Forall not_imb t.

Lemma keep_shape : forall D Tm Ds Ts F Fs t0 st', dom_ok F Tm ->
  ext (D :: Ds) (Tm :: Ts) Fs t0 F st' -> shaped st' Ds Ts Fs t0 F.
Proof. intros D Tm Ds Ts F Fs t0 st' OK (F' & t & -> & L & N). exists D, Tm, F', t. eauto using dom_ok_le. Qed.

(* the states before and after a statement (list, loop) run in a level whose pending entries name
   variables of the top frame *)
Definition sh (st st' : state) : Prop := forall D Tm Ds Ts F Fs t0,
  st = mk (D :: Ds) (Tm :: Ts) (F :: Fs) t0 -> dom_ok F Tm -> shaped st' Ds Ts Fs t0 F.

Lemma sh_refl : forall st, sh st st.
Proof. intros st D Tm Ds Ts F Fs t0 -> OK. eapply keep_shape, ext_refl. exact OK. Qed.

Lemma sh_trans : forall a b c, sh a b -> sh b c -> sh a c.
Proof.
  intros a b c H1 H2 D Tm Ds Ts F Fs t0 E OK.
  destruct (H1 _ _ _ _ _ _ _ E OK) as (D1 & Tm1 & F1 & t1 & E1 & OK1 & L1 & N1).
  destruct (H2 _ _ _ _ _ _ _ E1 OK1) as (D2 & Tm2 & F2 & t2 & -> & OK2 & L2 & N2).
  exists D2, Tm2, F2, (t1 ++ t2). rewrite app_assoc. repeat split; eauto using dom_le_trans.
  apply Forall_app; auto.
Qed.

Lemma sh_declare : forall x t id st, sh st (declare_obj x t id st).
Proof.
  intros x t id st D Tm Ds Ts F Fs t0 -> H. rewrite declare_obj_cc.
  exists D, (Tm ++ obj_entries x t), (obj_slots F x t id), (map ctor_ev (obj_parts t id)).
  assert (L : dom_le F (obj_slots F x t id)).
  { destruct t; simpl; try apply dom_le_cons.
    eapply dom_le_trans; apply dom_le_cons. }
  split; [reflexivity|]. split; [|split; [exact L|]].
  - intros e He. apply in_app_or in He. destruct He as [He|He].
    + apply L. now apply H.
    + exact (lvl_ok_dom _ _ _ (proj1 (obj_level x t id F)) e He).
  - destruct t; simpl; repeat constructor.
Qed.

Lemma sh_defer : forall k st, sh st (defer_stmt k st).
Proof.
  intros k st D Tm Ds Ts F Fs t0 -> OK. rewrite defer_stmt_cc.
  exists (D ++ [k]), Tm, F, [EReg k]. repeat split; auto using dom_le_refl. repeat constructor.
Qed.

Lemma sh_mark : forall k st, sh st (emit [EMark k] st).
Proof.
  intros k st D Tm Ds Ts F Fs t0 -> OK. apply (keep_shape D Tm), ext_intro; [exact OK|]. repeat constructor.
Qed.

Lemma sh_return : forall st, sh st (pre_return_cleanup st).
Proof.
  intros st D Tm Ds Ts F Fs t0 -> OK. rewrite pre_return_cleanup_cons.
  destruct (close_level_shape D Tm ([] :: Ds) ([] :: Ts) F Fs t0 OK) as (F' & t' & -> & L & N).
  exists [], [], F', t'. auto using dom_ok_nil.
Qed.

Lemma sh_block : forall st st1, sh (push_destructor_scope st) st1 -> sh st (pop_destructor_scope st1).
Proof.
  intros st st1 H D Tm Ds Ts F Fs t0 -> OK.
  destruct (H [] [] (D :: Ds) (Tm :: Ts) F Fs t0 eq_refl (dom_ok_nil _)) as (D' & Tm' & F' & t & -> & OK' & L & N).
  rewrite pop_destructor_scope_cons. apply (keep_shape D Tm); [exact OK|].
  apply (ext_step _ _ _ _ _ F' t _ L N). now apply close_level_shape.
Qed.

(* the loop's own defer level is popped with whatever it holds *)
Lemma sh_loop : forall st st1, sh (push_defer_scope st) st1 -> sh st (pop_defer_scope st1).
Proof.
  intros st st1 H D Tm Ds Ts F Fs t0 -> OK.
  destruct (H [] Tm (D :: Ds) Ts F Fs t0 eq_refl OK) as (D' & Tm' & F' & t & -> & OK' & L & N).
  rewrite pop_defer_scope_cons. exists D, Tm', F', (t ++ map EDefer (rev D')). rewrite app_assoc.
  repeat split; auto. apply Forall_app; auto using Forall_map_defer.
Qed.

(* a body run in a scope of its own - a call, the whole program - gives back both stacks and all variable
   scopes (destructor_called flags included) exactly as they were, whatever names it declares *)
Lemma body_shape : forall Xs Ys Fs t0 st1, sh (push_scope (mk Xs Ys Fs t0)) st1 ->
  exists t, pop_scope st1 = mk Xs Ys Fs (t0 ++ t) /\ Forall not_imb t.
Proof.
  intros Xs Ys Fs t0 st1 H.
  destruct (H [] [] Xs Ys [] Fs t0 eq_refl (dom_ok_nil _)) as (D' & Tm' & F' & t & -> & OK & _ & N).
  rewrite pop_scope_unfold, pop_destructor_scope_cons.
  destruct (close_level_shape D' Tm' Xs Ys F' Fs (t0 ++ t) OK) as (F2 & t2 & -> & _ & N2).
  exists (t ++ t2). rewrite app_assoc. split; [reflexivity|]. apply Forall_app; auto.
Qed.

(* the depths are then what the stack guard saw before the call: no imbalance line *)
Lemma call_shape : forall g Xs Ys Fs t0 st1, sh (push_scope (mk Xs Ys Fs t0)) st1 ->
  exists t, guard_report g (mk Xs Ys Fs t0) (pop_scope st1) = mk Xs Ys Fs (t0 ++ t) /\ Forall not_imb t.
Proof.
  intros g Xs Ys Fs t0 st1 H. destruct (body_shape _ _ _ _ _ H) as (t & -> & N).
  rewrite guard_report_same by reflexivity. eauto.
Qed.

Lemma sh_call : forall g st st1, sh (push_scope st) st1 -> sh st (guard_report g st (pop_scope st1)).
Proof.
  intros g st st1 H D Tm Ds Ts F Fs t0 -> OK. destruct (call_shape g _ _ _ _ _ H) as (t & -> & N).
  apply (keep_shape D Tm), ext_intro; assumption.
Qed.

Lemma shape_all : forall fuel p,
  (forall n it s st o st', mexec fuel p n it s st = Some (o, st') -> sh st st') /\
  (forall n it b st o st', mexec_b fuel p n it b st = Some (o, st') -> sh st st') /\
  (forall n m i b st o st', mloop fuel p n m i b st = Some (o, st') -> sh st st').
Proof. exact (exec_rel sh sh_refl sh_trans sh_declare sh_defer sh_mark sh_return sh_block sh_loop sh_call). Qed.
