(* C06 - closed forms of the cleanup.cpp / interpreter.cpp primitives of Model.v, and the induction over the
   executor that the results about ALL programs go through (Section Exec) *)
From Coq Require Import List Arith Bool.
Import ListNotations.
From Cb Require Import C06.Model.

Lemma emit_nil : forall st, emit [] st = st.
Proof. destruct st; unfold emit; simpl. now rewrite app_nil_r. Qed.

Lemma emit_emit : forall a b st, emit a (emit b st) = emit (b ++ a) st.
Proof. destruct st; unfold emit; simpl. now rewrite app_assoc. Qed.

Lemma emit_mk : forall es a b c t, emit es (mk a b c t) = mk a b c (t ++ es).
Proof. reflexivity. Qed.

Lemma name_eqb_eq : forall a b, name_eqb a b = true <-> a = b.
Proof. destruct a, b; simpl; rewrite ?Nat.eqb_eq; split; congruence. Qed.

Lemma name_eqb_refl : forall a, name_eqb a a = true.
Proof. intros. now apply name_eqb_eq. Qed.

Lemma name_eqb_neq : forall a b, a <> b -> name_eqb a b = false.
Proof. intros a b H. destruct (name_eqb a b) eqn:E; auto. apply name_eqb_eq in E. contradiction. Qed.

Lemma name_eq_dec : forall a b : name, {a = b} + {a <> b}.
Proof. decide equality; apply Nat.eq_dec. Defined.

Lemma mem_name_false : forall x l, mem_name x l = false <-> ~ In x l.
Proof.
  induction l as [|y l IH]; simpl; split; auto.
  - intros H [E|E].
    + subst. now rewrite name_eqb_refl in H.
    + apply orb_false_iff in H. destruct H as [_ H]. now apply IH in H.
  - intros H. apply orb_false_iff. split.
    + apply name_eqb_neq. intro E. apply H. left. now subst.
    + apply IH. intro E. apply H. now right.
Qed.

Lemma lookup_cons_other : forall F x y v, x <> y -> lookup ((y, v) :: F) x = lookup F x.
Proof. intros. simpl. now rewrite name_eqb_neq. Qed.

Lemma lookup_cons_same : forall F x v, lookup ((x, v) :: F) x = Some v.
Proof. intros. simpl. now rewrite name_eqb_refl. Qed.

(* set_flag F x as seen through lookup: the slot found under x - and no other - is flagged *)
Lemma lookup_set_flag : forall F x y,
  lookup (set_flag F x) y = option_map (fun v : slot => (fst v, snd v || name_eqb x y)) (lookup F y).
Proof.
  induction F as [|[z [k b]] F IH]; intros x y; simpl; auto.
  destruct (name_eqb x z) eqn:E; simpl; destruct (name_eqb y z) eqn:E'; simpl; auto.
  - apply name_eqb_eq in E, E'. subst. now rewrite name_eqb_refl, orb_true_r.
  - apply name_eqb_eq in E. subst z. rewrite name_eqb_neq by (intros ->; now rewrite name_eqb_refl in E').
    destruct (lookup F y) as [[k' b']|]; simpl; now rewrite ?orb_false_r.
  - apply name_eqb_eq in E'. subst z. now rewrite E, orb_false_r.
Qed.

Lemma lookup_set_flag_other : forall F x y, x <> y -> lookup (set_flag F x) y = lookup F y.
Proof.
  intros F x y H. rewrite lookup_set_flag, name_eqb_neq by exact H.
  destruct (lookup F y) as [[k b]|]; simpl; now rewrite ?orb_false_r.
Qed.

Lemma lookup_set_flag_same : forall F x k b, lookup F x = Some (k, b) -> lookup (set_flag F x) x = Some (k, true).
Proof. intros F x k b H. rewrite lookup_set_flag, H, name_eqb_refl. simpl. now rewrite orb_true_r. Qed.

Lemma lookup_set_flag_none : forall F x y, lookup (set_flag F x) y = None <-> lookup F y = None.
Proof. intros. rewrite lookup_set_flag. destruct (lookup F y); simpl; [split; discriminate|tauto]. Qed.

Definition flag_names (F : frame) (l : list name) : frame := fold_left set_flag l F.

Lemma lookup_flag_names_other : forall l F y, ~ In y l -> lookup (flag_names F l) y = lookup F y.
Proof.
  induction l as [|x l IH]; intros F y H; simpl; auto.
  unfold flag_names in *; simpl. rewrite IH by (intro; apply H; now right).
  apply lookup_set_flag_other. intro; apply H; now left.
Qed.

Lemma lookup_flag_names_none : forall l F y, lookup (flag_names F l) y = None <-> lookup F y = None.
Proof.
  induction l as [|x l IH]; intros F y; simpl; [tauto|].
  unfold flag_names in *; simpl. rewrite IH. apply lookup_set_flag_none.
Qed.

Lemma find_var_top : forall F Fs x v, lookup F x = Some v -> find_var (F :: Fs) x = Some v.
Proof. intros. simpl. now rewrite H. Qed.

Lemma mark_var_top : forall F Fs x v, lookup F x = Some v -> mark_var (F :: Fs) x = set_flag F x :: Fs.
Proof. intros. simpl. now rewrite H. Qed.

(* its own push_scope / pop_scope cancel; the guard decides *)
Lemma call_destructor_eq : forall x t st,
  call_destructor x t st =
  match find_var (vars st) x with
  | Some (k, false) => mk (dfs st) (dts st) (mark_var (vars st) x) (tr st ++ [EDtor t k])
  | _ => st
  end.
Proof.
  intros x t [a b c tr0]. unfold call_destructor; simpl.
  destruct (find_var c x) as [[k [|]]|]; auto.
  unfold pop_scope_in_destructor, pop_defer_scope, push_scope, emit; simpl.
  now rewrite app_nil_r.
Qed.

Lemma call_destructor_live : forall x t a b F Fs tr0 k,
  lookup F x = Some (k, false) ->
  call_destructor x t (mk a b (F :: Fs) tr0) = mk a b (set_flag F x :: Fs) (tr0 ++ [EDtor t k]).
Proof.
  intros. rewrite call_destructor_eq; simpl. rewrite H. reflexivity.
Qed.

(* a pending level and the objects it stands for: every entry names a live (not yet destroyed) slot
   of the frame *)
Definition names (Tm : list (name * ty)) : list name := map fst Tm.

Definition ent_ok (F : frame) (e : name * ty) (r : ty * nat) : Prop :=
  snd e = fst r /\ lookup F (fst e) = Some (snd r, false).

Definition lvl_ok (F : frame) (Tm : list (name * ty)) (T : list (ty * nat)) : Prop :=
  Forall2 (ent_ok F) Tm T.

(* what one declaration adds to the innermost level: its entries name the fresh slots, which hold the
   identities of the sub-objects; every other name keeps its slot *)
Lemma obj_level : forall x t id F,
  lvl_ok (obj_slots F x t id) (obj_entries x t) (obj_parts t id) /\
  NoDup (names (obj_entries x t)) /\
  (forall y, ~ In y (names (obj_entries x t)) -> lookup (obj_slots F x t id) y = lookup F y).
Proof.
  intros x t id F. split; [|split].
  - destruct t; simpl; repeat constructor; simpl; rewrite ?Nat.eqb_refl; reflexivity.
  - destruct t; simpl; repeat constructor; simpl; intuition discriminate.
  - intros y Hy. destruct t; simpl in Hy |- *;
      repeat (rewrite name_eqb_neq by (intro; subst; apply Hy; simpl; tauto)); reflexivity.
Qed.

Lemma Forall2_rev_ : forall A B (R : A -> B -> Prop) l l', Forall2 R l l' -> Forall2 R (rev l) (rev l').
Proof.
  induction 1; simpl; [constructor|].
  apply Forall2_app; auto.
Qed.

Lemma lvl_ok_change : forall F F' Tm T, lvl_ok F Tm T ->
  (forall x, In x (names Tm) -> lookup F' x = lookup F x) -> lvl_ok F' Tm T.
Proof.
  induction 1 as [|e r Tm T [H1 H2] H IH]; intros A; constructor.
  - split; auto. rewrite A; auto. now left.
  - apply IH. intros x Hx. apply A. now right.
Qed.

Lemma fold_call_destructor : forall m m' a b F Fs t,
  Forall2 (ent_ok F) m m' -> NoDup (names m) ->
  fold_left (fun s e => call_destructor (fst e) (snd e) s) m (mk a b (F :: Fs) t) =
  mk a b (flag_names F (names m) :: Fs) (t ++ map dtor_ev m').
Proof.
  induction m as [|e m IH]; intros m' a b F Fs t H ND; inversion H; subst; simpl.
  - now rewrite app_nil_r.
  - destruct H2 as [E1 E2]. inversion ND; subst.
    rewrite (call_destructor_live _ _ _ _ _ _ _ _ E2).
    rewrite (IH l').
    + unfold flag_names; simpl. f_equal. rewrite <- app_assoc. simpl. unfold dtor_ev at 2. now rewrite E1.
    + eapply lvl_ok_change; [exact H4|]. intros x Hx. apply lookup_set_flag_other. intro; subst; contradiction.
    + assumption.
Qed.

Lemma names_rev : forall Tm, names (rev Tm) = rev (names Tm).
Proof. intros; unfold names; apply map_rev. Qed.

Lemma names_app : forall a b, names (a ++ b) = names a ++ names b.
Proof. intros; unfold names; apply map_app. Qed.

Lemma run_destructors_ok : forall Tm T a b F Fs t, lvl_ok F Tm T -> NoDup (names Tm) ->
  run_destructors Tm (mk a b (F :: Fs) t) =
  mk a b (flag_names F (rev (names Tm)) :: Fs) (t ++ map dtor_ev (rev T)).
Proof.
  intros. unfold run_destructors. rewrite <- names_rev.
  apply fold_call_destructor.
  - now apply Forall2_rev_.
  - rewrite names_rev. now apply NoDup_rev.
Qed.

Lemma pop_defer_scope_cons : forall l r b c t,
  pop_defer_scope (mk (l :: r) b c t) = mk r b c (t ++ map EDefer (rev l)).
Proof. reflexivity. Qed.

Lemma pop_defer_scope_nil : forall b c t, pop_defer_scope (mk [] b c t) = mk [] b c t.
Proof. reflexivity. Qed.

(* leaving a scope and `return` differ only in what they leave of the two innermost levels: nothing, or
   the empty lists *)
Lemma pop_destructor_scope_cons : forall D Ds Tm Ts c t,
  pop_destructor_scope (mk (D :: Ds) (Tm :: Ts) c t) =
  run_destructors Tm (mk Ds Ts c (t ++ map EDefer (rev D))).
Proof. reflexivity. Qed.

Lemma pre_return_cleanup_cons : forall D Ds Tm Ts c t,
  pre_return_cleanup (mk (D :: Ds) (Tm :: Ts) c t) =
  run_destructors Tm (mk ([] :: Ds) ([] :: Ts) c (t ++ map EDefer (rev D))).
Proof. intros [|d D] Ds [|e Tm] Ts c t; cbn; rewrite ?app_nil_r; reflexivity. Qed.

Lemma pop_destructor_scope_cc : forall D Ds Tm T Ts F Fs t, lvl_ok F Tm T -> NoDup (names Tm) ->
  pop_destructor_scope (mk (D :: Ds) (Tm :: Ts) (F :: Fs) t) =
  mk Ds Ts (flag_names F (rev (names Tm)) :: Fs) (t ++ map EDefer (rev D) ++ map dtor_ev (rev T)).
Proof.
  intros. rewrite pop_destructor_scope_cons.
  erewrite run_destructors_ok by eassumption. now rewrite app_assoc.
Qed.

Lemma pop_destructor_scope_empty : forall D Ds Ts c t,
  pop_destructor_scope (mk (D :: Ds) ([] :: Ts) c t) = mk Ds Ts c (t ++ map EDefer (rev D)).
Proof. reflexivity. Qed.

Lemma pop_scope_unfold : forall st,
  pop_scope st = let st1 := pop_destructor_scope st in mk (dfs st1) (dts st1) (tl (vars st1)) (tr st1).
Proof. reflexivity. Qed.

Lemma pop_scope_cc : forall D Ds Tm T Ts F Fs t, lvl_ok F Tm T -> NoDup (names Tm) ->
  pop_scope (mk (D :: Ds) (Tm :: Ts) (F :: Fs) t) =
  mk Ds Ts Fs (t ++ map EDefer (rev D) ++ map dtor_ev (rev T)).
Proof. intros. rewrite pop_scope_unfold. erewrite pop_destructor_scope_cc by eassumption. reflexivity. Qed.

(* execute_pre_return_cleanup: both innermost lists run (defers, then destructors) and left EMPTY in place *)
Lemma pre_return_cleanup_cc : forall D Ds Tm T Ts F Fs t, lvl_ok F Tm T -> NoDup (names Tm) ->
  pre_return_cleanup (mk (D :: Ds) (Tm :: Ts) (F :: Fs) t) =
  mk ([] :: Ds) ([] :: Ts) (flag_names F (rev (names Tm)) :: Fs) (t ++ map EDefer (rev D) ++ map dtor_ev (rev T)).
Proof.
  intros. rewrite pre_return_cleanup_cons.
  erewrite run_destructors_ok by eassumption. now rewrite app_assoc.
Qed.

(* a scope that is left with both of its levels empty only hands on what was printed inside it *)
Lemma pop_push_scope : forall es st, pop_scope (emit es (push_scope st)) = emit es st.
Proof. intros. transitivity (emit [] (emit es st)); [reflexivity|apply emit_nil]. Qed.

(* declaration of an object: the constructor's own scope cancels *)
Lemma declare_obj_eq : forall x t id st,
  declare_obj x t id st = emit (map ctor_ev (obj_parts t id)) (register_obj x t (bind_obj x t id st)).
Proof. intros. apply pop_push_scope. Qed.

Lemma register_dts_only : forall l st, exists b,
  fold_left (fun s e => register_destructor e s) l st = mk (dfs st) b (vars st) (tr st).
Proof.
  induction l as [|e l IH]; intros [a b c t]; simpl.
  - now exists b.
  - destruct (IH (register_destructor e (mk a b c t))) as [b' ->].
    destruct b; now exists b'.
Qed.

Lemma declare_obj_cc : forall x t id a Tm Ts F Fs tr0,
  declare_obj x t id (mk a (Tm :: Ts) (F :: Fs) tr0) =
  mk a ((Tm ++ obj_entries x t) :: Ts) (obj_slots F x t id :: Fs) (tr0 ++ map ctor_ev (obj_parts t id)).
Proof.
  intros. rewrite declare_obj_eq. unfold register_obj, bind_obj, register_destructor, emit; simpl.
  destruct t; simpl; rewrite <- ?app_assoc; reflexivity.
Qed.

Lemma defer_stmt_cc : forall k D Ds b c t,
  defer_stmt k (mk (D :: Ds) b c t) = mk ((D ++ [k]) :: Ds) b c (t ++ [EReg k]).
Proof. reflexivity. Qed.

Lemma guard_report_same : forall g a b c t a' b' c' t',
  length a = length a' -> length b = length b' -> length c = length c' ->
  guard_report g (mk a b c t) (mk a' b' c' t') = mk a' b' c' t'.
Proof.
  intros. unfold guard_report, depths_differ; simpl. rewrite H, H0, H1. now rewrite !Nat.eqb_refl.
Qed.

(* the executor is made of four statements that work on the current level, three brackets (block, loop, call)
   and sequencing: a relation on states that holds across the former and is closed under the latter holds
   across every execution *)
Section Exec.
Variable R : state -> state -> Prop.
Hypothesis R_refl : forall st, R st st.
Hypothesis R_trans : forall a b c, R a b -> R b c -> R a c.
Hypothesis R_declare : forall x t k st, R st (declare_obj x t k st).
Hypothesis R_defer : forall k st, R st (defer_stmt k st).
Hypothesis R_mark : forall k st, R st (emit [EMark k] st).
Hypothesis R_return : forall st, R st (pre_return_cleanup st).
Hypothesis R_block : forall st st1, R (push_destructor_scope st) st1 -> R st (pop_destructor_scope st1).
Hypothesis R_loop : forall st st1, R (push_defer_scope st) st1 -> R st (pop_defer_scope st1).
Hypothesis R_call : forall g st st1, R (push_scope st) st1 -> R st (guard_report g st (pop_scope st1)).

Lemma exec_rel : forall fuel p,
  (forall n it s st o st', mexec fuel p n it s st = Some (o, st') -> R st st') /\
  (forall n it b st o st', mexec_b fuel p n it b st = Some (o, st') -> R st st') /\
  (forall n m i b st o st', mloop fuel p n m i b st = Some (o, st') -> R st st').
Proof.
  induction fuel as [|f IH]; intros p.
  - repeat split; intros; simpl in *; discriminate.
  - destruct (IH p) as (IHs & IHb & IHl).
    assert (CC : forall n it b st o st',
              compound_close (mexec_b f p n it b (push_destructor_scope st)) = Some (o, st') -> R st st').
    { intros n it b st o st' E.
      destruct (mexec_b f p n it b (push_destructor_scope st)) as [[o1 st1]|] eqn:EB; [|discriminate].
      injection E as <- <-. eapply R_block, IHb, EB. }
    split; [|split].
    + intros n it s st o st' E. destruct s; simpl in E.
      * injection E as <- <-. apply R_declare.
      * injection E as <- <-. apply R_defer.
      * injection E as <- <-. apply R_mark.
      * eapply CC, E.
      * destruct (cond_true n it c); [eapply CC, E|].
        destruct e; [injection E as <- <-; apply R_refl | eapply CC, E].
      * destruct (mloop f p n n0 0 b (push_defer_scope st)) as [[o1 st1]|] eqn:EL; [|discriminate].
        apply IHl, R_loop in EL. destruct o1; injection E as <- <-; exact EL.
      * destruct (mexec_b f p (Init.Nat.pred n) None (body p f0) (push_scope st)) as [[o1 st1]|] eqn:EB; [|discriminate].
        injection E as <- <-. eapply R_call, IHb, EB.
      * injection E as <- <-. apply R_return.
      * injection E as <- <-. apply R_refl.
      * injection E as <- <-. apply R_refl.
    + intros n it b st o st' E. destruct b as [|s r]; simpl in E.
      * injection E as <- <-. apply R_refl.
      * destruct (mexec f p n it s st) as [[o1 st1]|] eqn:ES; [|discriminate]. apply IHs in ES.
        destruct o1; try (injection E as <- <-; exact ES).
        eapply R_trans, IHb, E. exact ES.
    + intros n m i b st o st' E. simpl in E.
      destruct (m <=? i); [injection E as <- <-; apply R_refl|].
      destruct (compound_close (mexec_b f p n (Some i) b (push_destructor_scope st))) as [[o1 st1]|] eqn:EC;
        [|discriminate].
      apply CC in EC.
      destruct o1; try (injection E as <- <-; exact EC); eapply R_trans, IHl, E; exact EC.
Qed.
End Exec.
