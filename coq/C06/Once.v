(* C06 - for EVERY program (name collisions, shadowing, W objects included), by an invariant that does not
   go through the Spec: no object identity is destroyed more often than it was constructed (this is what
   the destructor_called guard buys), no defer runs more often than it was registered - at every prefix of
   the transcript.  An invariant of the Mech executor has to be checked on its elementary moves only
   (Section Inv, an instance of Prims.exec_rel); the counting invariant J is instantiated twice (objects:
   the live slots of the variable scopes; defers: the pending defer levels). *)
From Coq Require Import List Arith Lia.
Import ListNotations.
From Cb Require Import C06.Model C06.Prims.

Section Inv.
Variable P : state -> Prop.
(* P must not read the destructor stack: registrations and the pops of its levels are then no moves at all *)
Hypothesis H_dts : forall a b b' c t, P (mk a b c t) -> P (mk a b' c t).
Hypothesis H_pushf : forall st, P st -> P (push_defer_scope st).
Hypothesis H_popf : forall st, P st -> P (pop_defer_scope st).
Hypothesis H_pushv : forall a b c t, P (mk a b c t) -> P (mk a b ([] :: c) t).
Hypothesis H_popv : forall a b c t, P (mk a b c t) -> P (mk a b (tl c) t).
Hypothesis H_dtor : forall x t st, P st -> P (call_destructor x t st).
Hypothesis H_bind : forall x t k st, P st -> P (emit (map ctor_ev (obj_parts t k)) (bind_obj x t k st)).
Hypothesis H_defer : forall k st, P st -> P (defer_stmt k st).
Hypothesis H_mark : forall k st, P st -> P (emit [EMark k] st).
Hypothesis H_guard : forall g a st, P st -> P (guard_report g a st).

Lemma inv_declare : forall x t k st, P st -> P (declare_obj x t k st).
Proof.
  intros x t k st H. rewrite declare_obj_eq. apply (H_bind x t k) in H.
  unfold register_obj. destruct (register_dts_only (obj_entries x t) (bind_obj x t k st)) as [b' ->].
  destruct (bind_obj x t k st) as [a b c t0]. exact (H_dts _ _ _ _ _ H).
Qed.

Lemma inv_run_destructors : forall l st, P st -> P (run_destructors l st).
Proof. intros l. unfold run_destructors. induction (rev l); simpl; auto. Qed.

Lemma inv_pop_destructor : forall st, P st -> P (pop_destructor_scope st).
Proof.
  intros st H. apply H_popf in H. unfold pop_destructor_scope.
  destruct (pop_defer_scope st) as [a [|l r] c t]; simpl; [exact H|].
  apply inv_run_destructors. exact (H_dts _ _ _ _ _ H).
Qed.

Lemma inv_pop_scope : forall st, P st -> P (pop_scope st).
Proof.
  intros st H. rewrite pop_scope_unfold. apply inv_pop_destructor in H.
  destruct (pop_destructor_scope st). exact (H_popv _ _ _ _ H).
Qed.

Lemma inv_pre_return : forall st, P st -> P (pre_return_cleanup st).
Proof.
  assert (dtor_half : forall st, P st ->
            P (match dts st with
               | ((_ :: _) as l) :: r => run_destructors l (mk (dfs st) ([] :: r) (vars st) (tr st))
               | _ => st
               end)).
  { intros [a [|[|e l] r] c t] H; simpl; auto. apply inv_run_destructors. exact (H_dts _ _ _ _ _ H). }
  intros st H. unfold pre_return_cleanup. apply dtor_half.
  destruct st as [[|[|x l] r] b c t]; auto. exact (H_pushf _ (H_popf _ H)).
Qed.

Lemma inv_push_destructor : forall st, P st -> P (push_destructor_scope st).
Proof. intros [a b c t] H. exact (H_dts _ _ _ _ _ (H_pushf _ H)). Qed.

Lemma inv_push_scope : forall st, P st -> P (push_scope st).
Proof. intros [a b c t] H. exact (H_pushv _ _ _ _ (inv_push_destructor _ H)). Qed.

Lemma mrun_inv : forall fuel p n0 ok st, P init_state -> mrun fuel p n0 = Some (ok, st) -> P st.
Proof.
  intros fuel p n0 ok st H0 E. unfold mrun in E.
  destruct (mexec_b fuel p n0 None (body p 0) (push_scope init_state)) as [[o1 st1]|] eqn:EB; [|discriminate].
  assert (P st1).
  { refine (proj1 (proj2 (exec_rel (fun a b => P a -> P b) (fun _ H => H) (fun _ _ _ H1 H2 H => H2 (H1 H))
                              inv_declare H_defer H_mark inv_pre_return _ _ _ fuel p))
                   _ _ _ _ _ _ EB (inv_push_scope _ H0)).
    - intros st0 st2 H HP. apply inv_pop_destructor, H, inv_push_destructor, HP.
    - intros st0 st2 H HP. apply H_popf, H, H_pushf, HP.
    - intros g st0 st2 H HP. apply H_guard, inv_pop_scope, H, inv_push_scope, HP. }
  destruct o1; injection E as <- <-; auto using inv_pop_scope.
Qed.
End Inv.

Lemma app_snoc : forall (t : list event) e r, t ++ e :: r = (t ++ [e]) ++ r.
Proof. intros. now rewrite <- app_assoc. Qed.

Section Count.
(* c e = Some k: event "k acquired"; d e = Some k: event "k released" *)
Variable c d : event -> option nat.
Hypothesis disjoint : forall e k, d e = Some k -> c e = None.

Definition hit (f : event -> option nat) (k : nat) (e : event) : bool :=
  match f e with Some k' => Nat.eqb k k' | None => false end.
Definition cnt (f : event -> option nat) (k : nat) (t : list event) : nat := length (filter (hit f k) t).
Definition occ (k : nat) (l : list nat) : nat := length (filter (Nat.eqb k) l).

Lemma cnt_app : forall f k a b, cnt f k (a ++ b) = cnt f k a + cnt f k b.
Proof. intros; unfold cnt. now rewrite filter_app, app_length. Qed.

Lemma cnt_snoc : forall f k t e, cnt f k (t ++ [e]) = cnt f k t + (if hit f k e then 1 else 0).
Proof. intros. rewrite cnt_app. unfold cnt at 2; simpl. now destruct (hit f k e). Qed.

Lemma occ_app : forall k a b, occ k (a ++ b) = occ k a + occ k b.
Proof. intros; unfold occ. now rewrite filter_app, app_length. Qed.

Lemma occ_cons : forall k x m, occ k (x :: m) = (if Nat.eqb k x then 1 else 0) + occ k m.
Proof. intros; unfold occ; simpl. destruct (k =? x); reflexivity. Qed.

Lemma occ_nil : forall k, occ k [] = 0.
Proof. reflexivity. Qed.

Lemma occ_rev : forall k l, occ k (rev l) = occ k l.
Proof. induction l; simpl; auto. rewrite occ_app, IHl, !occ_cons, occ_nil. lia. Qed.

Definition pref_ok (t : list event) : Prop :=
  forall t1 t2, t = t1 ++ t2 -> forall k, cnt d k t1 <= cnt c k t1.

Definition J (pend : list nat) (t : list event) : Prop :=
  pref_ok t /\ forall k, cnt d k t + occ k pend <= cnt c k t.

Lemma pref_ok_snoc : forall t e, pref_ok t ->
  (forall k, cnt d k (t ++ [e]) <= cnt c k (t ++ [e])) -> pref_ok (t ++ [e]).
Proof.
  intros t e H Hall t1 t2 E k.
  destruct t2 as [|x t2'] using rev_ind.
  - rewrite app_nil_r in E. subst t1. apply Hall.
  - clear IHt2'. rewrite app_assoc in E. apply app_inj_tail in E. destruct E as [E _].
    eapply H; eauto.
Qed.

Lemma J_weaken : forall pend pend' t, J pend t -> (forall k, occ k pend' <= occ k pend) -> J pend' t.
Proof. intros pend pend' t [H1 H2] Hle. split; auto. intros k. specialize (H2 k). specialize (Hle k). lia. Qed.

(* one event: what it releases and what stays pending is covered by what it acquires and what was pending *)
Lemma J_snoc : forall pend pend' t e, J pend t ->
  (forall k, (if hit d k e then 1 else 0) + occ k pend' <= (if hit c k e then 1 else 0) + occ k pend) ->
  J pend' (t ++ [e]).
Proof.
  intros pend pend' t e [H1 H2] Hle.
  assert (A : forall k, cnt d k (t ++ [e]) + occ k pend' <= cnt c k (t ++ [e])).
  { intros k. rewrite !cnt_snoc. specialize (H2 k). specialize (Hle k). lia. }
  split; [|exact A].
  apply pref_ok_snoc; auto. intros k. specialize (A k). lia.
Qed.

Lemma J_neutral1 : forall pend t e, J pend t -> c e = None -> d e = None -> J pend (t ++ [e]).
Proof. intros pend t e HJ Hc Hd. apply (J_snoc pend); auto. intros k. unfold hit. now rewrite Hc, Hd. Qed.

Lemma J_neutral : forall es pend t, J pend t -> (forall e, In e es -> c e = None /\ d e = None) -> J pend (t ++ es).
Proof.
  induction es as [|e es IH]; intros pend t HJ Hall.
  - now rewrite app_nil_r.
  - rewrite app_snoc. apply IH.
    + destruct (Hall e (or_introl eq_refl)). now apply J_neutral1.
    + intros e' Hin. apply Hall. now right.
Qed.

(* acquiring k: one more (or no) pending entry for k *)
Lemma J_acquire : forall pend pend' t e k, J pend t -> c e = Some k -> d e = None ->
  (forall k', occ k' pend' <= occ k' pend + (if Nat.eqb k' k then 1 else 0)) -> J pend' (t ++ [e]).
Proof.
  intros pend pend' t e k HJ Hc Hd Hle. apply (J_snoc pend); auto.
  intros k'. unfold hit. rewrite Hc, Hd. specialize (Hle k'). lia.
Qed.

(* releasing the pending entries m (in any order), one event each *)
Lemma J_release : forall (dev : nat -> event) m pend0 pend t,
  (forall k, d (dev k) = Some k) ->
  J pend0 t -> (forall k, occ k m + occ k pend <= occ k pend0) -> J pend (t ++ map dev m).
Proof.
  intros dev m. induction m as [|x m IH]; intros pend0 pend t Hdev HJ Hocc; simpl.
  - rewrite app_nil_r. exact (J_weaken _ _ _ HJ Hocc).
  - rewrite app_snoc.
    apply IH with (pend0 := m ++ pend); auto.
    + apply (J_snoc pend0); auto. intros k. unfold hit. rewrite Hdev, (disjoint _ _ (Hdev x)).
      specialize (Hocc k). rewrite occ_cons in Hocc. rewrite occ_app. lia.
    + intros k. rewrite occ_app. lia.
Qed.

Lemma J_init : J [] [].
Proof.
  split.
  - intros t1 t2 E k. destruct t1; [unfold cnt; simpl; lia|discriminate].
  - intros k. unfold cnt, occ; simpl. lia.
Qed.
End Count.

Lemma occ_concat_cons : forall k l r, occ k (concat (l :: r)) = occ k l + occ k (concat r).
Proof. intros; simpl. apply occ_app. Qed.

(* identities only: the struct type printed by a destructor is the type of the ENTRY, the identity comes
   from the SLOT (see Model.call_destructor); under shadowing they may belong to different declarations *)
Definition c_obj (e : event) : option nat := match e with ECtor _ k => Some k | _ => None end.
Definition d_obj (e : event) : option nat := match e with EDtor _ k => Some k | _ => None end.

(* the identities held by slots whose destructor_called flag is still false *)
Definition live_slot (b : name * slot) : bool := negb (snd (snd b)).
Definition live_ids_f (F : frame) : list nat := map (fun b : name * slot => fst (snd b)) (filter live_slot F).
Definition live_ids (Fs : list frame) : list nat := concat (map live_ids_f Fs).

Definition Jobj (st : state) : Prop := J c_obj d_obj (live_ids (vars st)) (tr st).

Lemma disj_obj : forall e k, d_obj e = Some k -> c_obj e = None.
Proof. destruct e; simpl; intros; congruence. Qed.

Lemma live_ids_cons : forall k F Fs, occ k (live_ids (F :: Fs)) = occ k (live_ids_f F) + occ k (live_ids Fs).
Proof. intros. unfold live_ids; simpl. apply occ_app. Qed.

Lemma live_ids_f_cons : forall k x i b F,
  occ k (live_ids_f ((x, (i, b)) :: F)) = (if b then 0 else if Nat.eqb k i then 1 else 0) + occ k (live_ids_f F).
Proof.
  intros. unfold live_ids_f; simpl. unfold live_slot at 1; simpl. destruct b; simpl; auto.
  rewrite occ_cons. reflexivity.
Qed.

Lemma live_set_flag : forall F x k, lookup F x = Some (k, false) ->
  forall k', occ k' (live_ids_f (set_flag F x)) + (if Nat.eqb k' k then 1 else 0) = occ k' (live_ids_f F).
Proof.
  induction F as [|[z [i b]] F IH]; intros x k H k'; simpl in H; [discriminate|].
  simpl. destruct (name_eqb x z).
  - inversion H; subst. rewrite !live_ids_f_cons. lia.
  - rewrite !live_ids_f_cons. rewrite <- (IH x k H k'). lia.
Qed.

Lemma live_mark_var : forall Fs x k, find_var Fs x = Some (k, false) ->
  forall k', occ k' (live_ids (mark_var Fs x)) + (if Nat.eqb k' k then 1 else 0) = occ k' (live_ids Fs).
Proof.
  induction Fs as [|F Fs IH]; intros x k H k'; simpl in H; [discriminate|].
  simpl. destruct (lookup F x) as [v|] eqn:E.
  - inversion H; subst. rewrite !live_ids_cons. rewrite <- (live_set_flag F x k E k'). lia.
  - rewrite !live_ids_cons. rewrite <- (IH x k H k'). lia.
Qed.

Lemma Jobj_stacks : forall a b a' b' c t, Jobj (mk a b c t) -> Jobj (mk a' b' c t).
Proof. intros; exact H. Qed.

Lemma Jobj_tl : forall a b c t, Jobj (mk a b c t) -> Jobj (mk a b (tl c) t).
Proof.
  intros a b c t H. refine (J_weaken _ _ _ _ _ H _).
  destruct c; simpl; auto. intros. rewrite live_ids_cons. lia.
Qed.

Lemma Jobj_emit_neutral : forall e st, c_obj e = None -> d_obj e = None -> Jobj st -> Jobj (emit [e] st).
Proof. intros e [a b c t] Hc Hd H. now apply J_neutral1. Qed.

Lemma Jobj_pop_defer : forall st, Jobj st -> Jobj (pop_defer_scope st).
Proof.
  intros [[|l r] b c t] H; [exact H|].
  rewrite pop_defer_scope_cons. apply J_neutral; [exact H|].
  intros e He. apply in_map_iff in He. destruct He as (x & <- & _). auto.
Qed.

Lemma Jobj_call_destructor : forall x t st, Jobj st -> Jobj (call_destructor x t st).
Proof.
  intros x t [a b c t0] H. rewrite call_destructor_eq; simpl.
  destruct (find_var c x) as [[k [|]]|] eqn:E; auto.
  apply (J_release _ _ disj_obj (EDtor t) [k] (live_ids c)); auto.
  intros k'. cbn [vars]. rewrite occ_cons, occ_nil, <- (live_mark_var c x k E k'). lia.
Qed.

Lemma Jobj_register : forall l st, Jobj st -> Jobj (fold_left (fun s e => register_destructor e s) l st).
Proof. intros l st H. destruct (register_dts_only l st) as [b' ->]. destruct st. exact H. Qed.

(* one constructor line with the slot it announces: the slot may be missing (no scope) or already flagged *)
Lemma Jobj_ctor1 : forall a b c c' t ty k, Jobj (mk a b c t) ->
  (forall k', occ k' (live_ids c') <= occ k' (live_ids c) + (if Nat.eqb k' k then 1 else 0)) ->
  Jobj (mk a b c' (t ++ [ECtor ty k])).
Proof. intros. unfold Jobj in *; simpl in *. eapply J_acquire with (k := k); eauto. Qed.

Lemma Jobj_noslot : forall a b t ty k, Jobj (mk a b [] t) -> Jobj (mk a b [] (t ++ [ECtor ty k])).
Proof. intros. eapply Jobj_ctor1; eauto. intros; lia. Qed.

Lemma Jobj_slot : forall a b F Fs t y ty k, Jobj (mk a b (F :: Fs) t) ->
  Jobj (mk a b (((y, (k, false)) :: F) :: Fs) (t ++ [ECtor ty k])).
Proof. intros. eapply Jobj_ctor1; eauto. intros k'. rewrite !live_ids_cons, live_ids_f_cons. lia. Qed.

(* a W declaration is two such lines: the member's, then the variable's *)
Lemma Jobj_bind : forall x t k st, Jobj st -> Jobj (emit (map ctor_ev (obj_parts t k)) (bind_obj x t k st)).
Proof.
  intros x t k [a b [|F Fs] t0] H; destruct t; unfold bind_obj, emit, ctor_ev; simpl;
    try rewrite (app_snoc t0 _ [_]); auto using Jobj_noslot, Jobj_slot.
Qed.

Lemma Jobj_all : forall fuel p n0 ok stf, mrun fuel p n0 = Some (ok, stf) -> Jobj stf.
Proof.
  intros fuel p n0 ok stf E.
  eapply (mrun_inv Jobj); try exact E.
  - intros a b b' c t. apply Jobj_stacks.
  - intros [a b c t] H; exact H.
  - apply Jobj_pop_defer.
  - intros a b c t H; exact H.
  - apply Jobj_tl.
  - apply Jobj_call_destructor.
  - apply Jobj_bind.
  - intros k st H. apply (Jobj_emit_neutral (EReg k)) in H; auto.
    unfold defer_stmt, add_defer. destruct (emit [EReg k] st) as [[|l r] b c t]; exact H.
  - intros k st H. now apply Jobj_emit_neutral.
  - intros g a st H. unfold guard_report. destruct (depths_differ a st); auto.
    now apply Jobj_emit_neutral.
  - apply J_init.
Qed.

Definition c_def (e : event) : option nat := match e with EReg k => Some k | _ => None end.
Definition d_def (e : event) : option nat := match e with EDefer k => Some k | _ => None end.
Definition Jdef (st : state) : Prop := J c_def d_def (concat (dfs st)) (tr st).

Lemma disj_def : forall e k, d_def e = Some k -> c_def e = None.
Proof. destruct e; simpl; intros; congruence. Qed.

Lemma Jdef_pop_defer : forall st, Jdef st -> Jdef (pop_defer_scope st).
Proof.
  intros [[|l r] b c t] H; [exact H|].
  rewrite pop_defer_scope_cons.
  apply (J_release _ _ disj_def EDefer (rev l) (concat (l :: r))); auto.
  intros k. cbn [dfs]. rewrite occ_rev, occ_concat_cons. lia.
Qed.

Lemma Jdef_call_destructor : forall x t st, Jdef st -> Jdef (call_destructor x t st).
Proof.
  intros x t [a b c t0] H. rewrite call_destructor_eq; simpl.
  destruct (find_var c x) as [[k [|]]|]; auto.
  now apply J_neutral1.
Qed.

Lemma Jdef_emit_neutral : forall e st, c_def e = None -> d_def e = None -> Jdef st -> Jdef (emit [e] st).
Proof. intros e [a b c t] Hc Hd H. now apply J_neutral1. Qed.

Lemma Jdef_bind : forall x t k st, Jdef st -> Jdef (emit (map ctor_ev (obj_parts t k)) (bind_obj x t k st)).
Proof.
  intros x t k [a b c t0] H.
  assert (E : exists c', bind_obj x t k (mk a b c t0) = mk a b c' t0) by (destruct c; eexists; reflexivity).
  destruct E as [c' ->]. apply J_neutral; [exact H|].
  intros e He. apply in_map_iff in He. destruct He as (r & <- & _). auto.
Qed.

Lemma Jdef_defer : forall k st, Jdef st -> Jdef (defer_stmt k st).
Proof.
  intros k [[|l r] b c t] H; unfold defer_stmt, add_defer, Jdef; simpl;
    apply (J_acquire _ _ _ _ _ _ k H); auto; intros k'; cbn [dfs concat].
  - lia.
  - rewrite !occ_app, occ_cons, occ_nil. lia.
Qed.

Lemma Jdef_all : forall fuel p n0 ok stf, mrun fuel p n0 = Some (ok, stf) -> Jdef stf.
Proof.
  intros fuel p n0 ok stf E.
  eapply (mrun_inv Jdef); try exact E.
  - intros a b b' c t H; exact H.
  - intros [a b c t] H; exact H.
  - apply Jdef_pop_defer.
  - intros a b c t H; exact H.
  - intros a b c t H; exact H.
  - apply Jdef_call_destructor.
  - apply Jdef_bind.
  - apply Jdef_defer.
  - intros k st H. now apply Jdef_emit_neutral.
  - intros g a st H. unfold guard_report. destruct (depths_differ a st); auto.
    now apply Jdef_emit_neutral.
  - apply J_init.
Qed.

Definition ev_ctor (k : nat) (e : event) : bool := match e with ECtor _ k' => Nat.eqb k k' | _ => false end.
Definition ev_dtor (k : nat) (e : event) : bool := match e with EDtor _ k' => Nat.eqb k k' | _ => false end.
Definition ev_reg (k : nat) (e : event) : bool := match e with EReg k' => Nat.eqb k k' | _ => false end.
Definition ev_defer (k : nat) (e : event) : bool := match e with EDefer k' => Nat.eqb k k' | _ => false end.
Definition count (f : event -> bool) (t : list event) : nat := length (filter f t).

(* the prefix half of J, read with two tests on events that agree with c and d at k *)
Lemma pref_ok_count : forall c d gc gd k t, pref_ok c d t ->
  (forall e, hit c k e = gc e) -> (forall e, hit d k e = gd e) ->
  forall t1 t2, t = t1 ++ t2 -> count gd t1 <= count gc t1.
Proof.
  intros c d gc gd k t H Hc Hd t1 t2 E. unfold count.
  rewrite <- (filter_ext _ _ Hc), <- (filter_ext _ _ Hd). exact (H t1 t2 E k).
Qed.
