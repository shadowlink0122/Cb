(* C06 - the structural Spec has the shape the property text demands: the transcript of a complete run
   is well bracketed for objects (ctor/dtor) and for defers (reg/defer) - every object destroyed exactly
   once, every reached defer run exactly once, both LIFO, enclosed scopes closed before enclosing ones
   (by the refinement the same holds of the machine: Properties_C06.each_object_once_partial). *)
From Coq Require Import List Arith Bool.
Import ListNotations.
From Cb Require Import C06.Model.

(* two-stack bracket checker: (pending defers, live objects (type, identity)), innermost first *)
Fixpoint chk2 (sd : list nat) (so : list (ty * nat)) (t : list event) : option (list nat * list (ty * nat)) :=
  match t with
  | [] => Some (sd, so)
  | ECtor c k :: r => chk2 sd ((c, k) :: so) r
  | EDtor c k :: r => match so with
                    | (c', k') :: so' => if ty_eqb c c' && Nat.eqb k k' then chk2 sd so' r else None
                    | [] => None
                    end
  | EReg k :: r => chk2 (k :: sd) so r
  | EDefer k :: r => match sd with
                     | k' :: sd' => if Nat.eqb k k' then chk2 sd' so r else None
                     | [] => None
                     end
  | _ :: r => chk2 sd so r
  end.

Lemma chk2_app : forall a b sd so,
  chk2 sd so (a ++ b) = match chk2 sd so a with Some (sd', so') => chk2 sd' so' b | None => None end.
Proof.
  induction a as [|e a IH]; intros; simpl; auto.
  destruct e; auto.
  - destruct so as [|[c' k'] so']; auto. destruct (ty_eqb t c' && (k =? k')); auto.
  - destruct sd as [|k' sd']; auto. destruct (k =? k'); auto.
Qed.

Lemma ty_eqb_refl : forall c, ty_eqb c c = true.
Proof. destruct c; reflexivity. Qed.

Lemma chk2_dtors : forall m sd so, chk2 sd (m ++ so) (map dtor_ev m) = Some (sd, so).
Proof. induction m as [|[c k] m IH]; intros; simpl; auto. rewrite ty_eqb_refl, Nat.eqb_refl; simpl; apply IH. Qed.

Lemma chk2_ctors : forall m sd so, chk2 sd so (map ctor_ev m) = Some (sd, rev m ++ so).
Proof.
  induction m as [|[c k] m IH]; intros; simpl; auto.
  rewrite IH. now rewrite <- app_assoc.
Qed.

Lemma chk2_defers : forall m sd so, chk2 (m ++ sd) so (map EDefer m) = Some (sd, so).
Proof. induction m; intros; simpl; auto. now rewrite Nat.eqb_refl. Qed.

Lemma chk2_close : forall ND NT sd so,
  chk2 (rev ND ++ sd) (rev NT ++ so) (map EDefer (rev ND) ++ map dtor_ev (rev NT)) = Some (sd, so).
Proof. intros. rewrite chk2_app, chk2_defers. apply chk2_dtors. Qed.

(* what a statement (list) does to the Spec's lists of its scope and what it prints: the lists grow by ND, NT,
   and the transcript is well bracketed except that it leaves exactly these registered / alive *)
Definition grows (D D' : list nat) (T T' : list (ty * nat)) (t : list event) : Prop :=
  exists ND NT, D' = D ++ ND /\ T' = T ++ NT /\
                forall sd so, chk2 sd so t = Some (rev ND ++ sd, rev NT ++ so).

Lemma grows_nil : forall D T t, (forall sd so, chk2 sd so t = Some (sd, so)) -> grows D D T T t.
Proof. intros. exists [], []. rewrite !app_nil_r. auto. Qed.

Lemma grows_trans : forall D D1 D2 T T1 T2 t1 t2,
  grows D D1 T T1 t1 -> grows D1 D2 T1 T2 t2 -> grows D D2 T T2 (t1 ++ t2).
Proof.
  intros D D1 D2 T T1 T2 t1 t2 (ND1 & NT1 & -> & -> & H1) (ND2 & NT2 & -> & -> & H2).
  exists (ND1 ++ ND2), (NT1 ++ NT2). rewrite !app_assoc. split; [reflexivity|]. split; [reflexivity|].
  intros sd so. rewrite chk2_app, H1, H2, !rev_app_distr, !app_assoc. reflexivity.
Qed.

Section Spec.
Variable p : prog.

Definition Qs (fuel : nat) : Prop := forall n it s D T o t D' T',
  sexec fuel p n it s D T = Some (o, t, D', T') -> grows D D' T T' t.

Definition Qb (fuel : nat) : Prop := forall n it b D T o t D' T',
  sexec_b fuel p n it b D T = Some (o, t, D', T') -> grows D D' T T' t.

Definition Ql (fuel : nat) : Prop := forall n m i b o t,
  sloop fuel p n m i b = Some (o, t) -> forall sd so, chk2 sd so t = Some (sd, so).

Lemma scope_chk : forall f, Qb f -> forall n it b o t,
  scope_close (sexec_b f p n it b [] []) = Some (o, t) -> forall sd so, chk2 sd so t = Some (sd, so).
Proof.
  intros f HQ n it b o t E sd so.
  destruct (sexec_b f p n it b [] []) as [[[[o1 t1] D1] T1]|] eqn:EB; simpl in E; [|discriminate].
  injection E as <- <-.
  destruct (HQ _ _ _ _ _ _ _ _ _ EB) as (ND & NT & -> & -> & H). simpl.
  rewrite chk2_app, H. apply chk2_close.
Qed.

Lemma lift_grows : forall f, Qb f -> forall n it b D T o t D' T',
  lift_scope (scope_close (sexec_b f p n it b [] [])) D T = Some (o, t, D', T') -> grows D D' T T' t.
Proof.
  intros f HQ n it b D T o t D' T' E.
  destruct (scope_close (sexec_b f p n it b [] [])) as [[o1 t1]|] eqn:EC; simpl in E; [|discriminate].
  injection E as <- <- <- <-. apply grows_nil. eapply scope_chk; eauto.
Qed.

Lemma spec_all : forall fuel, Qs fuel /\ Qb fuel /\ Ql fuel.
Proof.
  induction fuel as [|f (IHs & IHb & IHl)].
  - repeat split; red; intros; simpl in *; discriminate.
  - split; [|split].
    + red; intros n it s D T o t D' T' E.
      destruct s; simpl in E.
      * injection E as <- <- <- <-. exists [], (obj_parts t0 (oid n k)). rewrite app_nil_r.
        split; [reflexivity|]. split; [reflexivity|]. intros. apply chk2_ctors.
      * injection E as <- <- <- <-. exists [oid n k], []. rewrite app_nil_r. auto.
      * injection E as <- <- <- <-. now apply grows_nil.
      * eapply lift_grows; eauto.
      * destruct (cond_true n it c); [eapply lift_grows; eauto|].
        destruct e as [|s' r']; [|eapply lift_grows; eauto].
        injection E as <- <- <- <-. now apply grows_nil.
      * destruct (sloop f p n n0 0 b) as [[o1 t1]|] eqn:EL; [|discriminate].
        apply IHl in EL. destruct o1; injection E as <- <- <- <-; now apply grows_nil.
      * destruct (scope_close (sexec_b f p (Init.Nat.pred n) None (body p f0) [] [])) as [[o1 t1]|] eqn:EC; [|discriminate].
        injection E as <- <- <- <-. apply grows_nil. eapply scope_chk; eauto.
      * injection E as <- <- <- <-. now apply grows_nil.
      * injection E as <- <- <- <-. now apply grows_nil.
      * injection E as <- <- <- <-. now apply grows_nil.
    + red; intros n it b D T o t D' T' E.
      destruct b as [|s r]; simpl in E.
      * injection E as <- <- <- <-. now apply grows_nil.
      * destruct (sexec f p n it s D T) as [[[[o1 t1] D1] T1]|] eqn:ES; [|discriminate].
        pose proof (IHs _ _ _ _ _ _ _ _ _ ES) as H1.
        destruct o1; try (injection E as <- <- <- <-; exact H1).
        destruct (sexec_b f p n it r D1 T1) as [[[[o2 t2] D2] T2]|] eqn:EB; [|discriminate].
        injection E as <- <- <- <-. eapply grows_trans; eauto.
    + red; intros n m i b o t E sd so. simpl in E.
      destruct (m <=? i); [injection E as <- <-; reflexivity|].
      destruct (scope_close (sexec_b f p n (Some i) b [] [])) as [[o1 t1]|] eqn:EC; [|discriminate].
      pose proof (scope_chk f IHb _ _ _ _ _ EC) as H1.
      destruct o1.
      * destruct (sloop f p n m (S i) b) as [[o2 t2]|] eqn:EL; [|discriminate].
        injection E as <- <-. rewrite chk2_app, H1. eapply IHl; eauto.
      * injection E as <- <-. apply H1.
      * injection E as <- <-. apply H1.
      * destruct (sloop f p n m (S i) b) as [[o2 t2]|] eqn:EL; [|discriminate].
        injection E as <- <-. rewrite chk2_app, H1. eapply IHl; eauto.
Qed.

(* main's body is a scope like any other *)
Lemma srun_brackets : forall fuel n0 t, srun fuel p n0 = Some (true, t) -> chk2 [] [] t = Some ([], []).
Proof.
  intros fuel n0 t E. unfold srun in E.
  assert (exists o, scope_close (sexec_b fuel p n0 None (body p 0) [] []) = Some (o, t)) as [o C].
  { destruct (sexec_b fuel p n0 None (body p 0) [] []) as [[[[o t1] D1] T1]|]; [|discriminate].
    destruct o; inversion E; simpl; eauto. }
  destruct (spec_all fuel) as (_ & HQ & _). exact (scope_chk fuel HQ _ _ _ _ _ C [] []).
Qed.
End Spec.
