(* C06 - Mech (the machine of the repaired code with its name-keyed destructor bookkeeping, Model.v)
   refines Spec for ALL programs in which no function body re-declares a live name (wf_prog; objects with
   a destructible member included since a registration resets destructor_called); every
   statement and every call restores both stacks and the variable scopes below its own level. *)
From Coq Require Import List Arith Bool.
Import ListNotations.
From Cb Require Import C06.Model C06.Prims.

(* the slots of the names in N are what they were *)
Definition agree (N : list name) (F F' : frame) : Prop := forall x, In x N -> lookup F' x = lookup F x.
Definition disj (A B : list name) : Prop := forall x, In x A -> ~ In x B.

Lemma agree_refl : forall N F, agree N F F.
Proof. red; auto. Qed.

Lemma agree_trans : forall N F1 F2 F3, agree N F1 F2 -> agree N F2 F3 -> agree N F1 F3.
Proof. unfold agree; intros. rewrite H0, H; auto. Qed.

(* running the destructors of a level leaves the slots of all other names alone *)
Lemma agree_flag_rev : forall N F l, disj l N -> agree N F (flag_names F (rev l)).
Proof. intros N F l H x Hx. apply lookup_flag_names_other. intro E. apply in_rev in E. exact (H x E Hx). Qed.

Lemma NoDup_app_disj : forall (l l' : list name), NoDup l -> NoDup l' ->
  (forall y, In y l' -> ~ In y l) -> NoDup (l ++ l').
Proof.
  induction l as [|a l IH]; intros l' H H' D; simpl; auto.
  inversion H; subst. constructor.
  - intro I. apply in_app_or in I. destruct I as [I|I]; [contradiction|]. apply (D a I). now left.
  - apply IH; auto. intros y Hy I. apply (D y Hy). now right.
Qed.

Lemma NoDup_app_cons_end : forall (l : list name) x, NoDup l -> ~ In x l -> NoDup (l ++ [x]).
Proof.
  intros l x ND NI. apply NoDup_app_disj; auto.
  - constructor; [intros []|constructor].
  - intros y [<-|[]]. exact NI.
Qed.

Lemma wf_body : forall p g, wf_prog p = true -> wf_b [] [] (body p g) = true.
Proof.
  intros p g H. unfold body, wf_prog in *.
  destruct (nth_in_or_default g p BNil) as [I|E].
  - eapply forallb_forall in H; eauto.
  - rewrite E. reflexivity.
Qed.

(* the pending entries Tm of the innermost level stand, over the frame F, for the Spec's objects T; their
   names are pairwise distinct and none is a name N0 of an enclosing block *)
Definition level (N0 : list name) (F : frame) (Tm : list (name * ty)) (T : list (ty * nat)) : Prop :=
  NoDup (names Tm) /\ disj (names Tm) N0 /\ lvl_ok F Tm T.

Lemma level_nil : forall N0 F, level N0 F [] [].
Proof. intros. split; [constructor|]. split; [intros x []|constructor]. Qed.

(* a frame that differs only outside the names in sight carries the same level *)
Lemma level_keep : forall N0 F F' Tm T, level N0 F Tm T -> agree (names Tm ++ N0) F F' ->
  level N0 F' Tm T /\ agree N0 F F'.
Proof.
  intros N0 F F' Tm T (ND & DJ & OK) AG. split; [split; [exact ND|split; [exact DJ|]]|].
  - eapply lvl_ok_change; [exact OK|]. intros x Hx. apply AG, in_or_app. now left.
  - intros x Hx. apply AG, in_or_app. now right.
Qed.

Lemma level_declare : forall N0 F Tm T x t id, level N0 F Tm T ->
  (forall y, In y (names (obj_entries x t)) -> ~ In y (names Tm ++ N0)) ->
  level N0 (obj_slots F x t id) (Tm ++ obj_entries x t) (T ++ obj_parts t id) /\
  agree N0 F (obj_slots F x t id).
Proof.
  intros N0 F Tm T x t id (ND & DJ & OK) WN.
  destruct (obj_level x t id F) as (OE & NE & LE). unfold level. rewrite names_app.
  split; [split; [|split]|].
  - apply NoDup_app_disj; auto. intros y Hy I. apply (WN y Hy), in_or_app. now left.
  - intros y Hy. apply in_app_or in Hy. destruct Hy as [Hy|Hy]; auto.
    intro I. apply (WN y Hy), in_or_app. now right.
  - apply Forall2_app; [|exact OE].
    eapply lvl_ok_change; [exact OK|]. intros y Hy. apply LE.
    intro I. apply (WN y I), in_or_app. now left.
  - intros y Hy. apply LE. intro I. apply (WN y I), in_or_app. now right.
Qed.

(* the machine state after a statement (list), relative to the Spec result D', T': the innermost level is
   either intact (pending entries with the names L, standing for T') or - after a `return` - cleared and
   already printed; F is the frame the statement started from *)
Definition intact (L N0 : list name) (F : frame) (st' : state) D' (T' : list (ty * nat)) Ds Ts Fs (t1 : list event) : Prop :=
  exists Tm' F', st' = mk (D' :: Ds) (Tm' :: Ts) (F' :: Fs) t1 /\
                 names Tm' = L /\ level N0 F' Tm' T' /\ agree N0 F F'.

Definition cleared (N0 : list name) (F : frame) (st' : state) (D' : list nat) (T' : list (ty * nat)) Ds Ts Fs (t1 : list event) : Prop :=
  exists F', st' = mk ([] :: Ds) ([] :: Ts) (F' :: Fs) (t1 ++ map EDefer (rev D') ++ map dtor_ev (rev T')) /\
             agree N0 F F'.

Definition rel (o : outcome) L N0 F st' D' T' Ds Ts Fs t1 : Prop :=
  intact L N0 F st' D' T' Ds Ts Fs t1 \/ (o = ORet /\ cleared N0 F st' D' T' Ds Ts Fs t1).

Lemma rel_intact : forall o L N0 F st' D' T' Ds Ts Fs t1, rel o L N0 F st' D' T' Ds Ts Fs t1 ->
  o <> ORet -> intact L N0 F st' D' T' Ds Ts Fs t1.
Proof. intros o L N0 F st' D' T' Ds Ts Fs t1 [I|[E _]] NE; [exact I|contradiction]. Qed.

(* the same result, related to a frame F0 from which F was reached *)
Lemma rel_base : forall o L N0 F0 F st' D' T' Ds Ts Fs t1, agree N0 F0 F ->
  rel o L N0 F st' D' T' Ds Ts Fs t1 -> rel o L N0 F0 st' D' T' Ds Ts Fs t1.
Proof.
  intros o L N0 F0 F st' D' T' Ds Ts Fs t1 AG [(Tm' & F' & E & EN & LV & AG')|[EO (F' & E & AG')]].
  - left. exists Tm', F'. eauto using agree_trans.
  - right. split; [exact EO|]. exists F'. eauto using agree_trans.
Qed.

(* closing the scope in either case gives the Spec's transcript; the enclosing levels' slots survive *)
Lemma rel_close : forall o L N0 F st' D' T' Ds Ts Fs t1, rel o L N0 F st' D' T' Ds Ts Fs t1 ->
  exists F', pop_destructor_scope st' = mk Ds Ts (F' :: Fs) (t1 ++ map EDefer (rev D') ++ map dtor_ev (rev T'))
             /\ agree N0 F F'.
Proof.
  intros o L N0 F st' D' T' Ds Ts Fs t1 [(Tm' & F' & -> & _ & (ND & DJ & OK) & AG)|[_ (F' & -> & AG)]].
  - erewrite pop_destructor_scope_cc by eassumption. eexists; split; [reflexivity|].
    eapply agree_trans; [exact AG|]. now apply agree_flag_rev.
  - rewrite pop_destructor_scope_empty. simpl. rewrite app_nil_r. eauto.
Qed.

Lemma rel_close_scope : forall o L N0 F st' D' T' Ds Ts Fs t1, rel o L N0 F st' D' T' Ds Ts Fs t1 ->
  pop_scope st' = mk Ds Ts Fs (t1 ++ map EDefer (rev D') ++ map dtor_ev (rev T')).
Proof.
  intros. rewrite pop_scope_unfold. destruct (rel_close _ _ _ _ _ _ _ _ _ _ _ H) as (F' & -> & _). reflexivity.
Qed.

Lemma rel_declare : forall x t id N0 D Tm T Ds Ts F Fs t0, level N0 F Tm T ->
  forallb (fun y => negb (mem_name y (names Tm ++ N0))) (names (obj_entries x t)) = true ->
  rel ONormal (names Tm ++ names (obj_entries x t)) N0 F
      (declare_obj x t id (mk (D :: Ds) (Tm :: Ts) (F :: Fs) t0)) D (T ++ obj_parts t id) Ds Ts Fs
      (t0 ++ map ctor_ev (obj_parts t id)).
Proof.
  intros x t id N0 D Tm T Ds Ts F Fs t0 LV W. rewrite forallb_forall in W.
  destruct (level_declare N0 F Tm T x t id LV) as (LV' & AG).
  { intros y Hy. apply mem_name_false, negb_true_iff. now apply W. }
  rewrite declare_obj_cc. left. eexists _, _. split; [reflexivity|]. split; [apply names_app|]. auto.
Qed.

Lemma rel_defer : forall k N0 D Tm T Ds Ts F Fs t0, level N0 F Tm T ->
  rel ONormal (names Tm ++ []) N0 F (defer_stmt k (mk (D :: Ds) (Tm :: Ts) (F :: Fs) t0)) (D ++ [k]) T Ds Ts Fs
      (t0 ++ [EReg k]).
Proof. intros. rewrite defer_stmt_cc. left. exists Tm, F. rewrite app_nil_r. auto using agree_refl. Qed.

Lemma rel_return : forall L N0 D Tm T Ds Ts F Fs t0, level N0 F Tm T ->
  rel ORet L N0 F (pre_return_cleanup (mk (D :: Ds) (Tm :: Ts) (F :: Fs) t0)) D T Ds Ts Fs (t0 ++ []).
Proof.
  intros L N0 D Tm T Ds Ts F Fs t0 (ND & DJ & OK). erewrite pre_return_cleanup_cc by eassumption.
  right. split; [reflexivity|]. rewrite app_nil_r. eexists; split; [reflexivity|]. now apply agree_flag_rev.
Qed.

(* Spec result vs machine result of a statement (list) run in the level (D :: Ds, Tm :: Ts, F :: Fs) with
   transcript t0 *)
Definition ref_s (rs : option sres) (rm : option (outcome * state)) L N0 F Ds Ts Fs t0 : Prop :=
  match rs with
  | None => rm = None
  | Some (o, t, D', T') => exists st', rm = Some (o, st') /\ rel o L N0 F st' D' T' Ds Ts Fs (t0 ++ t)
  end.

(* the same for something that closes every scope it opens: both stacks come back as they were, the innermost
   frame keeps the slots of the names N *)
Definition ref_scope (rs : option (outcome * list event)) (rm : option (outcome * state)) N F Xs Ys Fs t0 : Prop :=
  match rs with
  | None => rm = None
  | Some (o, t) => exists F', rm = Some (o, mk Xs Ys (F' :: Fs) (t0 ++ t)) /\ agree N F F'
  end.

Lemma ref_scope_intro : forall o t N F F' Xs Ys Fs t0 t1, t1 = t0 ++ t -> agree N F F' ->
  ref_scope (Some (o, t)) (Some (o, mk Xs Ys (F' :: Fs) t1)) N F Xs Ys Fs t0.
Proof. intros; subst. exists F'. auto. Qed.

Lemma ref_scope_seq : forall rs rm N F F1 Xs Ys Fs t0 t, agree N F F1 ->
  ref_scope rs rm N F1 Xs Ys Fs (t0 ++ t) ->
  ref_scope (match rs with None => None | Some (o, t2) => Some (o, t ++ t2) end) rm N F Xs Ys Fs t0.
Proof.
  intros [[o t2]|] rm N F F1 Xs Ys Fs t0 t AG R; simpl in *; [|exact R].
  destruct R as (F2 & -> & AG2). exists F2. rewrite app_assoc. eauto using agree_trans.
Qed.

(* seen from the level it runs in, such a statement leaves the level as it is *)
Lemma ref_keep : forall rs rm N0 D Tm T Ds Ts F Fs t0, level N0 F Tm T ->
  ref_scope rs rm (names Tm ++ N0) F (D :: Ds) (Tm :: Ts) Fs t0 ->
  ref_s (lift_scope rs D T) rm (names Tm ++ []) N0 F Ds Ts Fs t0.
Proof.
  intros [[o t]|] rm N0 D Tm T Ds Ts F Fs t0 LV R; simpl in *; [|exact R].
  destruct R as (F' & -> & AG). destruct (level_keep _ _ _ _ _ LV AG) as (LV' & AG').
  eexists; split; [reflexivity|]. left. exists Tm, F'. rewrite app_nil_r. auto.
Qed.

(* a block: its own level is closed on every path *)
Lemma block_close : forall rs rm L N0 Xs Ys F Fs t0, ref_s rs rm L N0 F Xs Ys Fs t0 ->
  ref_scope (scope_close rs) (compound_close rm) N0 F Xs Ys Fs t0.
Proof.
  intros [[[[o t] D'] T']|] rm L N0 Xs Ys F Fs t0 R; simpl in *; [|now subst].
  destruct R as (st' & -> & R). simpl.
  destruct (rel_close _ _ _ _ _ _ _ _ _ _ _ R) as (F' & -> & AG).
  exists F'. now rewrite <- app_assoc.
Qed.

(* a call: the callee's body runs in a level and a frame of its own, which pop_scope takes away again *)
Lemma call_close : forall rs rm g L D Ds Tm Ts F Fs t0,
  ref_s rs rm L [] [] (D :: Ds) (Tm :: Ts) (F :: Fs) t0 ->
  match rm with
  | None => None
  | Some (o, st') => Some (call_outcome o, guard_report g (mk (D :: Ds) (Tm :: Ts) (F :: Fs) t0) (pop_scope st'))
  end =
  match scope_close rs with
  | None => None
  | Some (o, t) => Some (call_outcome o, mk (D :: Ds) (Tm :: Ts) (F :: Fs) (t0 ++ t))
  end.
Proof.
  intros [[[[o t] D'] T']|] rm g L D Ds Tm Ts F Fs t0 R; simpl in *; [|now subst].
  destruct R as (st' & -> & R). erewrite rel_close_scope by eassumption.
  rewrite guard_report_same by reflexivity. now rewrite <- app_assoc.
Qed.

Section Ref.
Variable p : prog.
Hypothesis WFP : wf_prog p = true.

Definition Ps (fuel : nat) : Prop := forall n it s N0 D Tm T Ds Ts F Fs t0,
  wf_s (names Tm ++ N0) s = true -> level N0 F Tm T ->
  ref_s (sexec fuel p n it s D T) (mexec fuel p n it s (mk (D :: Ds) (Tm :: Ts) (F :: Fs) t0))
        (names Tm ++ decl_s s) N0 F Ds Ts Fs t0.

Definition Pb (fuel : nat) : Prop := forall n it b N0 D Tm T Ds Ts F Fs t0,
  wf_b (names Tm) N0 b = true -> level N0 F Tm T ->
  exists L, ref_s (sexec_b fuel p n it b D T) (mexec_b fuel p n it b (mk (D :: Ds) (Tm :: Ts) (F :: Fs) t0))
                  L N0 F Ds Ts Fs t0.

Definition Pl (fuel : nat) : Prop := forall n m i b N0 Xs Ys F Fs t0,
  wf_b [] N0 b = true ->
  ref_scope (sloop fuel p n m i b) (mloop fuel p n m i b (mk Xs Ys (F :: Fs) t0)) N0 F Xs Ys Fs t0.

Lemma compound_ref : forall f, Pb f -> forall n it b N0 Xs Ys F Fs t0, wf_b [] N0 b = true ->
  ref_scope (scope_close (sexec_b f p n it b [] []))
            (compound_close (mexec_b f p n it b (push_destructor_scope (mk Xs Ys (F :: Fs) t0))))
            N0 F Xs Ys Fs t0.
Proof.
  intros f HF n it b N0 Xs Ys F Fs t0 W.
  destruct (HF n it b N0 [] [] [] Xs Ys F Fs t0 W (level_nil _ _)) as [L R].
  exact (block_close _ _ _ _ _ _ _ _ _ R).
Qed.

Lemma call_ref : forall f, Pb f -> forall n g D Ds Tm Ts F Fs t0,
  match mexec_b f p n None (body p g) (push_scope (mk (D :: Ds) (Tm :: Ts) (F :: Fs) t0)) with
  | None => None
  | Some (o, st') => Some (call_outcome o, guard_report g (mk (D :: Ds) (Tm :: Ts) (F :: Fs) t0) (pop_scope st'))
  end =
  match scope_close (sexec_b f p n None (body p g) [] []) with
  | None => None
  | Some (o, t) => Some (call_outcome o, mk (D :: Ds) (Tm :: Ts) (F :: Fs) (t0 ++ t))
  end.
Proof.
  intros f HF n g D Ds Tm Ts F Fs t0.
  destruct (HF n None (body p g) [] [] [] [] (D :: Ds) (Tm :: Ts) [] (F :: Fs) t0
               (wf_body p g WFP) (level_nil _ _)) as [L R].
  exact (call_close _ _ g _ _ _ _ _ _ _ _ R).
Qed.

Lemma ref_all : forall fuel, Ps fuel /\ Pb fuel /\ Pl fuel.
Proof.
  induction fuel as [|f (IHs & IHb & IHl)].
  - repeat split; red; intros; simpl; eauto.
  - split; [|split].
    + red; intros n it s N0 D Tm T Ds Ts F Fs t0 W LV.
      pose proof (fun rs rm => ref_keep rs rm N0 D Tm T Ds Ts F Fs t0 LV) as KEEP.
      pose proof (fun b => compound_ref f IHb n it b (names Tm ++ N0) (D :: Ds) (Tm :: Ts) F Fs t0) as BLOCK.
      destruct s; cbn [sexec mexec wf_s decl_s] in W |- *.
      * eexists; split; [reflexivity|]. now apply rel_declare.
      * eexists; split; [reflexivity|]. now apply rel_defer.
      * apply (KEEP (Some (ONormal, [EMark k]))), ref_scope_intro; [reflexivity|apply agree_refl].
      * apply KEEP, BLOCK, W.
      * apply andb_true_iff in W. destruct W as [W1 W2]. destruct (cond_true n it c).
        -- apply KEEP, BLOCK, W1.
        -- destruct e as [|s' r'].
           ++ apply (KEEP (Some (ONormal, []))), ref_scope_intro; [symmetry; apply app_nil_r|apply agree_refl].
           ++ apply KEEP, BLOCK, W2.
      * (* the loop's own defer level stays empty: its pop prints nothing *)
        pose proof (IHl n n0 0 b (names Tm ++ N0) ([] :: D :: Ds) (Tm :: Ts) F Fs t0 W) as L.
        unfold push_defer_scope; cbn [dfs dts vars tr].
        destruct (sloop f p n n0 0 b) as [[o t]|]; simpl in L.
        -- destruct L as (F' & -> & AG).
           destruct o; rewrite pop_defer_scope_cons;
             (apply (KEEP (Some (_, t))), ref_scope_intro; [apply app_nil_r|exact AG]).
        -- now rewrite L.
      * rewrite (call_ref f IHb).
        destruct (scope_close (sexec_b f p (pred n) None (body p f0) [] [])) as [[o t]|]; [|reflexivity].
        apply (KEEP (Some (call_outcome o, t))), ref_scope_intro; [reflexivity|apply agree_refl].
      * eexists; split; [reflexivity|]. now apply rel_return.
      * apply (KEEP (Some (OBrk, []))), ref_scope_intro; [symmetry; apply app_nil_r|apply agree_refl].
      * apply (KEEP (Some (OCont, []))), ref_scope_intro; [symmetry; apply app_nil_r|apply agree_refl].
    + red; intros n it b N0 D Tm T Ds Ts F Fs t0 W LV.
      destruct b as [|s r]; cbn [sexec_b mexec_b wf_b] in W |- *.
      * exists (names Tm). eexists; split; [reflexivity|]. rewrite app_nil_r.
        left. exists Tm, F. auto using agree_refl.
      * apply andb_true_iff in W. destruct W as [W1 W2].
        pose proof (IHs n it s N0 D Tm T Ds Ts F Fs t0 W1 LV) as HS.
        destruct (sexec f p n it s D T) as [[[[o t] D1] T1]|]; simpl in HS.
        -- destruct HS as (st1 & -> & R).
           destruct o; try (eexists; eexists; split; [reflexivity|exact R]).
           (* the rest of the list runs in the level the statement has left *)
           destruct (rel_intact _ _ _ _ _ _ _ _ _ _ _ R ltac:(discriminate))
             as (Tm1 & F1 & -> & EN & LV1 & AG1).
           rewrite <- EN in W2.
           destruct (IHb n it r N0 D1 Tm1 T1 Ds Ts F1 Fs (t0 ++ t) W2 LV1) as [L HB].
           exists L. destruct (sexec_b f p n it r D1 T1) as [[[[o2 t2] D2] T2]|]; simpl in HB |- *; [|exact HB].
           destruct HB as (st2 & -> & R2). rewrite app_assoc.
           eexists; split; [reflexivity|]. exact (rel_base _ _ _ _ _ _ _ _ _ _ _ _ AG1 R2).
        -- exists []. now rewrite HS.
    + red; intros n m i b N0 Xs Ys F Fs t0 W. cbn [sloop mloop].
      destruct (m <=? i).
      * apply ref_scope_intro; [symmetry; apply app_nil_r|apply agree_refl].
      * pose proof (compound_ref f IHb n (Some i) b N0 Xs Ys F Fs t0 W) as C.
        destruct (scope_close (sexec_b f p n (Some i) b [] [])) as [[o t]|]; simpl in C; [|now rewrite C].
        destruct C as (F1 & -> & AG1).
        pose proof (ref_scope_seq _ _ _ _ _ _ _ _ _ t AG1 (IHl n m (S i) b N0 Xs Ys F1 Fs (t0 ++ t) W)) as NEXT.
        destruct o; [exact NEXT|exists F1; auto|exists F1; auto|exact NEXT].
Qed.
End Ref.
