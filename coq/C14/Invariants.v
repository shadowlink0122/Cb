(* C14 - facts about execute_one_step and runs of steps that hold for EVERY body (also outside the
   fragment of the refinement theorem). *)
From Coq Require Import List ZArith Bool.
From Cb Require Import C14.Model.
Import ListNotations.

(* the ways a step of task t can go: nothing to do, past the last statement, or the statement at the
   saved index run to one of the four outcomes; what every case has in common is closed by auto *)
Ltac step_cases t :=
  unfold mstep; destruct (t_done t || t_stuck t) eqn:?; [cbn; auto |];
  destruct (nth_error (t_body t) (t_idx t)) eqn:?; [| cbn; auto];
  match goal with |- context [mexec ?a ?f ?b ?p ?s ?st] => destruct (mexec a f b p s st) as [? [| fl | v |]] end; cbn; auto.

Section I.
Variable aw : nat -> Z -> Z.
Variable fuel : nat.

Lemma body_step : forall t, t_body (fst (mstep aw fuel t)) = t_body t /\ t_auto (fst (mstep aw fuel t)) = t_auto t.
Proof. intros t. step_cases t. Qed.

(* a task that is complete, or stuck in the model's sense, is never executed again and produces nothing *)
Lemma halted_final : forall t, t_done t || t_stuck t = true -> forall n, mrun aw fuel n t = (t, []).
Proof.
  intros t H. induction n; [reflexivity |]. cbn. unfold mstep at 1. rewrite H. now rewrite IHn.
Qed.

Lemma mrun_app : forall n1 n2 t t1 e1 t2 e2,
  mrun aw fuel n1 t = (t1, e1) -> mrun aw fuel n2 t1 = (t2, e2) -> mrun aw fuel (n1 + n2) t = (t2, e1 ++ e2).
Proof.
  induction n1 as [| n1 IH]; intros n2 t t1 e1 t2 e2 H1 H2; cbn in *.
  - inversion H1; subst. exact H2.
  - destruct (mstep aw fuel t) as [ta ea]. destruct (mrun aw fuel n1 ta) as [tb eb] eqn:Eb.
    inversion H1; subst. rewrite (IH n2 ta t1 eb t2 e2 Eb H2). now rewrite app_assoc.
Qed.

End I.

Lemma outputs_of_app : forall a b, outputs_of (a ++ b) = outputs_of a ++ outputs_of b.
Proof.
  induction a as [| e a IH]; intros b; cbn; [reflexivity |].
  destruct e; cbn; rewrite ?IH; reflexivity.
Qed.

Lemma outputs_of_out_events : forall o, outputs_of (out_events o) = o.
Proof. unfold out_events. induction o as [| [k v] o IH]; cbn; [reflexivity |]. now rewrite IH. Qed.
