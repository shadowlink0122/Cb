(* C14 - concrete bodies on which the faithful model of the pinned code does NOT run the body as it
   runs alone (each is replayed on the real interpreter: known_findings/C14.json). *)
From Coq Require Import List ZArith.
From Cb Require Import C14.Model.
Import ListNotations.

Definition aw0 : nat -> Z -> Z := fun _ _ => 0%Z.

(* the task completes, the body alone terminates, and the two outputs differ *)
Definition violates (body : list stmt) (args : locals) : Prop :=
  exists n t ev o l r,
    mrun aw0 10 n (spawn body args) = (t, ev) /\ t_done t = true /\ t_stuck t = false /\
    spec_run aw0 10 body args = (l, o, r) /\ r <> SFuel /\ outputs_of ev <> o.

(* k step grants: the run of the task and the run of the body alone are evaluated (closed terms),
   the other parts are read off the two results *)
Ltac witness k :=
  unfold violates; exists k; do 5 eexists;
  split; [vm_compute; reflexivity |];
  split; [reflexivity |]; split; [reflexivity |];
  split; [vm_compute; reflexivity |];
  split; [discriminate | discriminate].

Definition v0 := EVar 0.
Definition lt0 (e : expr) := ELt (EConst 0) e.
Definition forloop (x : var) (n : Z) (b : list stmt) :=
  SFor x (EConst 0) (ELt (EVar x) (EConst n)) (EAdd (EVar x) (EConst 1)) b.

(* #26: if (0 < v0) { emit; yield; emit } emit *)
Definition w_yield_in_block : list stmt :=
  [SIf (lt0 v0) [SEmit 0 v0; SYield; SEmit 1 v0] []; SEmit 2 v0].

(* #45: while (0 < v0) { v0 = v0 - 1; emit; yield; emit } return 99 *)
Definition w_yield_in_loop : list stmt :=
  [SWhile (lt0 v0) [SAssign 0 (ESub v0 (EConst 1)); SEmit 0 v0; SYield; SEmit 1 v0]; SReturn (EConst 99)].

(* if (v0 == 0) { for (..3) { v0 = v0 + 1; emit } } else { emit } emit : no yield statement at all *)
Definition w_loop_in_branch : list stmt :=
  [SIf (EEq v0 (EConst 0)) [forloop 100 3 [SAssign 0 (EAdd v0 (EConst 1)); SEmit 0 v0]] [SEmit 1 v0]; SEmit 2 v0].

(* for (i..2) { for (j..2) { emit 2i+j } } : no yield statement at all *)
Definition w_nested_loops : list stmt :=
  [forloop 100 2 [forloop 101 2 [SEmit 0 (EAdd (EAdd (EVar 100) (EVar 100)) (EVar 101))]]].

(* for (i..2) { emit } for (i..2) { emit } : before fix 4fa4431 the second loop never ran; the body is
   now inside the proved fragment (corpus/c14.json keeps it as a regression input) *)
Definition w_for_var_reuse : list stmt :=
  [forloop 100 2 [SEmit 0 (EVar 100)]; forloop 100 2 [SEmit 1 (EVar 100)]].
Example w_for_var_reuse_fixed :
  wf_body [O; 1; 2] w_for_var_reuse = true /\
  outputs_of (snd (mrun aw0 10 10 (spawn w_for_var_reuse [(O, 0%Z)]))) = [(0, 0%Z); (0, 1%Z); (1, 0%Z); (1, 1%Z)].
Proof. vm_compute. split; reflexivity. Qed.

(* the outputs, for the record *)
Example w_yield_in_block_out :
  outputs_of (snd (mrun aw0 10 10 (spawn w_yield_in_block [(O, 1%Z)]))) = [(0, 1%Z); (2, 1%Z)] /\
  snd (fst (spec_run aw0 10 w_yield_in_block [(O, 1%Z)])) = [(0, 1%Z); (1, 1%Z); (2, 1%Z)].
Proof. vm_compute. split; reflexivity. Qed.

Example w_yield_in_loop_out :
  outputs_of (snd (mrun aw0 10 10 (spawn w_yield_in_loop [(O, 2%Z)]))) = [(0, 1%Z); (1, 1%Z); (0, 0%Z)] /\
  snd (fst (spec_run aw0 10 w_yield_in_loop [(O, 2%Z)])) = [(0, 1%Z); (1, 1%Z); (0, 0%Z); (1, 0%Z)].
Proof. vm_compute. split; reflexivity. Qed.

Example w_nested_loops_out :
  outputs_of (snd (mrun aw0 10 10 (spawn w_nested_loops [(O, 0%Z)]))) = [(0, 0%Z); (0, 3%Z)] /\
  snd (fst (spec_run aw0 10 w_nested_loops [(O, 0%Z)])) = [(0, 0%Z); (0, 1%Z); (0, 2%Z); (0, 3%Z)].
Proof. vm_compute. split; reflexivity. Qed.

(* a body of the fragment (hypotheses of the refinement theorem are satisfiable) *)
Definition ex_fragment : list stmt :=
  [SEmit 0 v0; SYield;
   SWhile (lt0 (EVar 1)) [SAssign 1 (ESub (EVar 1) (EConst 1)); SIf (EEq (EVar 1) (EConst 1)) [SEmit 1 (EVar 1)] [SEmit 2 v0]];
   forloop 100 2 [SAwait 0 0 (EVar 100); SEmit 3 v0];
   forloop 100 1 [SEmit 5 (EVar 100)];
   SWhile (lt0 (EVar 2)) [SAssign 2 (ESub (EVar 2) (EConst 1)); SEmit 4 (EVar 2); SYield];
   SYield; SReturn (EAdd v0 (EConst 7))].
Example ex_fragment_wf : wf_body [O; 1%nat; 2%nat] ex_fragment = true.
Proof. vm_compute. reflexivity. Qed.
