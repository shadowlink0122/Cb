(* C14 - property theorems only: "each task runs its body once, in order" as a statement about the whole
   event trace of one task, for EVERY body (also outside the fragment of resume_refines_sequential_partial,
   including the bodies of the refuted witnesses), every await oracle, every loop bound, every number of
   step grants. Statements are about the Mech model of execute_one_step (Model.v); proofs in Order.v. *)
From Coq Require Import List ZArith Bool.
From Cb Require Import C14.Model C14.Invariants C14.Witness C14.Order.
Import ListNotations.

(* The trace of a task obeys [in_order] from its saved statement index: top-level statements are entered in
   index order without gaps; a statement is entered a second time only when the step before ended with a
   yield taken inside a loop of that very statement (EvYield true i: the resume point); after a yield
   between statements the next one follows; nothing is entered after a return. *)
Theorem task_trace_in_order : forall aw fuel n t, in_order (t_idx t) (snd (mrun aw fuel n t)) = true.
Proof. exact trace_in_order. Qed.
Print Assumptions task_trace_in_order.

(* for a freshly spawned task: from statement 0 *)
Theorem spawned_task_trace_in_order : forall aw fuel n body args,
  in_order 0 (snd (mrun aw fuel n (spawn body args))) = true.
Proof. intros aw fuel n body args. exact (trace_in_order aw fuel n (spawn body args)). Qed.
Print Assumptions spawned_task_trace_in_order.

(* a task that ran out of loop fuel is never executed again (the model's error value is final too) *)
Theorem stuck_task_is_final : forall aw fuel t, t_stuck t = true -> forall n, mrun aw fuel n t = (t, []).
Proof. intros aw fuel t H. apply halted_final. now rewrite H, orb_true_r. Qed.
Print Assumptions stuck_task_is_final.

(* the predicate discriminates: statement entered twice / skipped / backwards / after a return / resumed
   without a loop yield / wrong start are all rejected; a trace with a loop resume is accepted *)
Theorem in_order_is_not_trivial :
  in_order 0 [EvExec 0; EvExec 0] = false /\ in_order 0 [EvExec 0; EvExec 2] = false /\
  in_order 0 [EvExec 0; EvExec 1; EvExec 0] = false /\ in_order 0 [EvExec 0; EvReturn 0; EvExec 1] = false /\
  in_order 0 [EvExec 0; EvYield false 0; EvExec 0] = false /\ in_order 0 [EvExec 1] = false /\
  in_order 0 [EvExec 0; EvOut 0 1%Z; EvYield true 0; EvExec 0; EvYield false 0; EvExec 1; EvReturn 1] = true.
Proof. repeat split. Qed.
Print Assumptions in_order_is_not_trivial.

(* non-vacuity: the trace of the yield-in-loop witness (a body outside the refinement fragment) has a loop
   resume and a return, and is in order *)
Example trace_somewhere :
  let ev := snd (mrun aw0 10 10 (spawn w_yield_in_loop [(O, 2%Z)])) in
  In (EvYield true 0) ev /\ In (EvReturn 1) ev /\ in_order 0 ev = true.
Proof. vm_compute. repeat split; auto 20. Qed.
