(* C14 - data path of a task result:  ReturnException  ->  AsyncTask.return_* / internal_future.value
   (SimpleEventLoop::execute_one_step, catch (const ReturnException &e), simple_event_loop.cpp)
   ->  TypedValue returned by `await`  (BinaryAndUnaryOperators::evaluate_await, binary_unary.cpp;
   both the "not ready" and the "is_ready" branch read task->internal_future["value"] through the
   same if-chain)  ->  what the awaiting code receives (TypedValue::as_numeric / as_string /
   struct_data, type_inference.h).  Definitions and their lemmas (pure data, no recursion). *)
From Coq Require Import List ZArith Bool String.
Import ListNotations.
Local Open Scope Z_scope.
Local Open Scope string_scope.

Inductive tinfo := TUnknown | TInt | TLong | TBool | TString | TFloat | TDouble | TQuad | TStruct | TEnum.

Definition tinfo_eqb (a b : tinfo) : bool :=
  match a, b with
  | TUnknown, TUnknown | TInt, TInt | TLong, TLong | TBool, TBool | TString, TString
  | TFloat, TFloat | TDouble, TDouble | TQuad, TQuad | TStruct, TStruct | TEnum, TEnum => true
  | _, _ => false
  end.

Definition is_floating (t : tinfo) : bool :=
  match t with TFloat | TDouble | TQuad => true | _ => false end.

Inductive mval := MInt (z : Z) | MStr (s : string).

(* the part of `struct Variable` that the path touches *)
Record variable := mkV {
  v_type : tinfo;
  v_value : Z;
  v_str : string;
  v_dbl : Z;                         (* stands for double_value (never compared as a float) *)
  v_is_struct : bool;
  v_is_enum : bool;
  v_assigned : bool;
  v_struct_name : string;            (* struct_type_name *)
  v_enum_type : string;              (* enum_type_name *)
  v_enum_variant : string;
  v_members : list (string * mval);  (* struct_members, flattened *)
  v_has_assoc : bool;                (* has_associated_value *)
  v_assoc_int : Z;
  v_assoc_str : string
}.

(* Future.value as created at the async call (call_impl.cpp): type UNKNOWN, value 0, assigned *)
Definition fresh_slot : variable :=
  mkV TUnknown 0 "" 0 false false true "" "" "" [] false 0 "".

Record retexc := mkR {
  r_type : tinfo; r_value : Z; r_str : string; r_dbl : Z; r_is_struct : bool; r_struct : variable
}.

(* the ReturnException constructors used by `return e;` *)
Definition ret_int (z : Z) (t : tinfo) : retexc := mkR t z "" z false fresh_slot.
Definition ret_string (s : string) : retexc := mkR TString 0 s 0 false fresh_slot.
Definition ret_struct (v : variable) : retexc := mkR (v_type v) 0 "" 0 true v.
Definition ret_enum (z : Z) : retexc := mkR TEnum z "" z false fresh_slot.   (* old-style enum value *)

(* Variable enum_var built for e.type == TYPE_ENUM *)
Definition enum_var (z : Z) : variable :=
  if Z.eqb z 1
  then mkV TEnum z "" 0 true true true "Option" "Option" "None" [] false 0 ""
  else mkV TEnum z "" 0 true true true "UnknownEnum" "UnknownEnum" "" [] false 0 "".

Definition starts_with_Future (s : string) : bool := String.prefix "Future" s.

(* task.return_is_struct / task.return_struct_value after the first if-chain *)
Definition task_ret_struct (e : retexc) : bool * variable :=
  if r_is_struct e then (true, r_struct e)
  else if tinfo_eqb (r_type e) TString then (false, fresh_slot)
  else if tinfo_eqb (r_type e) TEnum then (true, enum_var (r_value e))
  else (false, fresh_slot).

Definition set_assigned (v : variable) : variable :=
  mkV (v_type v) (v_value v) (v_str v) (v_dbl v) (v_is_struct v) (v_is_enum v) true
      (v_struct_name v) (v_enum_type v) (v_enum_variant v) (v_members v) (v_has_assoc v)
      (v_assoc_int v) (v_assoc_str v).

(* internal_future.struct_members["value"] after the ReturnException handler ("normal" branch:
   the returned value is not itself a Future) *)
Definition store_return (e : retexc) (slot : variable) : variable :=
  let (ris, rsv) := task_ret_struct e in
  set_assigned
    (if tinfo_eqb (r_type e) TString then
       mkV TString (v_value slot) (r_str e) (v_dbl slot) (v_is_struct slot) (v_is_enum slot)
           (v_assigned slot) (v_struct_name slot) (v_enum_type slot) (v_enum_variant slot)
           (v_members slot) (v_has_assoc slot) (v_assoc_int slot) (v_assoc_str slot)
     else if is_floating (r_type e) then
       mkV (r_type e) (v_value slot) (v_str slot) (r_dbl e) (v_is_struct slot) (v_is_enum slot)
           (v_assigned slot) (v_struct_name slot) (v_enum_type slot) (v_enum_variant slot)
           (v_members slot) (v_has_assoc slot) (v_assoc_int slot) (v_assoc_str slot)
     else if r_is_struct e || ris then (if ris then rsv else r_struct e)
     else
       mkV TInt (r_value e) (v_str slot) (v_dbl slot) (v_is_struct slot) (v_is_enum slot)
           (v_assigned slot) (v_struct_name slot) (v_enum_type slot) (v_enum_variant slot)
           (v_members slot) (v_has_assoc slot) (v_assoc_int slot) (v_assoc_str slot)).

(* TypedValue, reduced to what the four constructors used by evaluate_await set *)
Inductive typed_value :=
| TVStruct (v : variable) (tname : string)      (* TypedValue(const Variable&, InferredType) *)
| TVString (s : string)
| TVFloat (d : Z) (t : tinfo)
| TVInt (z : Z).

Definition await_extract (value_member : variable) : typed_value :=
  if v_is_enum value_member || v_is_struct value_member then
    TVStruct value_member (if v_is_enum value_member then v_enum_type value_member
                           else v_struct_name value_member)
  else if tinfo_eqb (v_type value_member) TString then TVString (v_str value_member)
  else if is_floating (v_type value_member) then TVFloat (v_dbl value_member) (v_type value_member)
  else TVInt (v_value value_member).

(* TypedValue::as_numeric: 0 unless is_numeric() *)
Definition as_numeric (tv : typed_value) : Z :=
  match tv with TVInt z => z | TVFloat d _ => d | _ => 0 end.

Definition as_string (tv : typed_value) : string :=
  match tv with TVString s => s | _ => "" end.

Definition as_struct (tv : typed_value) : option variable :=
  match tv with TVStruct v _ => Some v | _ => None end.

(* what `await` yields for a task that returned with exception e (first or repeated await, task
   finished before or during the await: every branch reads the same member) *)
Definition await_of (e : retexc) : typed_value := await_extract (store_return e fresh_slot).

(* a task that ended without `return`: Future.value is still the fresh slot *)
Definition await_of_no_return : typed_value := await_extract fresh_slot.

(* a struct / Option / Result value (any Variable marked is_struct or is_enum whose own type tag is
   not string or floating) arrives unchanged except for is_assigned = true *)
Lemma await_of_ret_struct : forall v,
  v_type v <> TString -> is_floating (v_type v) = false ->
  v_is_struct v || v_is_enum v = true ->
  as_struct (await_of (ret_struct v)) = Some (set_assigned v).
Proof.
  intros v Hs Hf Hk. unfold await_of, store_return, ret_struct, task_ret_struct. cbn.
  destruct (tinfo_eqb (v_type v) TString) eqn:E.
  - destruct (v_type v); try discriminate. congruence.
  - rewrite Hf. unfold await_extract. cbn.
    destruct (v_is_enum v), (v_is_struct v); try discriminate; reflexivity.
Qed.

Lemma set_assigned_payload : forall v,
  v_members (set_assigned v) = v_members v /\ v_enum_variant (set_assigned v) = v_enum_variant v /\
  v_assoc_int (set_assigned v) = v_assoc_int v /\ v_assoc_str (set_assigned v) = v_assoc_str v /\
  v_struct_name (set_assigned v) = v_struct_name v /\ v_has_assoc (set_assigned v) = v_has_assoc v /\
  v_value (set_assigned v) = v_value v /\ v_type (set_assigned v) = v_type v.
Proof. intros; repeat split. Qed.
