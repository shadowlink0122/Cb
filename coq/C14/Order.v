(* C14 - "each task runs its body once, in order", as a statement about the whole event trace of a task,
   for EVERY body (also outside the fragment of the refinement theorem), every await oracle, every number
   of step grants: top-level statements are entered in index order without gaps; a statement is entered a
   second time only when the step before ended with a yield taken inside a loop of that very statement
   (the resume point); nothing is entered after a return. The predicate and the induction over the step
   grants; the property theorems are in Properties_C14_order.v *)
From Coq Require Import List ZArith Bool.
From Cb Require Import C14.Model C14.Invariants.
Import ListNotations.

Definition no_exec (evs : list event) : bool :=
  forallb (fun e => match e with EvExec _ => false | _ => true end) evs.

(* [in_order nxt evs]: nxt is the only top-level statement index that may be entered next *)
Fixpoint in_order (nxt : nat) (evs : list event) : bool :=
  match evs with
  | [] => true
  | EvExec i :: r => (i =? nxt) && in_order (S i) r
  | EvYield true i :: r => (S i =? nxt) && in_order i r          (* suspended inside a loop: resume statement i *)
  | EvYield false i :: r => (S i =? nxt) && in_order nxt r       (* suspended between statements *)
  | EvReturn i :: r => (S i =? nxt) && no_exec r
  | EvOut _ _ :: r => in_order nxt r
  end.

Section O.
Variable aw : nat -> Z -> Z.
Variable fuel : nat.

Lemma in_order_outs k o r : in_order k (out_events o ++ r) = in_order k r.
Proof. induction o as [|x o IH]; cbn; auto. Qed.

Lemma trace_in_order : forall n t, in_order (t_idx t) (snd (mrun aw fuel n t)) = true.
Proof.
  induction n as [|n IH]; intro t; [reflexivity|].
  cbn [mrun]. unfold mstep.
  destruct (t_done t || t_stuck t) eqn:Hd; [now rewrite (halted_final aw fuel t Hd) |].
  destruct (nth_error (t_body t) (t_idx t)) as [s|]; [| now rewrite halted_final].
  destruct (mexec aw fuel (t_auto t) [t_idx t] s (mkM (t_loc t) (t_pos t) [])) as [st [| fl | v | ]].
  (* after a return or out of fuel nothing follows; otherwise the rest of the run is in order from the new index *)
  3,4: rewrite halted_final by apply orb_true_r || reflexivity.
  1,2: match goal with |- context [mrun _ _ _ ?t1] => specialize (IH t1); destruct (mrun _ _ _ t1) as [t2 e2] end.
  all: cbn [snd t_idx app in_order] in *; rewrite Nat.eqb_refl, <- ?app_assoc, in_order_outs; cbn [app in_order andb].
  - exact IH.
  - destruct fl; rewrite Nat.eqb_refl; exact IH.
  - now rewrite Nat.eqb_refl.
  - reflexivity.
Qed.

End O.
