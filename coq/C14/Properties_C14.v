(* C14 - property theorems. Statements are about the Mech model of execute_one_step /
   execute_compound_statement / execute_if|while|for_statement (Model.v) and of the await data path
   (Await.v). The simulation behind the refinement is in Refine.v, the case analysis of one step
   in Invariants.v, the refuting bodies in Witness.v. *)
From Coq Require Import List ZArith String Lia.
From Cb Require Import C14.Model C14.Lemmas C14.Refine C14.Invariants C14.Witness C14.Await.
Import ListNotations.

(* The refinement, for the fragment "yields and loops at the top level of the body" (wf_body: every
   top-level statement is a yield, a statement free of yields and loops, a while/for loop whose
   body is free of yields and loops, or a while loop whose body is free of yields and loops up to
   one trailing yield - the idiom `while (c) { ...; yield; }`; loop variables are not parameters;
   since fix 4fa4431 they may be reused by later loops).  For every such body, every argument list,
   every await oracle aw and every loop bound: if the body run alone ends, there is a number n of
   step grants after which the task is complete, and for EVERY number m >= n of grants the
   concatenated output of the steps and the result are exactly those of the body run alone, and so
   are all locals (as a map) when the body ends by falling off its end.
   Missing for the full law (all bodies): yield inside a block / branch, yield inside a loop body
   other than as the last statement of a while body, a loop inside a branch or inside another loop
   - each refuted below. *)
Theorem resume_refines_sequential_partial :
  forall (aw : nat -> Z -> Z) (fuel : nat) body args ls' out r,
    wf_body (map fst args) body = true ->
    spec_run aw fuel body args = (ls', out, r) -> r <> SFuel ->
    exists n t' ev,
      (forall m, n <= m -> mrun aw fuel m (spawn body args) = (t', ev)) /\
      t_done t' = true /\ t_stuck t' = false /\ outputs_of ev = out /\
      t_ret t' = ret_of r None /\
      (r = SNormal -> forall y, lookup y (t_loc t') = lookup y ls').
Proof.
  intros aw fuel body args ls' out r Hwf E N.
  destruct (resume_refines aw fuel body args ls' out r Hwf E N) as (n & t' & ev & R & D & S & O & V & L).
  exists n, t', ev. repeat split; try assumption. intros Hr y. now rewrite (L Hr).
Qed.
Print Assumptions resume_refines_sequential_partial.

(* Locals survive suspension, one statement at a time, at ANY index of ANY body and for any resume
   table without an entry at or below that statement: a step whose statement is free of yields and
   loops runs that statement exactly as the sequential semantics does on the locals saved by the
   previous step, saves the resulting locals back (equal as maps), leaves the resume table as it
   was and moves to the next statement (or completes with the returned value). *)
Theorem locals_survive_suspension :
  forall (aw : nat -> Z -> Z) (fuel : nat) body idx s ret lm m,
    nth_error body idx = Some s -> quiet s = true -> fresh [idx] m ->
    exists lm' ls' o r,
      sexec aw fuel s lm = (ls', o, r) /\ r <> SFuel /\ (forall y, lookup y lm' = lookup y ls') /\
      exists ev, outputs_of ev = o /\
        mstep aw fuel (T body idx lm m false ret) =
        (match r with
         | SReturn_ v => T body idx lm' m true (Some v)
         | _ => T body (S idx) lm' m (done_after body idx) ret
         end, ev).
Proof.
  intros aw fuel body idx s ret lm m Hn Hq Hf. destruct (sexec aw fuel s lm) as [[ls' o] r] eqn:E.
  destruct (step_quiet aw fuel body idx s ret lm m ls' o r Hn Hq Hf E) as (N & _ & St).
  exists ls', ls', o, r. destruct r; [auto | auto | congruence].
Qed.
Print Assumptions locals_survive_suspension.

(* For EVERY body and task state: the statement index never decreases and advances by at most one
   per step; after n grants it lies between the old index and the old index + n. *)
Theorem statement_index_monotone :
  forall aw fuel t, let t' := fst (mstep aw fuel t) in t_idx t' = t_idx t \/ t_idx t' = S (t_idx t).
Proof. intros aw fuel t. step_cases t. destruct fl; auto. Qed.
Print Assumptions statement_index_monotone.

Theorem statement_index_bounded_by_grants :
  forall aw fuel n t, let t' := fst (mrun aw fuel n t) in t_idx t <= t_idx t' <= t_idx t + n.
Proof.
  intros aw fuel. induction n as [| n IH]; intros t; cbn; [lia |].
  pose proof (statement_index_monotone aw fuel t) as H. destruct (mstep aw fuel t) as [t1 e1]. cbn in H.
  specialize (IH t1). destruct (mrun aw fuel n t1) as [t2 e2]. cbn in *. lia.
Qed.
Print Assumptions statement_index_bounded_by_grants.

(* every step that does anything starts by executing the statement at the saved index *)
Theorem step_starts_at_saved_index :
  forall aw fuel t, snd (mstep aw fuel t) = [] \/ exists r, snd (mstep aw fuel t) = EvExec (t_idx t) :: r.
Proof. intros aw fuel t. step_cases t; right; eexists; reflexivity. Qed.
Print Assumptions step_starts_at_saved_index.

(* a completed task is never executed again, whatever the number of further grants *)
Theorem completed_task_is_final :
  forall aw fuel t, t_done t = true -> forall n, mrun aw fuel n t = (t, []).
Proof. intros aw fuel t H. apply halted_final. now rewrite H. Qed.
Print Assumptions completed_task_is_final.

(* a result is recorded only by a return statement, and the task is then complete *)
Theorem result_only_by_return :
  forall aw fuel t, t_ret (fst (mstep aw fuel t)) = t_ret t \/
    (t_done (fst (mstep aw fuel t)) = true /\ exists i, In (EvReturn i) (snd (mstep aw fuel t))).
Proof.
  intros aw fuel t. step_cases t. right. split; [reflexivity |]. eexists. right. apply in_or_app. right. now left.
Qed.
Print Assumptions result_only_by_return.

(* register_task: every task runs in auto-yield mode, whether or not its body contains a yield
   (AsyncTask() defaults auto_yield to true and register_task only ever sets it to true) *)
Theorem every_task_is_auto_yield : forall body, register_auto body = true.
Proof. exact register_auto_true. Qed.
Print Assumptions every_task_is_auto_yield.

(* ---- await delivers exactly the returned value (data path ReturnException -> Future.value ->
   TypedValue; first or repeated await, task finished before or during the await) *)
Theorem await_returns_result_int : forall z t,
  t = TInt \/ t = TLong \/ t = TBool -> as_numeric (await_of (ret_int z t)) = z.
Proof. intros z t [H | [H | H]]; subst; reflexivity. Qed.
Print Assumptions await_returns_result_int.

Theorem await_returns_result_string : forall s, await_of (ret_string s) = TVString s.
Proof. reflexivity. Qed.
Print Assumptions await_returns_result_string.

(* struct, Option<T>, Result<T,E>: the whole Variable (members, variant, payload) arrives; only
   is_assigned is set *)
Theorem await_returns_result_struct : forall v,
  v_type v <> TString -> is_floating (v_type v) = false -> (v_is_struct v || v_is_enum v)%bool = true ->
  as_struct (await_of (ret_struct v)) = Some (set_assigned v) /\
  v_members (set_assigned v) = v_members v /\ v_enum_variant (set_assigned v) = v_enum_variant v /\
  v_assoc_int (set_assigned v) = v_assoc_int v /\ v_assoc_str (set_assigned v) = v_assoc_str v.
Proof.
  intros v H1 H2 H3. split; [exact (await_of_ret_struct v H1 H2 H3) |].
  destruct (set_assigned_payload v) as (A & B & C & D & _). auto.
Qed.
Print Assumptions await_returns_result_struct.

(* a task that ends without return delivers 0 *)
Theorem await_without_return_is_zero : as_numeric await_of_no_return = 0%Z.
Proof. reflexivity. Qed.
Print Assumptions await_without_return_is_zero.

(* ---- refutations of the full law on the faithful model (known findings) *)
(* DESIGN section 7 #26: a yield inside an if-block (or bare block) skips the rest of that block *)
Theorem resume_refuted_yield_in_block : violates w_yield_in_block [(O, 1%Z)].
Proof. witness 10. Qed.
Print Assumptions resume_refuted_yield_in_block.

(* #45: a yield inside a loop body makes the loop re-test its condition before the body resumes *)
Theorem resume_refuted_yield_in_loop : violates w_yield_in_loop [(O, 2%Z)].
Proof. witness 10. Qed.
Print Assumptions resume_refuted_yield_in_loop.

(* finding C14-loop-in-branch: a loop inside an if branch re-evaluates the if condition after every
   iteration *)
Theorem resume_refuted_loop_in_branch : violates w_loop_in_branch [(O, 0%Z)].
Proof. witness 10. Qed.
Print Assumptions resume_refuted_loop_in_branch.

(* finding C14-nested-loops: nested for loops - the outer update runs after every inner iteration *)
Theorem resume_refuted_nested_loops : violates w_nested_loops [(O, 0%Z)].
Proof. witness 10. Qed.
Print Assumptions resume_refuted_nested_loops.

(* finding C14-await-enum: an old-style enum result (ReturnException of TYPE_ENUM) is not delivered:
   await yields a struct-kind value whose numeric reading is 0, and value 1 is relabelled
   Option::None *)
Theorem await_enum_refuted :
  as_numeric (await_of (ret_enum 2)) <> 2%Z /\
  (exists v, as_struct (await_of (ret_enum 1)) = Some v /\ v_enum_variant v = "None"%string /\ v_enum_type v = "Option"%string).
Proof. split. - vm_compute. discriminate. - eexists. vm_compute. repeat split. Qed.
Print Assumptions await_enum_refuted.

(* non-vacuity: a body with yields, a while loop with a branch, a for loop with an await, a return
   satisfies the hypothesis of the refinement theorem and runs as expected *)
Example fragment_example :
  wf_body [O; 1; 2] ex_fragment = true /\
  let aw := fun (_ : nat) (a : Z) => (a + 100)%Z in
  let '(t, ev) := mrun aw 10 30 (spawn ex_fragment [(O, 5%Z); (1, 2%Z); (2, 2%Z)]) in
  let '(l, o, r) := spec_run aw 10 ex_fragment [(O, 5%Z); (1, 2%Z); (2, 2%Z)] in
  t_done t = true /\ outputs_of ev = o /\ t_ret t = Some 108%Z /\ r = SReturn_ 108%Z /\
  o = [(0, 5%Z); (1, 1%Z); (2, 5%Z); (3, 100%Z); (3, 101%Z); (5, 0%Z); (4, 1%Z); (4, 0%Z)].
Proof. vm_compute. repeat split; reflexivity. Qed.
