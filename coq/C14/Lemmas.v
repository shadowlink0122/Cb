(* C14 - basic lemmas about locals, the resume table and statement induction. *)
From Coq Require Import List ZArith Bool Lia.
From Cb Require Import C14.Model.
Import ListNotations.

Section StmtInd.
  Variable P : stmt -> Prop.
  Hypothesis HEmit : forall k e, P (SEmit k e).
  Hypothesis HAssign : forall x e, P (SAssign x e).
  Hypothesis HAwait : forall x c e, P (SAwait x c e).
  Hypothesis HYield : P SYield.
  Hypothesis HReturn : forall e, P (SReturn e).
  Hypothesis HBlock : forall b, Forall P b -> P (SBlock b).
  Hypothesis HIf : forall c t e, Forall P t -> Forall P e -> P (SIf c t e).
  Hypothesis HWhile : forall c b, Forall P b -> P (SWhile c b).
  Hypothesis HFor : forall x i c u b, Forall P b -> P (SFor x i c u b).

  Fixpoint stmt_ind' (s : stmt) : P s :=
    let go := fix go (l : list stmt) : Forall P l :=
                match l with
                | [] => Forall_nil P
                | x :: r => Forall_cons x (stmt_ind' x) (go r)
                end in
    match s with
    | SEmit k e => HEmit k e
    | SAssign x e => HAssign x e
    | SAwait x c e => HAwait x c e
    | SYield => HYield
    | SReturn e => HReturn e
    | SBlock b => HBlock b (go b)
    | SIf c t e => HIf c t e (go t) (go e)
    | SWhile c b => HWhile c b (go b)
    | SFor x i c u b => HFor x i c u b (go b)
    end.
End StmtInd.

Lemma lookup_assign : forall x v l y,
  lookup y (assign x v l) =
  if Nat.eqb y x then match lookup x l with Some _ => Some v | None => None end else lookup y l.
Proof.
  induction l as [| [z w] l IH]; intros y; cbn [assign lookup].
  - destruct (Nat.eqb y x); reflexivity.
  - destruct (Nat.eqb x z) eqn:E.
    + apply Nat.eqb_eq in E; subst z. cbn [lookup].
      destruct (Nat.eqb y x) eqn:F; reflexivity.
    + cbn [lookup]. destruct (Nat.eqb y z) eqn:F.
      * destruct (Nat.eqb y x) eqn:G; [| reflexivity].
        apply Nat.eqb_eq in F, G. subst. rewrite Nat.eqb_refl in E. discriminate.
      * apply IH.
Qed.

Lemma lookup_app : forall y l l',
  lookup y (l ++ l') = match lookup y l with Some v => Some v | None => lookup y l' end.
Proof.
  induction l as [| [z w] l IH]; intros l'; cbn; [reflexivity |].
  destruct (Nat.eqb y z); [reflexivity | apply IH].
Qed.

Lemma lookup_declare : forall x v l y,
  lookup y (declare x v l) = if Nat.eqb y x then Some v else lookup y l.
Proof.
  intros. unfold declare. destruct (lookup x l) eqn:E.
  - rewrite lookup_assign, E. reflexivity.
  - rewrite lookup_app. cbn. destruct (Nat.eqb_spec y x) as [-> | _].
    + now rewrite E.
    + now destruct (lookup y l).
Qed.

Lemma lookup_remove : forall x l y,
  lookup y (remove x l) = if Nat.eqb y x then None else lookup y l.
Proof.
  induction l as [| [z w] l IH]; intros y; cbn [remove lookup].
  - destruct (Nat.eqb y x); reflexivity.
  - destruct (Nat.eqb x z) eqn:E.
    + apply Nat.eqb_eq in E; subst z. rewrite IH. destruct (Nat.eqb y x); reflexivity.
    + cbn [lookup]. destruct (Nat.eqb y z) eqn:F; [| apply IH].
      destruct (Nat.eqb y x) eqn:G; [| reflexivity].
      apply Nat.eqb_eq in F, G. subst. rewrite Nat.eqb_refl in E. discriminate.
Qed.

Lemma lookup_not_in : forall z (l : locals), ~ In z (map fst l) -> lookup z l = None.
Proof.
  induction l as [| [y v] l IH]; cbn; intros H; [reflexivity |].
  destruct (Nat.eqb z y) eqn:E.
  - apply Nat.eqb_eq in E. subst. exfalso. apply H. now left.
  - apply IH. intros Hin. apply H. now right.
Qed.

Definition same_dom (l l' : locals) : Prop :=
  forall y, lookup y l' = None <-> lookup y l = None.

Lemma same_dom_refl : forall l, same_dom l l.
Proof. intros l y; tauto. Qed.

Lemma same_dom_trans : forall a b c, same_dom a b -> same_dom b c -> same_dom a c.
Proof. intros a b c H1 H2 y. specialize (H1 y). specialize (H2 y). tauto. Qed.

Lemma same_dom_assign : forall x v l, same_dom l (assign x v l).
Proof.
  intros x v l y. rewrite lookup_assign. destruct (Nat.eqb y x) eqn:E; [| tauto].
  apply Nat.eqb_eq in E; subst. destruct (lookup x l); split; congruence.
Qed.

Lemma same_dom_undeclare : forall x v l l2,
  lookup x l = None -> same_dom (declare x v l) l2 -> same_dom l (remove x l2).
Proof.
  intros x v l l2 Hx D y. rewrite lookup_remove. destruct (Nat.eqb y x) eqn:Ey.
  - apply Nat.eqb_eq in Ey. subst y. tauto.
  - rewrite (D y), lookup_declare, Ey. tauto.
Qed.

Definition agree (P : var -> Prop) (l1 l2 : locals) : Prop :=
  forall y, P y -> lookup y l1 = lookup y l2.

Lemma eval_agree : forall P l1 l2 e,
  agree P l1 l2 -> (forall y, In y (evars e) -> P y) -> eval e l1 = eval e l2.
Proof.
  intros P l1 l2 e H. induction e; cbn [eval evars]; intros HP; try reflexivity.
  1: rewrite (H x); [reflexivity | apply HP; now left].
  all: rewrite IHe1, IHe2; auto; intros; apply HP; apply in_or_app; auto.
Qed.

Lemma agree_assign : forall P l1 l2 x v, agree P l1 l2 -> agree P (assign x v l1) (assign x v l2).
Proof.
  intros P l1 l2 x v H y Hy. rewrite !lookup_assign. destruct (Nat.eqb y x) eqn:E.
  - apply Nat.eqb_eq in E; subst. rewrite (H x Hy). reflexivity.
  - auto.
Qed.

Lemma agree_refl : forall P l, agree P l l.
Proof. intros P l y _. reflexivity. Qed.

Lemma agree_weaken : forall (P Q : var -> Prop) l1 l2,
  (forall y, Q y -> P y) -> agree P l1 l2 -> agree Q l1 l2.
Proof. intros P Q l1 l2 H A y Hy. apply A, H, Hy. Qed.

Lemma path_eqb_eq : forall a b, path_eqb a b = true <-> a = b.
Proof.
  induction a as [| x a IH]; destruct b as [| y b]; cbn; split; intros H; try discriminate; try reflexivity.
  - apply andb_true_iff in H as [H1 H2]. apply Nat.eqb_eq in H1. apply IH in H2. congruence.
  - inversion H; subst. rewrite Nat.eqb_refl. apply IH. reflexivity.
Qed.

Lemma path_eqb_refl : forall k, path_eqb k k = true.
Proof. intros k. now apply path_eqb_eq. Qed.

Lemma path_eqb_neq : forall a b, a <> b -> path_eqb a b = false.
Proof. intros a b H. destruct (path_eqb a b) eqn:E; [| reflexivity]. apply path_eqb_eq in E. contradiction. Qed.

Lemma pos_del_absent : forall k m, pos_get k m = None -> pos_del k m = m.
Proof.
  induction m as [| [k' v] m IH]; cbn; intros H; [reflexivity |].
  destruct (path_eqb k k'); [discriminate |]. now rewrite IH.
Qed.

Lemma pos_del_set_absent : forall k v m, pos_get k m = None -> pos_del k (pos_set k v m) = m.
Proof.
  induction m as [| [k' w] m IH]; cbn; intros H.
  - now rewrite path_eqb_refl.
  - destruct (path_eqb k k') eqn:E; [discriminate |]. cbn. rewrite E. now rewrite IH.
Qed.

Lemma pos_set_set : forall k v w m, pos_set k w (pos_set k v m) = pos_set k w m.
Proof.
  induction m as [| [k' u] m IH]; cbn.
  - now rewrite path_eqb_refl.
  - destruct (path_eqb k k') eqn:E; cbn; rewrite E; [reflexivity | now rewrite IH].
Qed.

Lemma pos_get_set_same : forall k v m, pos_get k (pos_set k v m) = Some v.
Proof.
  induction m as [| [k' w] m IH]; cbn.
  - now rewrite path_eqb_refl.
  - destruct (path_eqb k k') eqn:E; cbn; rewrite E; [reflexivity | assumption].
Qed.

Lemma pos_get_set_other : forall k k' v m, k <> k' -> pos_get k' (pos_set k v m) = pos_get k' m.
Proof.
  induction m as [| [k2 u] m IH]; cbn; intros H.
  - rewrite path_eqb_neq; auto.
  - destruct (path_eqb k k2) eqn:E; cbn.
    + apply path_eqb_eq in E; subst k2. rewrite path_eqb_neq; auto.
    + destruct (path_eqb k' k2); auto.
Qed.

Definition below (p k : path) : Prop := exists l, k = l ++ p.

(* no entry at or below p *)
Definition fresh (p : path) (m : posmap) : Prop := forall k, below p k -> pos_get k m = None.

Lemma below_cons : forall i p k, below (i :: p) k -> below p k.
Proof. intros i p k [l ->]. exists (l ++ [i]). now rewrite <- app_assoc. Qed.

Lemma below_refl : forall p, below p p.
Proof. intros p. now exists []. Qed.

Lemma below_cons_neq : forall i p k, below (i :: p) k -> k <> p.
Proof.
  intros i p k [l ->] H. apply (f_equal (@length nat)) in H. rewrite app_length in H. cbn in H. lia.
Qed.

Lemma fresh_cons : forall i p m, fresh p m -> fresh (i :: p) m.
Proof. intros i p m H k Hk. apply H. eapply below_cons; eauto. Qed.

(* an entry written outside the subtree of p *)
Lemma fresh_set : forall p k v m, fresh p m -> ~ below p k -> fresh p (pos_set k v m).
Proof.
  intros p k v m H N k' Hk. rewrite pos_get_set_other; [apply H, Hk | intros ->; exact (N Hk)].
Qed.

Lemma fresh_child : forall i key j m, fresh key m -> fresh (i :: key) (pos_set key j m).
Proof.
  intros i key j m H. apply fresh_set; [apply fresh_cons, H |].
  intros B. exact (below_cons_neq i key key B eq_refl).
Qed.

Lemma fresh_nil : forall p, fresh p [].
Proof. intros p k _. reflexivity. Qed.

Lemma memb_In : forall x l, memb x l = true <-> In x l.
Proof.
  intros x l. unfold memb. rewrite existsb_exists. split.
  - intros [y [H1 H2]]. apply Nat.eqb_eq in H2. now subst.
  - intros H. exists x. split; [assumption | apply Nat.eqb_refl].
Qed.

Lemma memb_false : forall x l, memb x l = false <-> ~ In x l.
Proof. intros x l. rewrite <- memb_In. destruct (memb x l); intuition congruence. Qed.

Lemma disjointb_spec : forall a b, disjointb a b = true <-> (forall x, In x a -> ~ In x b).
Proof.
  intros a b. unfold disjointb. rewrite forallb_forall. split; intros H x Hx.
  - apply memb_false. specialize (H x Hx). now apply negb_true_iff in H.
  - apply negb_true_iff. apply memb_false. auto.
Qed.

Lemma nodupb_spec : forall l, nodupb l = true -> NoDup l.
Proof.
  induction l as [| x l IH]; cbn; intros H; constructor.
  - apply andb_true_iff in H as [H _]. apply negb_true_iff in H. now apply memb_false.
  - apply IH. now apply andb_true_iff in H as [_ H].
Qed.
