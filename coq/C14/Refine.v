(* C14 - the resumable executor refines the sequential run for bodies whose yields and loops sit at
   the top level (wf_body): simulation statement by statement, loops iteration by iteration.
   The two executors keep literally the same locals, so the simulation relation is equality.
   Two layers: what the executor does on a compound statement made of quiet statements (no yield,
   no loop: it runs them like the sequential one and leaves the resume table alone); then tasks,
   step by step (reaches), with one case per kind of top-level statement (top_sim) and one
   induction over the sequential loop (sloop_sim). *)
From Coq Require Import List ZArith Bool Lia.
From Cb Require Import C14.Model C14.Lemmas C14.Invariants.
Import ListNotations.
Local Open Scope Z_scope.

Definition out_of (r : sres) : outcome :=
  match r with SNormal => ONormal | SReturn_ v => OReturn v | SFuel => OFuel end.

Section R.
Variable aw : nat -> Z -> Z.
Variable fuel : nat.

Notation SX := (sexec aw fuel).
Notation MX := (mexec aw fuel true).
Notation mstep' := (mstep aw fuel).
Notation mrun' := (mrun aw fuel).

(* what holds of a statement without yield and loop (quiet): the resumable executor runs it like the
   sequential one, from any table with nothing at or below its path, and leaves that table as it was *)
Definition quiet_run (s : stmt) : Prop :=
  forall p l m o0 l' o r, fresh p m -> SX s l = (l', o, r) ->
    r <> SFuel /\ same_dom l l' /\ MX p s (mkM l m o0) = (mkM l' m (o0 ++ o), out_of r).

(* once the resume index is read, the entry of a compound node is overwritten or cleared before
   anything else happens: its value does not matter *)
Lemma cgo_entry : forall key j m ss i l o, fresh key m ->
  cgo MX key 0 ss i (mkM l (pos_set key j m) o) = cgo MX key 0 ss i (mkM l m o).
Proof.
  intros key j m ss i l o Hf.
  destruct ss as [| s ss]; cbn [cgo Nat.ltb Nat.leb]; unfold with_pos; cbn [m_loc m_pos m_out].
  - now rewrite pos_del_set_absent, pos_del_absent by apply Hf, below_refl.
  - now rewrite pos_set_set.
Qed.

(* a run of quiet statements at the head of a compound statement: either one of them returns, or
   the executor arrives at the rest *)
Lemma cgo_quiet : forall b0, Forall quiet_run b0 ->
  forall rest key i l m o0 l' o r, fresh key m -> sblock_with SX b0 l = (l', o, r) ->
    r <> SFuel /\ same_dom l l' /\
    cgo MX key 0 (b0 ++ rest) i (mkM l m o0) =
    match r with
    | SReturn_ v => (mkM l' m (o0 ++ o), OReturn v)
    | _ => cgo MX key 0 rest (i + length b0) (mkM l' m (o0 ++ o))
    end.
Proof.
  induction 1 as [| s b0 Hs _ IH]; intros rest key i l m o0 l' o r Hf E; cbn [sblock_with] in E.
  - injection E as <- <- <-. split; [discriminate |]. split; [apply same_dom_refl |].
    cbn [app length]. now rewrite Nat.add_0_r, app_nil_r.
  - destruct (SX s l) as [[l1 o1] r1] eqn:E1.
    destruct (Hs (i :: key) l (pos_set key i m) o0 l1 o1 r1 (fresh_child i key i m Hf) E1) as (N1 & D1 & M1).
    cbn [app cgo Nat.ltb Nat.leb]. unfold with_pos. cbn [m_loc m_pos m_out]. rewrite M1.
    destruct r1 as [| v |]; [| | congruence]; cbn [out_of m_loc m_pos m_out].
    + fold (sblock_with SX) in E. destruct (sblock_with SX b0 l1) as [[l2 o2] r2] eqn:E2.
      injection E as <- <- <-. rewrite pos_set_set, cgo_entry by exact Hf.
      destruct (IH rest key (S i) l1 m (o0 ++ o1) l2 o2 r2 Hf E2) as (N2 & D2 & F2).
      split; [exact N2 |]. split; [eapply same_dom_trans; eassumption |].
      rewrite app_assoc. cbn [length]. rewrite Nat.add_succ_r. exact F2.
    + injection E as <- <- <-. rewrite pos_del_set_absent by apply Hf, below_refl.
      split; [discriminate |]. split; [assumption | reflexivity].
Qed.

Lemma block_quiet : forall b, Forall quiet_run b ->
  forall key l m o0 l' o r, fresh key m -> sblock_with SX b l = (l', o, r) ->
    r <> SFuel /\ same_dom l l' /\ compound_with MX key b (mkM l m o0) = (mkM l' m (o0 ++ o), out_of r).
Proof.
  intros b H key l m o0 l' o r Hf E.
  destruct (cgo_quiet b H [] key 0 l m o0 l' o r Hf E) as (N & D & F).
  split; [exact N |]. split; [exact D |].
  unfold compound_with. cbn [m_pos]. rewrite app_nil_r in F. rewrite (Hf key (below_refl key)), F.
  destruct r as [| v |]; [| reflexivity | congruence].
  cbn [cgo out_of]. unfold with_pos. cbn [m_loc m_pos m_out]. now rewrite pos_del_absent by apply Hf, below_refl.
Qed.

(* a block of quiet statements closed by a yield suspends with its resume entry past its end *)
Lemma block_quiet_yield : forall b0, Forall quiet_run b0 ->
  forall key l m o0 l' o r, fresh key m -> sblock_with SX b0 l = (l', o, r) ->
    r <> SFuel /\ same_dom l l' /\
    compound_with MX key (b0 ++ [SYield]) (mkM l m o0) =
    match r with
    | SReturn_ v => (mkM l' m (o0 ++ o), OReturn v)
    | _ => (mkM l' (pos_set key (S (length b0)) m) (o0 ++ o), OYield false)
    end.
Proof.
  intros b0 H key l m o0 l' o r Hf E.
  destruct (cgo_quiet b0 H [SYield] key 0 l m o0 l' o r Hf E) as (N & D & F).
  split; [exact N |]. split; [exact D |].
  unfold compound_with. cbn [m_pos]. rewrite (Hf key (below_refl key)), F.
  destruct r as [| v |]; [| reflexivity | congruence].
  cbn [cgo Nat.ltb Nat.leb mexec Nat.add]. unfold with_pos. cbn [m_loc m_pos m_out]. now rewrite pos_set_set.
Qed.

Lemma cgo_skip : forall ss key start i st, (i + length ss <= start)%nat ->
  cgo MX key start ss i st = (with_pos st (pos_del key (m_pos st)), ONormal).
Proof.
  induction ss as [| s ss IH]; intros key start i st H; [reflexivity |].
  cbn [cgo]. cbn [length] in H. replace (Nat.ltb i start) with true by (symmetry; apply Nat.ltb_lt; lia).
  apply IH. lia.
Qed.

(* re-entered with such an entry, the block is skipped and the entry cleared *)
Lemma compound_past_end : forall b key j l m o0, fresh key m -> (length b <= j)%nat ->
  compound_with MX key b (mkM l (pos_set key j m) o0) = (mkM l m o0, ONormal).
Proof.
  intros b key j l m o0 Hf Hj. unfold compound_with. cbn [m_pos].
  rewrite pos_get_set_same, cgo_skip by exact Hj. unfold with_pos. cbn [m_loc m_pos m_out].
  now rewrite pos_del_set_absent by apply Hf, below_refl.
Qed.

Lemma Forall_quiet : forall (b : list stmt),
  Forall (fun s => quiet s = true -> quiet_run s) b -> forallb quiet b = true -> Forall quiet_run b.
Proof.
  induction 1 as [| s b Hs Hb IH]; cbn; intros H; constructor.
  - apply Hs. now apply andb_true_iff in H as [H _].
  - apply IH. now apply andb_true_iff in H as [_ H].
Qed.

Lemma quiet_sim : forall s, quiet s = true -> quiet_run s.
Proof.
  induction s using stmt_ind'; intros Hq; try discriminate; intros p l m o0 l' o r Hf E; cbn [sexec] in E.
  1-4: injection E as <- <- <-; split; [discriminate |];
       split; [auto using same_dom_refl, same_dom_assign | cbn; now rewrite ?app_nil_r].
  - cbn in Hq. exact (block_quiet b (Forall_quiet b H Hq) (O :: p) l m o0 l' o r (fresh_cons O p m Hf) E).
  - cbn in Hq. apply andb_true_iff in Hq as [Hq1 Hq2]. cbn [mexec m_loc].
    destruct (truthy (eval c l)).
    + exact (block_quiet t (Forall_quiet t H Hq1) (O :: p) l m o0 l' o r (fresh_cons O p m Hf) E).
    + destruct e as [| s0 e0].
      * injection E as <- <- <-. split; [discriminate |]. split; [apply same_dom_refl |]. now rewrite app_nil_r.
      * exact (block_quiet _ (Forall_quiet _ H0 Hq2) (1%nat :: p) l m o0 l' o r (fresh_cons 1%nat p m Hf) E).
Qed.

Lemma quiet_block_sim : forall b, forallb quiet b = true -> Forall quiet_run b.
Proof. intros b. apply Forall_quiet, Forall_forall. intros s _. apply quiet_sim. Qed.

(* a task of the fragment: auto-yield on, not stuck *)
Definition T (body : list stmt) (idx : nat) (lm : locals) (m : posmap) (dn : bool) (ret : option Z) : task :=
  mkT body idx lm m true dn ret false.

(* between two steps the resume table has no entry at or below a top-level statement still to
   come: what it holds was left by statements already passed *)
Definition stale (idx : nat) (m : posmap) : Prop := forall j, (idx <= j)%nat -> fresh [j] m.

Lemma stale_S : forall idx m, stale idx m -> stale (S idx) m.
Proof. intros idx m H j Hj. apply H. lia. Qed.

Lemma stale_set : forall idx i m v, stale idx m -> stale (S idx) (pos_set [i; idx] v m).
Proof.
  intros idx i m v H j Hj. apply fresh_set; [apply H; lia |].
  intros [l E]. apply (app_inj_tail [i] l idx j) in E as [_ E]. lia.
Qed.

Definition done_after (body : list stmt) (idx : nat) : bool := negb (Nat.ltb (S idx) (length body)).

Definition ret_of (r : sres) (ret0 : option Z) : option Z :=
  match r with SReturn_ v => Some v | _ => ret0 end.

Definition returned (v : Z) (t : task) : Prop := t_done t = true /\ t_stuck t = false /\ t_ret t = Some v.

(* the task after a step that ran its statement to locals l and table m and ended as oc *)
Definition next_task (body : list stmt) (idx : nat) (ret : option Z) (l : locals) (m : posmap) (oc : outcome) : task :=
  match oc with
  | ONormal => T body (S idx) l m (done_after body idx) ret
  | OYield fl => T body (if fl then idx else S idx) l m false ret
  | OReturn v => T body idx l m true (Some v)
  | OFuel => mkT body idx l m true false ret true
  end.

Lemma mstep_at : forall body idx l m ret s l1 m1 o1 oc,
  nth_error body idx = Some s -> MX [idx] s (mkM l m []) = (mkM l1 m1 o1, oc) ->
  exists ev, outputs_of ev = o1 /\ mstep' (T body idx l m false ret) = (next_task body idx ret l1 m1 oc, ev).
Proof.
  intros body idx l m ret s l1 m1 o1 oc Hn Hx. unfold mstep, T. cbn. rewrite Hn, Hx.
  destruct oc; eexists; (split; [| reflexivity]); cbn;
    rewrite ?outputs_of_app, outputs_of_out_events; cbn; rewrite ?app_nil_r; reflexivity.
Qed.

(* [reaches t t' o]: some number of steps takes t to t' and prints o *)
Definition reaches (t t' : task) (o : list line) : Prop :=
  exists n ev, mrun' n t = (t', ev) /\ outputs_of ev = o.

Lemma reaches_refl : forall t, reaches t t [].
Proof. intros t. now exists 0%nat, []. Qed.

Lemma reaches_trans : forall t t1 t2 o1 o2, reaches t t1 o1 -> reaches t1 t2 o2 -> reaches t t2 (o1 ++ o2).
Proof.
  intros t t1 t2 o1 o2 (n1 & e1 & R1 & <-) (n2 & e2 & R2 & <-). exists (n1 + n2)%nat, (e1 ++ e2).
  split; [eapply mrun_app; eassumption | apply outputs_of_app].
Qed.

Lemma reaches_one : forall t t1 e1, mstep' t = (t1, e1) -> reaches t t1 (outputs_of e1).
Proof. intros t t1 e1 H. exists 1%nat, e1. cbn. now rewrite H, app_nil_r. Qed.

Lemma step_exec : forall body idx l m ret s l1 m1 o1 oc,
  nth_error body idx = Some s -> MX [idx] s (mkM l m []) = (mkM l1 m1 o1, oc) ->
  reaches (T body idx l m false ret) (next_task body idx ret l1 m1 oc) o1.
Proof.
  intros body idx l m ret s l1 m1 o1 oc Hn Hx.
  destruct (mstep_at body idx l m ret s l1 m1 o1 oc Hn Hx) as (ev & <- & H). now apply reaches_one.
Qed.

(* t is past statement idx with locals l', which have the variables of l *)
Definition passed (body : list stmt) (idx : nat) (ret : option Z) (l l' : locals) (t : task) : Prop :=
  same_dom l l' /\
  exists m' dn, stale (S idx) m' /\ (dn = true -> done_after body idx = true) /\ t = T body (S idx) l' m' dn ret.

Lemma passed_next : forall body idx ret l l' m',
  same_dom l l' -> stale (S idx) m' -> passed body idx ret l l' (T body (S idx) l' m' (done_after body idx) ret).
Proof. intros body idx ret l l' m' D H. split; [exact D |]. exists m', (done_after body idx). auto. Qed.

(* from a live task at statement idx the executor gets, in some number of steps, to where the
   sequential run of that statement gets: past it with the same locals, or returned *)
Definition top_sim (s : stmt) : Prop :=
  forall body idx l m ret l' o r,
    nth_error body idx = Some s -> stale idx m -> (forall z, In z (for_var s) -> lookup z l = None) ->
    SX s l = (l', o, r) -> r <> SFuel ->
    exists t', reaches (T body idx l m false ret) t' o /\
      match r with SReturn_ v => returned v t' | _ => passed body idx ret l l' t' end.

Lemma yield_sim : top_sim SYield.
Proof.
  intros body idx l m ret l' o r Hn Hm _ E _. injection E as <- <- <-.
  eexists. split; [exact (step_exec body idx l m ret SYield l m [] (OYield false) Hn eq_refl) |].
  split; [apply same_dom_refl |]. exists m, false. split; [apply stale_S, Hm | split; [discriminate | reflexivity]].
Qed.

Lemma step_quiet : forall body idx s ret l m l' o r,
  nth_error body idx = Some s -> quiet s = true -> fresh [idx] m -> SX s l = (l', o, r) ->
  r <> SFuel /\ same_dom l l' /\
  exists ev, outputs_of ev = o /\ mstep' (T body idx l m false ret) = (next_task body idx ret l' m (out_of r), ev).
Proof.
  intros body idx s ret l m l' o r Hn Hq Hf E.
  destruct (quiet_sim s Hq [idx] l m [] l' o r Hf E) as (N & D & M).
  split; [exact N |]. split; [exact D |]. exact (mstep_at body idx l m ret s l' m o (out_of r) Hn M).
Qed.

Lemma quiet_top_sim : forall s, quiet s = true -> top_sim s.
Proof.
  intros s Hq body idx l m ret l' o r Hn Hm _ E _.
  destruct (step_quiet body idx s ret l m l' o r Hn Hq (Hm idx (le_n idx)) E) as (N & D & ev & <- & H).
  eexists. split; [exact (reaches_one _ _ _ H) |].
  destruct r as [| v |]; [| repeat split | congruence]. apply passed_next; [exact D | apply stale_S, Hm].
Qed.

(* The sequential loop, iteration by iteration, against tasks. [Head l t]: t is about to test the
   loop condition on locals l; [Exit l t]: t has left the loop with locals l. It is enough to
   follow one activation of the loop statement from a head. *)
Lemma sloop_sim : forall (Head Exit : locals -> task -> Prop) cond bodyf upd k l l' o r t,
  sloop cond bodyf upd k l = (l', o, r) -> r <> SFuel -> Head l t ->
  (forall l t, Head l t ->
     if cond l : bool
     then forall l1 o1 r1, bodyf l = (l1, o1, r1) -> r1 <> SFuel ->
            exists t1, reaches t t1 o1 /\
              match r1 with SReturn_ v => returned v t1 | _ => Head (upd l1) t1 end
     else exists t', reaches t t' [] /\ Exit l t') ->
  exists t', reaches t t' o /\ match r with SReturn_ v => returned v t' | _ => Exit l' t' end.
Proof.
  intros Head Exit cond bodyf upd.
  induction k as [| k IH]; intros l l' o r t E N Ht Act; cbn [sloop] in E.
  - congruence.
  - pose proof (Act l t Ht) as A. destruct (cond l).
    + destruct (bodyf l) as [[l1 o1] r1]. specialize (A l1 o1 r1 eq_refl).
      destruct r1 as [| v |].
      * destruct A as (t1 & R1 & H1); [discriminate |].
        destruct (sloop cond bodyf upd k (upd l1)) as [[l2 o2] r2] eqn:E2. injection E as <- <- <-.
        destruct (IH (upd l1) l2 o2 r2 t1 E2 N H1 Act) as (t' & R & F).
        exists t'. split; [eapply reaches_trans; eassumption | exact F].
      * injection E as <- <- <-. apply A. discriminate.
      * congruence.
    + injection E as <- <- <-. exact A.
Qed.

Lemma sloop_fuel : forall cond bodyf upd k l l' o r,
  sloop cond bodyf upd k l = (l', o, r) -> r <> SFuel -> (1 <= k)%nat.
Proof. destruct k; [cbn; congruence | lia]. Qed.

(* with auto-yield on, one activation of a loop runs at most one iteration: a step of a live task at
   a while loop either leaves the loop or runs the body once and stays *)
Lemma while_step : forall body idx c b l m ret,
  nth_error body idx = Some (SWhile c b) -> (1 <= fuel)%nat ->
  if truthy (eval c l)
  then forall l1 m1 o1 oc, compound_with MX [O; idx] b (mkM l m []) = (mkM l1 m1 o1, oc) ->
         reaches (T body idx l m false ret)
                 (next_task body idx ret l1 m1 (match oc with ONormal | OYield _ => OYield true | _ => oc end)) o1
  else reaches (T body idx l m false ret) (T body (S idx) l m (done_after body idx) ret) [].
Proof.
  intros body idx c b l m ret Hn Hfuel.
  pose proof (fun l1 m1 o1 oc => step_exec body idx l m ret _ l1 m1 o1 oc Hn) as H.
  cbn [mexec] in H. destruct fuel; [lia |]. cbn [mwhile m_loc] in H.
  destruct (truthy (eval c l)).
  - intros l1 m1 o1 oc E. apply H. rewrite E. now destruct oc.
  - exact (H l m [] ONormal eq_refl).
Qed.

Lemma while_sim : forall c b, forallb quiet b = true -> top_sim (SWhile c b).
Proof.
  intros c b Hq body idx l0 m ret l' o r Hn Hm _ E N. cbn [sexec] in E.
  pose proof (sloop_fuel _ _ _ _ _ _ _ _ E N) as Hfuel.
  apply (sloop_sim (fun l t => same_dom l0 l /\ t = T body idx l m false ret) (passed body idx ret l0)
                   _ _ _ _ _ _ _ _ _ E N).
  - split; [apply same_dom_refl | reflexivity].
  - intros l t [D ->]. pose proof (while_step body idx c b l m ret Hn Hfuel) as W.
    destruct (truthy (eval c l)).
    + intros l1 o1 r1 E1 N1.
      destruct (block_quiet b (quiet_block_sim b Hq) [O; idx] l m [] l1 o1 r1) as (_ & D1 & M1);
        [apply fresh_cons, (Hm idx), le_n | exact E1 |].
      eexists. split; [exact (W _ _ _ _ M1) |].
      destruct r1 as [| v |]; [| | congruence]; cbn [out_of next_task].
      * split; [eapply same_dom_trans; eassumption | reflexivity].
      * repeat split.
    + eexists. split; [exact W |]. apply passed_next; [exact D | apply stale_S, Hm].
Qed.

Lemma quiet_yield_last_split : forall b, quiet_yield_last b = true ->
  exists b0, b = b0 ++ [SYield] /\ forallb quiet b0 = true.
Proof.
  induction b as [| s r IH]; intros H; [discriminate |].
  destruct r as [| s' r'].
  - destruct s; try discriminate. exists []. split; reflexivity.
  - cbn [quiet_yield_last] in H. apply andb_true_iff in H as [H1 H2].
    destruct (IH H2) as (b0 & E & Q). exists (s :: b0). split.
    + cbn [app]. now rewrite <- E.
    + cbn [forallb]. now rewrite H1, Q.
Qed.

Lemma sblock_app_yield : forall b0 l, sblock_with SX (b0 ++ [SYield]) l = sblock_with SX b0 l.
Proof.
  induction b0 as [| s b0 IH]; intros l; [reflexivity |].
  cbn [app sblock_with]. fold (sblock_with SX). destruct (SX s l) as [[l1 o1] r1].
  destruct r1; try reflexivity. now rewrite IH.
Qed.

(* The trailing yield leaves the task with the entry past the end of the loop body (table mB); the
   next activation, if the loop goes on, skips the body, clears the entry and auto-yields: one empty
   step back to table m. *)
Lemma while_yield_sim : forall c b0, forallb quiet b0 = true -> top_sim (SWhile c (b0 ++ [SYield])).
Proof.
  intros c b0 Hq body idx l0 m ret l' o r Hn Hm _ E N. cbn [sexec] in E.
  pose proof (sloop_fuel _ _ _ _ _ _ _ _ E N) as Hfuel.
  set (key := [O; idx]). set (mB := pos_set key (S (length b0)) m).
  assert (Hkey : fresh key m) by apply fresh_cons, (Hm idx), le_n.
  apply (sloop_sim (fun l t => same_dom l0 l /\ (t = T body idx l m false ret \/ t = T body idx l mB false ret))
                   (passed body idx ret l0) _ _ _ _ _ _ _ _ _ E N).
  - split; [apply same_dom_refl | now left].
  - intros l t [D Ht].
    pose proof (while_step body idx c (b0 ++ [SYield]) l m ret Hn Hfuel) as W.
    pose proof (while_step body idx c (b0 ++ [SYield]) l mB ret Hn Hfuel) as WB.
    destruct (truthy (eval c l)).
    + intros l1 o1 r1 E1 N1. rewrite sblock_app_yield in E1.
      assert (R0 : reaches t (T body idx l m false ret) []).
      { destruct Ht as [-> | ->]; [apply reaches_refl |].
        apply (WB l m [] ONormal), compound_past_end; [exact Hkey | rewrite app_length; cbn; lia]. }
      destruct (block_quiet_yield b0 (quiet_block_sim b0 Hq) key l m [] l1 o1 r1 Hkey E1) as (_ & D1 & M1).
      destruct r1 as [| v |]; [| | congruence];
        pose proof (reaches_trans _ _ _ _ _ R0 (W _ _ _ _ M1)) as R1; cbn [next_task] in R1.
      * eexists. split; [exact R1 |]. split; [eapply same_dom_trans; eassumption | now right].
      * eexists. split; [exact R1 |]. repeat split.
    + destruct Ht as [-> | ->]; eexists.
      * split; [exact W |]. apply passed_next; [exact D | apply stale_S, Hm].
      * split; [exact WB |]. apply passed_next; [exact D | apply stale_set, Hm].
Qed.

(* an activation that finds the variable and the declaration record owns the variable *)
Lemma mexec_for_owned : forall p x i c u b st, (1 <= fuel)%nat ->
  lookup x (m_loc st) <> None -> pos_get (2%nat :: p) (m_pos st) <> None ->
  MX p (SFor x i c u b) st =
  if truthy (eval c (m_loc st)) then
    match compound_with MX (O :: p) b st with
    | (st1, ONormal) => (with_loc st1 (assign x (eval u (m_loc st1)) (m_loc st1)), OYield true)
    | (st1, OYield true) => (with_loc st1 (assign x (eval u (m_loc st1)) (m_loc st1)), OYield true)
    | (st1, OYield false) => (st1, OYield true)
    | r => r
    end
  else (mkM (remove x (m_loc st)) (pos_del (2%nat :: p) (m_pos st)) (m_out st), ONormal).
Proof.
  intros p x i c u b st Hfuel Hx Hown. cbn [mexec]. unfold exists_in.
  destruct (lookup x (m_loc st)); [| congruence]. destruct (pos_get (2%nat :: p) (m_pos st)); [| congruence].
  cbn [negb orb]. destruct fuel; [lia |]. cbn [mfor].
  destruct (truthy (eval c (m_loc st))); [| reflexivity].
  destruct (compound_with _ (O :: p) b st) as [st1 [| [|] | |]]; reflexivity.
Qed.

(* the first activation declares the variable, writes the record and goes on like an owning one *)
Lemma mexec_for_first : forall p x i c u b l m o, lookup x l = None ->
  MX p (SFor x i c u b) (mkM l m o) =
  MX p (SFor x i c u b) (mkM (declare x (eval i l) l) (pos_set (2%nat :: p) 1%nat m) o).
Proof.
  intros p x i c u b l m o Hx. cbn [mexec m_loc m_pos m_out]. unfold exists_in.
  now rewrite Hx, lookup_declare, Nat.eqb_refl, pos_get_set_same.
Qed.

Lemma fresh_under_marker : forall idx v m, fresh [idx] m -> fresh [O; idx] (pos_set [2%nat; idx] v m).
Proof.
  intros idx v m H. apply fresh_set; [apply fresh_cons, H |].
  intros [[| a l] E]; [discriminate |]. apply (f_equal (@length nat)) in E.
  cbn in E. rewrite app_length in E. cbn in E. lia.
Qed.

Lemma for_sim : forall x i c u b, forallb quiet b = true -> top_sim (SFor x i c u b).
Proof.
  intros x i c u b Hq body idx l0 m ret l' o r Hn Hm Hx E N. cbn [sexec] in E.
  specialize (Hx x (or_introl eq_refl)).
  set (ld := declare x (eval i l0) l0) in *. set (mF := pos_set [2%nat; idx] 1%nat m).
  assert (Hf : fresh [idx] m) by apply (Hm idx), le_n.
  assert (Hdel : pos_del [2%nat; idx] mF = m) by (apply pos_del_set_absent, Hf; now exists [2%nat]).
  destruct (sloop _ _ _ fuel ld) as [[l2 o2] r2] eqn:E2.
  assert (N2 : r2 <> SFuel) by (intros ->; cbn in E; congruence).
  pose proof (sloop_fuel _ _ _ _ _ _ _ _ E2 N2) as Hfuel.
  (* a head: a task whose next activation runs as an owning one does from locals l and the table
     with the declaration record; the task at the start is one by mexec_for_first *)
  destruct (sloop_sim (fun l t => same_dom ld l /\ exists lt mt, t = T body idx lt mt false ret /\
                                   MX [idx] (SFor x i c u b) (mkM lt mt []) = MX [idx] (SFor x i c u b) (mkM l mF []))
                      (fun l t => passed body idx ret l0 (remove x l) t)
                      _ _ _ _ _ _ _ _ (T body idx l0 m false ret) E2 N2) as (t' & R & F).
  - split; [apply same_dom_refl |]. exists l0, m. split; [reflexivity | now apply mexec_for_first].
  - intros l t (D & lt & mt & -> & HM).
    rewrite (mexec_for_owned [idx] x i c u b (mkM l mF [])) in HM; cbn [m_loc m_pos m_out] in HM |- *; try assumption.
    2: { intros H. apply D in H. unfold ld in H. rewrite lookup_declare, Nat.eqb_refl in H. discriminate. }
    2: { unfold mF. rewrite pos_get_set_same. discriminate. }
    destruct (truthy (eval c l)).
    + intros l1 o1 r1 E1 N1.
      destruct (block_quiet b (quiet_block_sim b Hq) [O; idx] l mF [] l1 o1 r1) as (_ & D1 & M1);
        [apply fresh_under_marker, Hf | exact E1 |].
      rewrite M1 in HM.
      destruct r1 as [| v |]; [| | congruence]; cbn [out_of with_loc m_loc m_pos m_out] in HM;
        (eexists; split; [eapply step_exec; [exact Hn | exact HM] |]).
      * split; [| eexists _, _; split; reflexivity].
        eapply same_dom_trans; [eassumption |]. eapply same_dom_trans; [eassumption | apply same_dom_assign].
      * repeat split.
    + eexists. split; [eapply step_exec; [exact Hn | exact HM] |].
      apply passed_next; [now apply same_dom_undeclare with (v := eval i l0) | rewrite Hdel; apply stale_S, Hm].
  - exists t'. destruct r2 as [| v |]; [| | congruence]; injection E as <- <- <-; split; assumption.
Qed.

Lemma top_ok_sim : forall s, top_ok s = true -> top_sim s.
Proof.
  intros s H. destruct s; cbn in H; try (apply quiet_top_sim; exact H).
  - apply yield_sim.
  - apply orb_true_iff in H as [H | H]; [now apply while_sim |].
    destruct (quiet_yield_last_split b H) as (b0 & -> & Q). now apply while_yield_sim.
  - now apply for_sim.
Qed.

Lemma nth_error_mid : forall (pre : list stmt) s rest, nth_error (pre ++ s :: rest) (length pre) = Some s.
Proof. intros. rewrite nth_error_app2 by lia. now rewrite Nat.sub_diag. Qed.

Lemma done_after_mid : forall (pre : list stmt) s rest,
  done_after (pre ++ s :: rest) (length pre) = true -> rest = [].
Proof.
  intros pre s rest H. unfold done_after in H. apply negb_true_iff, Nat.ltb_ge in H.
  rewrite app_length in H. cbn in H. destruct rest; [reflexivity | cbn in H; lia].
Qed.

Lemma body_sim : forall rest pre l ret0 dn m,
  forallb top_ok rest = true ->
  (forall z, In z (flat_map for_var rest) -> lookup z l = None) ->
  (dn = true -> rest = []) -> stale (length pre) m ->
  forall l' out r, sblock_with SX rest l = (l', out, r) -> r <> SFuel ->
  exists t', reaches (T (pre ++ rest) (length pre) l m dn ret0) t' out /\
    t_done t' = true /\ t_stuck t' = false /\ t_ret t' = ret_of r ret0 /\ (r = SNormal -> t_loc t' = l').
Proof.
  induction rest as [| s rest IH]; intros pre l ret0 dn m Htop Hfv Hdn Hm l' out r E N; cbn [sblock_with] in E.
  - injection E as <- <- <-. destruct dn.
    + eexists. split; [apply reaches_refl | repeat split].
    + exists (T (pre ++ []) (length pre) l m true ret0). split; [| repeat split].
      apply (reaches_one _ _ []). unfold mstep, T. cbn [t_done t_stuck orb t_body t_idx].
      now rewrite (proj2 (nth_error_None _ _)) by (rewrite app_nil_r; apply le_n).
  - assert (dn = false) as -> by (destruct dn; [specialize (Hdn eq_refl); discriminate | reflexivity]).
    cbn [forallb] in Htop. apply andb_true_iff in Htop as [Hs Htop]. fold (sblock_with SX) in E.
    destruct (SX s l) as [[l1 o1] r1] eqn:E1.
    assert (N1 : r1 <> SFuel) by (intros ->; congruence).
    destruct (top_ok_sim s Hs (pre ++ s :: rest) (length pre) l m ret0 l1 o1 r1 (nth_error_mid pre s rest) Hm)
      as (t1 & R1 & F1); [intros z Hz; apply Hfv, in_or_app; now left | exact E1 | exact N1 |].
    destruct r1 as [| v |]; [| | congruence].
    + destruct F1 as (D1 & m1 & dn1 & Hm1 & Hdn1 & ->).
      destruct (sblock_with SX rest l1) as [[l2 o2] r2] eqn:E2. injection E as <- <- <-.
      destruct (IH (pre ++ [s]) l1 ret0 dn1 m1 Htop) with (l' := l2) (out := o2) (r := r2) as (t' & R & F);
        [| intros H; apply (done_after_mid pre s rest), Hdn1, H | | exact E2 | exact N |].
      * intros z Hz. apply D1, Hfv, in_or_app. now right.
      * rewrite app_length, Nat.add_1_r. exact Hm1.
      * rewrite <- app_assoc, app_length, Nat.add_1_r in R.
        exists t'. split; [eapply reaches_trans; eassumption | exact F].
    + injection E as <- <- <-. exists t1. split; [exact R1 |].
      destruct F1 as (F1 & F2 & F3). repeat split; try assumption. discriminate.
Qed.

Lemma register_auto_true : forall body, register_auto body = true.
Proof. intros body. unfold register_auto. destruct (negb (existsb has_yield body)); reflexivity. Qed.

(* For every body of the fragment, every argument list, every await oracle: if the body run alone
   ends (normally or by return) then after finitely many step grants the task is complete, and for
   every larger number of grants the concatenated output of the steps, the result and the locals
   are those of the body run alone. *)
Theorem resume_refines : forall body args l' out r,
  wf_body (map fst args) body = true ->
  spec_run aw fuel body args = (l', out, r) -> r <> SFuel ->
  exists n t' ev,
    (forall m, (n <= m)%nat -> mrun' m (spawn body args) = (t', ev)) /\
    t_done t' = true /\ t_stuck t' = false /\ outputs_of ev = out /\
    t_ret t' = ret_of r None /\ (r = SNormal -> t_loc t' = l').
Proof.
  intros body args l' out r Hwf E N. unfold wf_body in Hwf. apply andb_true_iff in Hwf as [Ht Hd].
  destruct (body_sim body [] args None false [] Ht) with (l' := l') (out := out) (r := r)
    as (t' & (n & ev & R & O) & Hdone & F); [| discriminate | intros j _; apply fresh_nil | exact E | exact N |].
  - intros z Hz. apply lookup_not_in. rewrite disjointb_spec in Hd. now apply Hd.
  - exists n, t', ev. split; [| tauto].
    intros k Hk. replace k with (n + (k - n))%nat by lia. rewrite <- (app_nil_r ev).
    apply mrun_app with (t1 := t'); [| apply halted_final; now rewrite Hdone].
    unfold spawn. now rewrite register_auto_true.
Qed.

End R.
