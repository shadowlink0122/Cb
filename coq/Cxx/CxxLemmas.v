(* Lemmas about the Cxx embedding (not part of the trusted base):
   - the literal constants of Cxx.v are what they should be, conversions are the identity on representable values;
   - a continuation-passing copy of the evaluator ([evalK], [execK], [runK]) with [run f op args = runK f op args id]:
     normalising [runK] with the Z operations kept folded yields a decision tree whose inner nodes are the tests on
     the (symbolic) operands and whose leaves are results, which is what the proofs about generated functions use;
   - a while statement as a function of its fuel ([while_loop]), for inductions over a loop;
   - a value returned by any function of the fragment lies in the declared return type;
   - the tactics [cxx_tree] / [cxx_cases] that compute the decision tree of a call and split along it. *)
From Coq Require Import ZArith Bool String List Lia.
From Cb Require Import Cxx.Cxx.
Import ListNotations.
Local Open Scope Z_scope.

(* the constants of the integer types (long double: [ld_round], see Cxx.v) *)
Lemma bits_spec t : bits t = match t with TBool => 1 | TInt | TUInt => 32 | _ => 64 end.
Proof. destruct t; reflexivity. Qed.
Lemma modulus_spec t : modulus t = 2 ^ bits t.
Proof. destruct t; reflexivity. Qed.
Lemma tmin_spec t : is_ld t = false -> tmin t = if signed t then - 2 ^ (bits t - 1) else 0.
Proof. destruct t; try discriminate; reflexivity. Qed.
Lemma tmax_spec t : is_ld t = false -> tmax t = if signed t then 2 ^ (bits t - 1) - 1 else 2 ^ bits t - 1.
Proof. destruct t; try discriminate; reflexivity. Qed.
Lemma range_size t : is_ld t = false -> tmax t - tmin t + 1 = modulus t.
Proof. destruct t; try discriminate; reflexivity. Qed.

Lemma in_range_iff t z : is_ld t = false -> (in_range t z = true <-> tmin t <= z <= tmax t).
Proof. intros Ht. unfold in_range. destruct t; try discriminate; rewrite andb_true_iff, !Z.leb_le; tauto. Qed.

Lemma lit_ok_spec t z : is_ld t = false -> lit_ok t z = in_range t z.
Proof.
  intros Ht. unfold lit_ok, in_range, Z.leb. destruct t; try discriminate; destruct (_ ?= z), (z ?= _); reflexivity.
Qed.
(* a long double literal must be exactly representable: magnitude below 2^64 is enough *)
Lemma lit_ok_ld z : lit_ok TLDouble z = true -> in_range TLDouble z = true.
Proof.
  unfold lit_ok, in_range, ld_round. destruct (Z.abs z ?= 18446744073709551616) eqn:E; try discriminate. intros _.
  apply Z.compare_lt_iff in E. apply Z.ltb_lt in E. rewrite E. apply Z.eqb_refl.
Qed.

(* [conv.integral]: a representable value is unchanged; the result is always representable and congruent *)
Lemma conv_id t z : in_range t z = true -> conv t z = z.
Proof.
  intros H. destruct t; [| | | | |apply Z.eqb_eq in H; exact H];
    (apply in_range_iff in H; [|reflexivity]); cbn [conv signed tmin tmax modulus b2z nonzero] in *.
  1: assert (z = 0 \/ z = 1) as [-> | ->] by lia; reflexivity.
  all: rewrite Z.mod_small; lia.
Qed.
Lemma conv_in_range t z : is_ld t = false -> in_range t (conv t z) = true.
Proof.
  intros Ht. apply in_range_iff; [exact Ht|]. destruct t; try discriminate; cbn [conv signed tmin tmax modulus].
  1: destruct z; cbn; lia.
  all: match goal with |- context [?x mod ?m] => pose proof (Z.mod_pos_bound x m eq_refl) end; lia.
Qed.
Lemma conv_congruent t z : t <> TBool -> is_ld t = false -> (conv t z - z) mod modulus t = 0.
Proof.
  intros Ht Hl. destruct t; try congruence; try discriminate; cbn [conv signed tmin modulus];
    match goal with |- context [?x mod ?m + ?c] =>
      replace (x mod m + c - z) with (x mod m - x) by lia end || idtac;
    rewrite Zminus_mod, Z.mod_mod, Z.sub_diag by lia; reflexivity.
Qed.

Section K.
  Context {A : Type}.

  Definition fitK (t : ity) (r : Z) (what : string) (k : eres -> A) : A :=
    if signed t then (if in_range t r then k (EV (t, r)) else k (EUB what)) else k (EV (t, r mod modulus t)).
  Lemma fitK_ok t r w k : fitK t r w k = k (fit t r w).
  Proof. unfold fitK, fit. destruct (signed t); [destruct (in_range t r)|]; reflexivity. Qed.

  Definition arith2K (o : binop) (t : ity) (a b : Z) (k : eres -> A) : A :=
    if is_ld t then k (ld_arith o a b) else
    match o with
    | BAdd => fitK t (a + b) ub_add k | BSub => fitK t (a - b) ub_sub k | BMul => fitK t (a * b) ub_mul k
    | BDiv => if b =? 0 then k (EUB ub_div0) else fitK t (Z.quot a b) ub_divovf k
    | BRem => if b =? 0 then k (EUB ub_rem0)
              else if in_range t (Z.quot a b) then k (EV (t, Z.rem a b)) else k (EUB ub_removf)
    | _ => k (arith2 o t a b)
    end.
  Lemma arith2K_ok o t a b k : arith2K o t a b k = k (arith2 o t a b).
  Proof.
    unfold arith2K, arith2. destruct (is_ld t); [reflexivity|].
    destruct o; rewrite ?fitK_ok; try reflexivity;
      (destruct (b =? 0); [reflexivity|]); rewrite ?fitK_ok; try reflexivity.
    destruct (in_range t (Z.quot a b)); reflexivity.
  Qed.

  Definition shiftK (o : binop) (t : ity) (a n : Z) (k : eres -> A) : A :=
    if is_ld t then k (shift o t a n) else
    if n <? 0 then k (EUB ub_shcount)
    else if bits t <=? n then k (EUB ub_shcount)
    else match o with
         | BShl => if signed t then
                     if a <? 0 then k (EUB ub_shlneg)
                     else if a * 2 ^ n <=? tmax (to_unsigned t) then k (EV (t, conv t (a * 2 ^ n)))
                          else k (EUB ub_shlovf)
                   else k (EV (t, (a * 2 ^ n) mod modulus t))
         | _ => k (EV (t, a / 2 ^ n))
         end.
  Lemma shiftK_ok o t a n k : shiftK o t a n k = k (shift o t a n).
  Proof.
    unfold shiftK. destruct (is_ld t) eqn:El; [reflexivity|]. unfold shift. rewrite El. destruct (n <? 0); [reflexivity|]. cbn [orb]. destruct (bits t <=? n); [reflexivity|].
    destruct o; try reflexivity. destruct (signed t); [|reflexivity]. destruct (a <? 0); [reflexivity|].
    destruct (a * 2 ^ n <=? tmax (to_unsigned t)); reflexivity.
  Qed.

  Definition binopK (o : binop) (va vb : value) (k : eres -> A) : A :=
    let (ta, a) := va in let (tb, b) := vb in
    let pa := promote ta in let pb := promote tb in
    if is_shift o then shiftK o pa (conv pa a) (conv pb b) k
    else let t := common pa pb in arith2K o t (conv t a) (conv t b) k.
  Lemma binopK_ok o va vb k : binopK o va vb k = k (binop_sem o va vb).
  Proof.
    destruct va as [ta a], vb as [tb b]. unfold binopK, binop_sem.
    destruct (is_shift o); [apply shiftK_ok|apply arith2K_ok].
  Qed.

  Definition unopK (o : unop) (v : value) (k : eres -> A) : A :=
    let (t, a) := v in let p := promote t in
    if is_ld p then k (unop_sem o (t, a)) else
    match o with
    | UNeg => if signed p then fitK p (- conv p a) ub_neg k else k (EV (p, (- conv p a) mod modulus p))
    | _ => k (unop_sem o (t, a))
    end.
  Lemma unopK_ok o v k : unopK o v k = k (unop_sem o v).
  Proof.
    destruct v as [t a]. unfold unopK. destruct (is_ld (promote t)) eqn:El; [reflexivity|].
    destruct o; try reflexivity. cbn [unop_sem]. rewrite El.
    destruct (signed (promote t)); [apply fitK_ok|reflexivity].
  Qed.

  Definition castK (ta t : ity) (z : Z) (k : eres -> A) : A :=
    if is_ld ta && negb (is_ld t) && negb (ity_eqb t TBool)
    then (if in_range t z then k (EV (t, z)) else k (EUB ub_fpint))
    else k (EV (t, conv t z)).
  Lemma castK_ok ta t z k : castK ta t z k = k (cast ta t z).
  Proof. unfold castK, cast. destruct (_ && _ && _); [destruct (in_range t z)|]; reflexivity. Qed.

  (* the test of a bool-converted value, as a two-way branch on the Coq boolean *)
  Definition whenK (z : Z) (yes no : A) : A := if nonzero z then yes else no.

  Fixpoint evalK (ve : vecs) (sp : string * string) (en : env) (e : expr) (k : eres -> A) {struct e} : A :=
    match e with
    | ECast t a => evalK ve sp en a (fun r => match r with EV (ta, z) => castK ta t z k | r => k r end)
    | EUn o a => evalK ve sp en a (fun r => match r with EV v => unopK o v k | r => k r end)
    | EBin o a b =>
        evalK ve sp en a (fun ra => match ra with
          | EV va => evalK ve sp en b (fun rb => match rb with EV vb => binopK o va vb k | r => k r end)
          | r => k r end)
    | ELAnd a b =>
        evalK ve sp en a (fun ra => match ra with
          | EV (_, za) => whenK za (evalK ve sp en b (fun rb => match rb with EV (_, zb) => k (EV (TBool, conv TBool zb)) | r => k r end))
                                   (k (EV (TBool, 0)))
          | r => k r end)
    | ELOr a b =>
        evalK ve sp en a (fun ra => match ra with
          | EV (_, za) => whenK za (k (EV (TBool, 1)))
                                   (evalK ve sp en b (fun rb => match rb with EV (_, zb) => k (EV (TBool, conv TBool zb)) | r => k r end))
          | r => k r end)
    | ECond c a b =>
        evalK ve sp en c (fun rc => match rc, type_of ve en e with
          | EV (_, zc), Some t =>
              let k' := fun r => match r with EV (_, z) => k (EV (t, conv t z)) | r => k r end in
              whenK zc (evalK ve sp en a k') (evalK ve sp en b k')
          | EV _, None => k (EStuck "untypable ?:")
          | r, _ => k r end)
    | EVecAt v i =>
        match vlookup v ve with
        | Some (t, l) => evalK ve sp en i (fun r => match r with
            | EV (_, z) => if conv TULong z <? vec_len l then k (EV (t, vec_nth l (conv TULong z))) else k (EUB ub_index)
            | r => k r end)
        | None => k (EStuck ("unbound vector " ++ v))
        end
    | _ => k (eval ve sp en e)
    end.

  Lemma evalK_ok ve sp en e : forall k, evalK ve sp en e k = k (eval ve sp en e).
  Proof.
    induction e; intros k; cbn [evalK eval]; try reflexivity.
    - rewrite IHe. destruct (eval ve sp en e) as [[t' z]| |]; [apply castK_ok|reflexivity|reflexivity].
    - rewrite IHe. destruct (eval ve sp en e) as [v| |]; [apply unopK_ok|reflexivity|reflexivity].
    - rewrite IHe1. destruct (eval ve sp en e1) as [va| |]; try reflexivity.
      rewrite IHe2. destruct (eval ve sp en e2) as [vb| |]; [apply binopK_ok|reflexivity|reflexivity].
    - rewrite IHe1. destruct (eval ve sp en e1) as [[ta za]| |]; try reflexivity. unfold whenK.
      destruct (nonzero za); [|reflexivity]. rewrite IHe2. destruct (eval ve sp en e2) as [[tb zb]| |]; reflexivity.
    - rewrite IHe1. destruct (eval ve sp en e1) as [[ta za]| |]; try reflexivity. unfold whenK.
      destruct (nonzero za); [reflexivity|]. rewrite IHe2. destruct (eval ve sp en e2) as [[tb zb]| |]; reflexivity.
    - rewrite IHe1. destruct (eval ve sp en e1) as [[tc zc]| |]; try reflexivity.
      destruct (type_of ve en (ECond e1 e2 e3)) as [t|]; [|reflexivity].
      unfold whenK. destruct (nonzero zc); [rewrite IHe2|rewrite IHe3];
        match goal with |- context [eval ve sp en ?x] => destruct (eval ve sp en x) as [[? ?]| |] end; reflexivity.
    - destruct (vlookup v ve) as [[t l]|]; [|reflexivity]. rewrite IHe.
      destruct (eval ve sp en e) as [[ti z]| |]; try reflexivity. unfold vec_at. destruct (conv TULong z <? vec_len l); reflexivity.
  Qed.

  Definition liftK (r : eres) (k : Z -> A) (done : result -> A) : A :=
    match r with EV (_, z) => k z | EUB w => done (RUB w) | EStuck w => done (RStuck w) end.

  Definition errK (r : eres) (k : value -> A) (done : result -> A) : A :=
    match r with EV v => k v | EUB w => done (RUB w) | EStuck w => done (RStuck w) end.

  Fixpoint eval_argsK (ve : vecs) (sp : string * string) (en : env) (es : list expr) (k : result + list value -> A) : A :=
    match es with
    | [] => k (inr [])
    | e :: r => evalK ve sp en e (fun x => match x with
                  | EV v => eval_argsK ve sp en r (fun y => match y with inr vs => k (inr (v :: vs)) | inl z => k (inl z) end)
                  | EUB w => k (inl (RUB w))
                  | EStuck w => k (inl (RStuck w))
                  end)
    end.
  Lemma eval_argsK_ok ve sp en es : forall k, eval_argsK ve sp en es k = k (eval_args ve sp en es).
  Proof.
    induction es as [|e r IH]; intros k; cbn [eval_argsK eval_args]; [reflexivity|].
    rewrite evalK_ok. destruct (eval ve sp en e) as [v| |]; try reflexivity.
    rewrite IH. destruct (eval_args ve sp en r); reflexivity.
  Qed.

  (* [next] continues after the statement, [done] leaves the function; a loop is not opened, its outcome is handed to the
     continuations as it is *)
  Fixpoint execK (ve : vecs) (fuel : nat) (sp : string * string) (rt : ity) (en : env) (s : stmt) (next : env -> A) (done : result -> A) : A :=
    match s with
    | SSkip | SEffect _ => next en
    | SSeq a b => execK ve fuel sp rt en a (fun en' => execK ve fuel sp rt en' b next done) done
    | SReturn e => evalK ve sp en e (fun r => match r with
        | EV (te, z) => castK te rt z (fun c => done (match c with EV v => RVal v | EUB w => RUB w | EStuck w => RStuck w end))
        | EUB w => done (RUB w) | EStuck w => done (RStuck w) end)
    | SThrow m => done (match msg_text ve sp en m with Some t => RThrow t | None => RStuck "exception text" end)
    | SIf c a b =>
        evalK ve sp en c (fun r => liftK r (fun z =>
          whenK z (execK ve fuel sp rt en a (fun en' => next (leave en en')) done)
                  (execK ve fuel sp rt en b (fun en' => next (leave en en')) done)) done)
    | SDecl t x e => evalK ve sp en e (fun r => match r with
        | EV (te, z) => castK te t z (fun c => errK c (fun v => next ((x, v) :: en)) done)
        | EUB w => done (RUB w) | EStuck w => done (RStuck w) end)
    | SAssign x e => evalK ve sp en e (fun r => match r, lookup x en with
        | EV (te, z), Some (t, _) => castK te t z (fun c => errK c (fun v => next (update x v en)) done)
        | EV _, None => done (RStuck ("assignment to the unbound name " ++ x))
        | EUB w, _ => done (RUB w) | EStuck w, _ => done (RStuck w) end)
    | SReturnVoid => done RVoid
    | SReturnCall tag es => eval_argsK ve sp en es (fun r => done (match r with inr vs => RCall tag vs | inl r => r end))
    | SBlock a => execK ve fuel sp rt en a (fun en' => next (leave en en')) done
    | SWhile c b => match exec ve fuel sp rt en s with ONext en' => next en' | ODone r => done r end
    end.

  Lemma execK_ok ve fuel sp rt s : forall en next done,
    execK ve fuel sp rt en s next done = match exec ve fuel sp rt en s with ONext en' => next en' | ODone r => done r end.
  Proof.
    induction s; intros en next done; cbn [execK exec]; try reflexivity.
    - rewrite IHs1. destruct (exec ve fuel sp rt en s1); [apply IHs2|reflexivity].
    - rewrite evalK_ok. destruct (eval ve sp en e) as [[t z]| |]; try reflexivity. rewrite castK_ok. reflexivity.
    - rewrite evalK_ok. destruct (eval ve sp en c) as [[t z]| |]; cbn [liftK lift]; try reflexivity.
      unfold whenK. destruct (nonzero z); [rewrite IHs1; destruct (exec ve fuel sp rt en s1)|rewrite IHs2; destruct (exec ve fuel sp rt en s2)];
        reflexivity.
    - rewrite evalK_ok. destruct (eval ve sp en e) as [[t' z]| |]; try reflexivity. rewrite castK_ok.
      destruct (cast t' t z); reflexivity.
    - rewrite evalK_ok. destruct (eval ve sp en e) as [[t' z]| |]; try reflexivity.
      destruct (lookup x en) as [[t w]|]; [|reflexivity]. rewrite castK_ok. destruct (cast t' t z); reflexivity.
    - rewrite eval_argsK_ok. reflexivity.
    - rewrite IHs. destruct (exec ve fuel sp rt en s); reflexivity.
  Qed.

  Fixpoint bindK (ps : list (string * ity)) (args : list (string * value)) (k : option env -> A) : A :=
    match ps, args with
    | [], [] => k (Some [])
    | (x, t) :: ps', (y, (u, z)) :: args' =>
        if String.eqb x y && ity_eqb t u then
          if is_ld t then
            if ld_round z =? z then bindK ps' args' (fun r => k (option_map (cons (x, (t, z))) r)) else k None
          else if tmin t <=? z then
            if z <=? tmax t then bindK ps' args' (fun r => k (option_map (cons (x, (t, z))) r)) else k None
          else k None
        else k None
    | _, _ => k None
    end.
  Lemma bindK_ok ps : forall args k, bindK ps args k = k (bind ps args).
  Proof.
    induction ps as [|[x t] ps IH]; intros [|[y [u z]] args] k; cbn [bindK bind]; try reflexivity.
    destruct (String.eqb x y && ity_eqb t u); cbn [andb]; [|reflexivity].
    destruct t; cbn [is_ld in_range]; try (destruct (ld_round z =? z); [apply IH|reflexivity]);
      (destruct (_ <=? z); cbn [andb]; [|reflexivity]); (destruct (z <=? _); [apply IH|reflexivity]).
  Qed.

  (* a function with vector parameters: the arguments are taken as they are once they are known to be well formed *)
  Definition run_vecK (fuel : nat) (f : vfn) (op : string) (ve : vecs) (args : list (string * value)) (k : result -> A) : A :=
    bindK (f_params (v_fn f)) args (fun r => match r with
      | None => k (RStuck "arguments do not match the parameters")
      | Some en => execK ve fuel (f_sparam (v_fn f), op) (f_ret (v_fn f)) en (f_body (v_fn f)) (fun _ => k RFallOff) k
      end).
  Lemma run_vecK_ok fuel f op vargs args k : bind_vecs (v_vecs f) vargs = Some vargs ->
    run_vecK fuel f op vargs args k = k (run_vec fuel f op vargs args).
  Proof.
    intros Hb. unfold run_vec, run_vecK. rewrite Hb, bindK_ok. destruct (bind _ args); [|reflexivity].
    rewrite execK_ok. destruct (exec _ _ _ _ _ _); reflexivity.
  Qed.

  (* [run] is [run_vec] without vectors and without fuel *)
  Definition no_vecs (f : fn) : vfn := {| v_fn := f; v_vecs := [] |}.
  Definition runK (f : fn) (op : string) (args : list (string * value)) (k : result -> A) : A :=
    run_vecK 0 (no_vecs f) op [] args k.
End K.

Lemma run_as_tree f op args : run f op args = runK f op args (fun r => r).
Proof. symmetry. exact (run_vecK_ok 0 (no_vecs f) op [] args (fun r => r) eq_refl). Qed.

(* [exec] of a while statement is [while_loop] started with the full fuel; [while_loop] is the object of the inductions in the
   proofs about functions with a loop. *)
Section While.
  Variables (ve : vecs) (fuel : nat) (sp : string * string) (rt : ity) (c : expr) (b : stmt).
  Fixpoint while_loop (n : nat) (en : env) {struct n} : outcome :=
    match n with
    | O => ODone RNoFuel
    | S n' => lift (eval ve sp en c) (fun z =>
                if nonzero z
                then match exec ve fuel sp rt en b with ONext en' => while_loop n' (leave en en') | d => d end
                else ONext en)
    end.
End While.
Lemma exec_while ve fuel sp rt en c b : exec ve fuel sp rt en (SWhile c b) = while_loop ve fuel sp rt c b fuel en.
Proof. reflexivity. Qed.
Lemma while_loop_S ve fuel sp rt c b n en :
  while_loop ve fuel sp rt c b (S n) en =
  lift (eval ve sp en c) (fun z =>
    if nonzero z then match exec ve fuel sp rt en b with ONext en' => while_loop ve fuel sp rt c b n (leave en en') | d => d end
    else ONext en).
Proof. reflexivity. Qed.

(* a value returned by ANY function of the fragment has the declared return type and lies inside it *)
Lemma cast_in_range ta t z v : is_ld t = false -> cast ta t z = EV v -> fst v = t /\ in_range t (snd v) = true.
Proof.
  intros Ht. unfold cast. destruct (_ && _ && _).
  - destruct (in_range t z) eqn:E; [|discriminate]. intros H. injection H as <-. auto.
  - intros H. injection H as <-. split; [reflexivity|apply conv_in_range; exact Ht].
Qed.
Lemma eval_args_errors ve sp en es r : eval_args ve sp en es = inl r -> (exists w, r = RUB w) \/ (exists w, r = RStuck w).
Proof.
  revert r. induction es as [|e es IH]; intros r; cbn [eval_args]; [discriminate|].
  destruct (eval ve sp en e); [|intros H; injection H as <-; eauto..].
  destruct (eval_args ve sp en es); [intros H; injection H as <-; apply IH; reflexivity|discriminate].
Qed.
Lemma exec_returns_in_range ve fuel sp rt s : is_ld rt = false ->
  forall en ty z, exec ve fuel sp rt en s = ODone (RVal (ty, z)) -> ty = rt /\ in_range rt z = true.
Proof.
  intros Hrt. induction s; intros en ty z; rewrite ?exec_while; cbn [exec]; try discriminate.
  - destruct (exec ve fuel sp rt en s1) eqn:E1; [apply IHs2|intros H; injection H as ->; eapply IHs1; eassumption].
  - destruct (eval ve sp en e) as [[t' z']| |]; try discriminate.
    destruct (cast t' rt z') eqn:E; try discriminate. intros H. injection H as ->.
    apply cast_in_range in E; [exact E|exact Hrt].
  - destruct (msg_text ve sp en m); discriminate.
  - destruct (eval ve sp en c) as [[t' z']| |]; cbn [lift]; try discriminate.
    destruct (nonzero z').
    + destruct (exec ve fuel sp rt en s1) eqn:E1; [discriminate|]. intros H. injection H as ->. eapply IHs1; eassumption.
    + destruct (exec ve fuel sp rt en s2) eqn:E2; [discriminate|]. intros H. injection H as ->. eapply IHs2; eassumption.
  - destruct (eval ve sp en e) as [[t' z']| |]; try discriminate. destruct (cast t' t z'); discriminate.
  - destruct (eval ve sp en e) as [[t' z']| |]; try discriminate.
    destruct (lookup x en) as [[t w]|]; [|discriminate]. destruct (cast t' t z'); discriminate.
  - destruct (eval_args ve sp en args) eqn:E; [|discriminate].
    apply eval_args_errors in E as [[w ->] | [w ->]]; discriminate.
  - destruct (exec ve fuel sp rt en s) eqn:E1; [discriminate|]. intros H. injection H as ->. eapply IHs; eassumption.
  - (* induction on the iterations left; the body is run with the full fuel *)
    generalize fuel at 2. intros n. revert en. induction n as [|n IHn]; intros en; [discriminate|]. rewrite while_loop_S.
    destruct (eval ve sp en c) as [[t' z']| |]; cbn [lift]; try discriminate.
    destruct (nonzero z'); [|discriminate].
    destruct (exec ve fuel sp rt en s) eqn:E1; [apply IHn|]. intros H. injection H as ->. eapply IHs; eassumption.
Qed.
Lemma run_vec_returns_in_range fuel f op vargs args t z : is_ld (f_ret (v_fn f)) = false ->
  run_vec fuel f op vargs args = RVal (t, z) -> t = f_ret (v_fn f) /\ in_range (f_ret (v_fn f)) z = true.
Proof.
  intros Hr. unfold run_vec. destruct (bind_vecs _ _); [|discriminate]. destruct (bind _ _); [|discriminate].
  destruct (exec _ _ _ _ _ _) eqn:E; [discriminate|]. intros ->. eapply exec_returns_in_range; eassumption.
Qed.
Lemma run_returns_in_range f op args t z : is_ld (f_ret f) = false ->
  run f op args = RVal (t, z) -> t = f_ret f /\ in_range (f_ret f) z = true.
Proof. exact (run_vec_returns_in_range 0 (no_vecs f) op [] args t z). Qed.

(* [cxx_tree]: rewrite the goal's [run f op args] (f, op and the shape of args concrete, operand values symbolic) into its
   decision tree.  [cxx_cases]: split the tree along its tests, innermost test first, folding closed arithmetic on the way.
   The tree is a normal form in which the Z operations, [ld_round] and [dec_string] stay folded.  It is computed with [lazy]: a
   strategy that evaluates arguments first would build both subtrees of a test ([whenK]) before looking at the test, also
   where the test is decided.  Only the call is normalised, the rest of the goal is left as written. *)
Ltac cxx_tree :=
  rewrite run_as_tree;
  match goal with
  | |- context [@runK ?A ?f ?op ?args ?k] =>
      let t := constr:(@runK A f op args k) in
      let t' := eval lazy -[Z.add Z.sub Z.mul Z.opp Z.quot Z.rem Z.div Z.modulo Z.pow Z.land Z.lor Z.lxor Z.eqb Z.leb Z.ltb ld_round dec_string] in t in
      change t with t'
  end.

(* [fold_consts]: every closed application of a Z operation (or of [ld_round]) -> its value, then beta and iota.

   [no_atom z]: z is built from literals by the operations; what stands under [Zpos] and [Zneg] is not looked at. *)
Ltac no_atom z :=
  lazymatch z with
  | Z0 => idtac | Zpos _ => idtac | Zneg _ => idtac
  | Z.opp ?x => no_atom x | ld_round ?x => no_atom x
  | Z.add ?x ?y => no_atom x; no_atom y | Z.sub ?x ?y => no_atom x; no_atom y
  | Z.mul ?x ?y => no_atom x; no_atom y | Z.quot ?x ?y => no_atom x; no_atom y
  | Z.rem ?x ?y => no_atom x; no_atom y | Z.div ?x ?y => no_atom x; no_atom y
  | Z.modulo ?x ?y => no_atom x; no_atom y | Z.pow ?x ?y => no_atom x; no_atom y
  | Z.land ?x ?y => no_atom x; no_atom y | Z.lor ?x ?y => no_atom x; no_atom y
  | Z.lxor ?x ?y => no_atom x; no_atom y
  end.
(* t -> its value, provided that is a literal (v =? v does not compute otherwise).  Once a test is decided its branch is
   taken at once: the subtree that goes is usually most of the goal, and every later step walks through what is left. *)
Ltac fold_to t :=
  let v := eval vm_compute in t in
  lazymatch v with
  | true => change t with v; cbv beta iota
  | false => change t with v; cbv beta iota
  | _ => lazymatch eval vm_compute in (v =? v) with true => change t with v end
  end.
Ltac fold_bin op := match goal with |- context [op ?x ?y] => no_atom x; no_atom y; fold_to (op x y) end.
Ltac fold_un op := match goal with |- context [op ?x] => no_atom x; fold_to (op x) end.
(* The comparisons come first since they are what decides tests.  The steps are made on a copy of the goal, stated as
   [folded G], and the goal is then converted to the outcome G' in one step: the proof term gets one conversion, which never
   looks into the subtrees that go, where it would otherwise get one per step, each carrying the whole goal of its time. *)
Inductive folded (P : Type) : Prop := Folded.
Ltac fold_consts :=
  lazymatch goal with |- ?G =>
    let r := constr:(ltac:(repeat first [ fold_bin Z.eqb | fold_bin Z.leb | fold_bin Z.ltb | fold_bin Z.add | fold_bin Z.sub
                                        | fold_bin Z.modulo | fold_bin Z.mul | fold_bin Z.land | fold_bin Z.pow | fold_bin Z.quot
                                        | fold_bin Z.rem | fold_bin Z.div | fold_bin Z.lor | fold_bin Z.lxor
                                        | fold_un Z.opp | fold_un ld_round ];
                           cbv beta iota; lazymatch goal with |- folded ?G' => exact (Folded G') end) : folded G) in
    lazymatch r with context [Folded ?G'] => first [constr_eq G G' | change G'] end
  end.

(* split on one test whose condition contains no further test (closed conditions have been folded away) *)
Ltac cxx_split :=
  match goal with
  | |- context [if ?c then _ else _] =>
      lazymatch c with context [if _ then _ else _] => fail | _ => idtac end;
      destruct c eqn:?; cbv beta iota
  end.
Ltac cxx_cases := fold_consts; repeat (cxx_split; fold_consts).
