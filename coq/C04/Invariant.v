(* C04 - the conversion of a stored value ([coerce]) by its cases; the store invariant holds of the initial state and is preserved
   by every primitive, hence (Lang.Respect) by every evaluation of every expression and statement, for every fuel. *)
From Coq Require Import List ZArith Lia.
From Cb Require Import Lang.Syntax Lang.Sem Lang.Respect Lang.Print C04.Model.
Import ListNotations.
Local Open Scope Z_scope.

Lemma zero_in_range t : in_range t 0 = true.
Proof. destruct t as [b u]; destruct b, u; reflexivity. Qed.

(* the two ways of a conversion: a negative value for an unsigned target becomes 0; every other value is kept when the type
   admits it and rejected when not *)
Lemma coerce_cases t v :
  (uns t = true /\ v < 0 /\ coerce t v = Val 0) \/
  ((uns t = false \/ 0 <= v) /\ coerce t v = if in_range t v then Val v else Fail ERange).
Proof.
  unfold coerce. destruct (uns t); cbn [andb]; [|right; auto].
  destruct (Z.ltb_spec v 0); [left; auto|right; auto].
Qed.

Lemma coerce_in_range t v w : coerce t v = Val w -> in_range t w = true.
Proof.
  destruct (coerce_cases t v) as [(_ & _ & ->)|[_ ->]].
  - intros [= <-]. apply zero_in_range.
  - destruct (in_range t v) eqn:E; [|discriminate]. intros [= <-]. exact E.
Qed.

Lemma coerce_shape t v : (exists w, coerce t v = Val w) \/ coerce t v = Fail ERange.
Proof. destruct (coerce_cases t v) as [(_ & _ & ->)|[_ ->]]; [eauto|]. destruct (in_range t v); eauto. Qed.

Lemma coerce_id t v : in_range t v = true -> (uns t = true -> 0 <= v) -> coerce t v = Val v.
Proof.
  intros Hr Hu. destruct (coerce_cases t v) as [(U & Hv & _)|[_ ->]]; [specialize (Hu U); lia|]. rewrite Hr. reflexivity.
Qed.

Lemma unsigned_negative_clamps_l t v : uns t = true -> v < 0 -> coerce t v = Val 0.
Proof. intros Hu Hv. destruct (coerce_cases t v) as [(_ & _ & H)|[[U|H0] _]]; [exact H|congruence|lia]. Qed.

Lemma out_of_range_coerce_l t v : in_range t v = false -> (uns t = false \/ 0 <= v) -> coerce t v = Fail ERange.
Proof.
  intros Hr Hu. destruct (coerce_cases t v) as [(U & Hv & _)|[_ ->]]; [destruct Hu; [congruence|lia]|]. rewrite Hr. reflexivity.
Qed.

Lemma coerce_all_in_range t vs ws : coerce_all t vs = Val ws -> Forall (fun v => in_range t v = true) ws.
Proof.
  revert ws; induction vs as [|v r IH]; intros ws; cbn [coerce_all].
  - intros [= <-]. constructor.
  - destruct (coerce t v) as [w| | | |] eqn:E; try discriminate.
    destruct (coerce_all t r) as [r'| | | |]; try discriminate.
    intros [= <-]. constructor; [eapply coerce_in_range; exact E|apply IH; reflexivity].
Qed.

Lemma coerce_all_shape t vs : (exists ws, coerce_all t vs = Val ws) \/ coerce_all t vs = Fail ERange.
Proof.
  induction vs as [|v r IH]; cbn [coerce_all]; [left; eauto|].
  destruct (coerce_shape t v) as [[w ->]| ->]; [|right; reflexivity].
  destruct IH as [[ws ->]| ->]; [left; eauto|right; reflexivity].
Qed.
Lemma coerce_all_rejects t vs v : In v vs -> coerce t v = Fail ERange -> coerce_all t vs = Fail ERange.
Proof.
  induction vs as [|w r IH]; [intros []|]. intros [->|Hin] Hf; cbn [coerce_all].
  - rewrite Hf. reflexivity.
  - destruct (coerce_shape t w) as [[w' ->]| ->]; [|reflexivity]. rewrite (IH Hin Hf). reflexivity.
Qed.

Lemma pad_length n l : List.length (pad n l) = n.
Proof. revert l; induction n as [|k IH]; intros l; cbn [pad]; [reflexivity|]. destruct l; cbn [List.length]; rewrite IH; reflexivity. Qed.
Lemma pad_forall (P : Z -> Prop) n l : P 0 -> Forall P l -> Forall P (pad n l).
Proof.
  intros H0. revert l; induction n as [|k IH]; intros l Hl; cbn [pad]; [constructor|].
  destruct l as [|x r]; constructor; try assumption.
  - apply IH. constructor.
  - inversion Hl; assumption.
  - apply IH. inversion Hl; assumption.
Qed.
Lemma nth_forall (P : Z -> Prop) n l : P 0 -> Forall P l -> P (nth n l 0).
Proof. intros H0 Hl. revert n. induction Hl; intros [|n]; cbn [nth]; auto. Qed.
Lemma set_nth_length n v l : List.length (set_nth n v l) = List.length l.
Proof. revert n; induction l as [|x r IH]; intros n; destruct n; cbn [set_nth List.length]; try reflexivity. rewrite IH; reflexivity. Qed.
Lemma set_nth_forall (P : Z -> Prop) n v l : P v -> Forall P l -> Forall P (set_nth n v l).
Proof.
  intros Hv. revert n; induction l as [|x r IH]; intros n Hl; destruct n; cbn [set_nth]; try constructor;
    inversion Hl; subst; auto.
Qed.

Section Assoc.
Context {A : Type} (P : A -> Prop).
Lemma assoc_forall x l a : Forall (fun p => P (snd p)) l -> assoc x l = Some a -> P a.
Proof.
  induction l as [|[y b] r IH]; cbn [assoc]; [discriminate|]. intros Hl.
  inversion Hl; subst. destruct (Nat.eqb x y); [intros [= <-]; assumption|apply IH; assumption].
Qed.
Lemma assoc_set_forall x a l : Forall (fun p => P (snd p)) l -> P a -> Forall (fun p => P (snd p)) (assoc_set x a l).
Proof.
  intros Hl Ha. induction l as [|[y b] r IH]; cbn [assoc_set]; [constructor|].
  inversion Hl; subst. destruct (Nat.eqb x y); constructor; auto.
Qed.
End Assoc.

Lemma scopes_get_wf x ss e : Forall wf_scope ss -> scopes_get x ss = Some e -> wf_entry e.
Proof.
  induction ss as [|sc r IH]; cbn [scopes_get]; [discriminate|]. intros Hs. inversion Hs; subst.
  destruct (assoc x sc) eqn:E.
  - intros [= <-]. eapply (assoc_forall wf_entry); eassumption.
  - apply IH; assumption.
Qed.
Lemma scopes_set_wf x e ss : Forall wf_scope ss -> wf_entry e -> Forall wf_scope (scopes_set x e ss).
Proof.
  intros Hs He. induction ss as [|sc r IH]; cbn [scopes_set]; [constructor|]. inversion Hs; subst.
  destruct (assoc x sc); constructor; auto. apply (assoc_set_forall wf_entry); assumption.
Qed.
Lemma statics_of_wf f s : Forall (fun p => wf_scope (snd p)) (sstat s) -> wf_scope (statics_of f s).
Proof.
  intros H. unfold statics_of. destruct (assoc f (sstat s)) eqn:E; [|constructor].
  eapply (assoc_forall wf_scope); eassumption.
Qed.
Lemma set_stat_wf f sc l : Forall (fun p => wf_scope (snd p)) l -> wf_scope sc ->
  Forall (fun p => wf_scope (snd p)) (set_stat f sc l).
Proof.
  intros Hl Hs. unfold set_stat. destruct (assoc f l).
  - apply (assoc_set_forall wf_scope); assumption.
  - constructor; assumption.
Qed.

Lemma get_entry_wf x s e : wf_state s -> get_entry x s = Some e -> wf_entry e.
Proof.
  intros (Hg & Hf & Hs). unfold get_entry. destruct (sframes s) as [|f fr] eqn:Ef.
  - apply (assoc_forall wf_entry); assumption.
  - inversion Hf; subst. destruct (scopes_get x (fscopes f)) eqn:E1.
    + intros [= <-]. eapply scopes_get_wf; eassumption.
    + destruct (assoc x (statics_of (ffn f) s)) eqn:E2.
      * intros [= <-]. eapply (assoc_forall wf_entry); [apply statics_of_wf; exact Hs|exact E2].
      * apply (assoc_forall wf_entry); assumption.
Qed.

Lemma put_entry_wf x e s : wf_state s -> wf_entry e -> wf_state (put_entry x e s).
Proof.
  intros (Hg & Hf & Hs) He. unfold put_entry. destruct (sframes s) as [|f fr] eqn:Ef.
  - repeat split; cbn; try rewrite Ef; auto. apply (assoc_set_forall wf_entry); assumption.
  - inversion Hf; subst. destruct (scopes_get x (fscopes f)).
    + repeat split; cbn; auto. constructor; [|assumption]. unfold wf_frame; cbn. apply scopes_set_wf; assumption.
    + destruct (assoc x (statics_of (ffn f) s)).
      * repeat split; cbn; try rewrite Ef; auto. apply set_stat_wf; [assumption|].
        apply (assoc_set_forall wf_entry); [apply statics_of_wf; assumption|assumption].
      * repeat split; cbn; try rewrite Ef; auto. apply (assoc_set_forall wf_entry); assumption.
Qed.

Lemma wf_pres_refl s : wf_pres s s. Proof. intros H; exact H. Qed.
Lemma wf_pres_trans a b c : wf_pres a b -> wf_pres b c -> wf_pres a c.
Proof. unfold wf_pres; auto. Qed.

(* a write either stores the converted value into the cell it addresses or leaves the state as it was *)
Lemma m_write_cases x idx v s :
  match m_write x idx v s with
  | (Val _, s') => exists e k w, get_entry x s = Some e /\ flat_index (edims e) idx 0 = Some k /\ coerce (ety e) v = Val w /\
      s' = put_entry x {| ety := ety e; econst := false; edims := edims e; evals := set_nth (Z.to_nat k) w (evals e) |} s
  | (_, s') => s' = s
  end.
Proof.
  unfold m_write. destruct (get_entry x s) as [e|]; [|reflexivity]. destruct (econst e); [reflexivity|].
  destruct (flat_index _ _ _) as [k|] eqn:Hk; [|reflexivity]. destruct (coerce _ v) as [w| | | |] eqn:Hc; try reflexivity.
  exists e, k, w. auto.
Qed.

Lemma write_wf x i v : respects wf_pres (m_write x i v).
Proof.
  intros s Hw. pose proof (m_write_cases x i v s) as C. destruct (m_write x i v s) as [c s']. cbn [snd].
  destruct c; try (rewrite C; exact Hw). destruct C as (e & k & w & Hg & _ & Hc & ->).
  destruct (get_entry_wf _ _ _ Hw Hg) as [Hv Hl]. apply put_entry_wf; [exact Hw|]. split; cbn.
  - apply set_nth_forall; [eapply coerce_in_range; exact Hc|exact Hv].
  - rewrite set_nth_length. exact Hl.
Qed.

(* the entry a declaration or a global initialiser creates *)
Lemma declared_entry_wf t cst d vs ws : coerce_all t vs = Val ws ->
  wf_entry {| ety := t; econst := cst; edims := d; evals := pad (size_of d) ws |}.
Proof.
  intros Ec. split; cbn; [|apply pad_length]. apply pad_forall; [apply zero_in_range|]. eapply coerce_all_in_range; exact Ec.
Qed.

Lemma declare_wf sta cst t x d vs : respects wf_pres (m_declare sta cst t x d vs).
Proof.
  intros s Hw. unfold m_declare. destruct (coerce_all t vs) as [ws| | | |] eqn:Ec; try exact Hw.
  pose proof (declared_entry_wf t cst d vs ws Ec) as He. destruct Hw as (Hg & Hf & Hs). destruct (sframes s) as [|f fr] eqn:Ef.
  - cbn [snd]. repeat split; cbn; auto. constructor; assumption.
  - destruct sta.
    + cbn [snd]. repeat split; cbn; try rewrite Ef; auto. apply set_stat_wf; [assumption|].
      constructor; [exact He|]. apply statics_of_wf. assumption.
    + destruct (fscopes f) as [|sc scs] eqn:Es; cbn [snd].
      * repeat split; try rewrite Ef; assumption.
      * inversion Hf; subst. repeat split; cbn; auto. constructor; [|assumption].
        unfold wf_frame in *; cbn. rewrite Es in *. inversion H1; subst. constructor; [|assumption].
        constructor; assumption.
Qed.

Lemma out_wf o : respects wf_pres (m_out o).
Proof. intros s (Hg & Hf & Hs). repeat split; assumption. Qed.

Lemma push_scope_wf : respects wf_pres m_push_scope.
Proof.
  intros s Hw. unfold m_push_scope. destruct (sframes s) as [|f fr] eqn:Ef; [exact Hw|].
  destruct Hw as (Hg & Hf & Hs). rewrite Ef in Hf. inversion Hf; subst. cbn [snd].
  repeat split; cbn; auto. constructor; [|assumption]. unfold wf_frame; cbn. constructor; [constructor|assumption].
Qed.
Lemma pop_scope_wf s : wf_pres s (pop_scope_st s).
Proof.
  intros Hw. unfold pop_scope_st. destruct (sframes s) as [|f fr] eqn:Ef; [exact Hw|].
  destruct Hw as (Hg & Hf & Hs). rewrite Ef in Hf. inversion Hf; subst.
  repeat split; cbn; auto. constructor; [|assumption]. unfold wf_frame in *; cbn.
  destruct (fscopes f); [constructor|]. inversion H1; assumption.
Qed.
Lemma push_frame_wf f : respects wf_pres (m_push_frame f).
Proof.
  intros s (Hg & Hf & Hs). cbn. repeat split; cbn; auto. constructor; [|assumption].
  unfold wf_frame; cbn. constructor; constructor.
Qed.
Lemma pop_frame_wf s : wf_pres s (pop_frame_st s).
Proof.
  intros (Hg & Hf & Hs). repeat split; cbn; auto. destruct (sframes s); [constructor|]. inversion Hf; assumption.
Qed.

Lemma store_inv_step_l funcs n :
  (forall e, respects wf_pres (eval funcs n e)) /\ (forall st, respects wf_pres (exec funcs n st)).
Proof.
  apply eval_exec_respect.
  - exact wf_pres_refl.
  - exact wf_pres_trans.
  - exact write_wf.
  - exact declare_wf.
  - exact out_wf.
  - apply block_of_prims; [exact wf_pres_trans|exact push_scope_wf|exact pop_scope_wf].
  - apply frame_of_prims; [exact wf_pres_trans|exact push_frame_wf|exact pop_frame_wf].
Qed.

Lemma store_inv_list funcs n ss s : wf_state s -> wf_state (snd (exec_list (exec funcs n) ss s)).
Proof. apply (r_exec_list wf_pres wf_pres_refl wf_pres_trans). apply store_inv_step_l. Qed.

Lemma init_globals_wf gs acc sc : wf_scope acc -> init_globals gs acc = Some sc -> wf_scope sc.
Proof.
  revert acc; induction gs as [|g r IH]; intros acc Ha; cbn [init_globals].
  - intros [= <-]. exact Ha.
  - destruct (coerce_all (gty g) (ginit g)) as [vs| | | |] eqn:E; try discriminate.
    apply IH. constructor; [|exact Ha]. exact (declared_entry_wf _ _ _ _ _ E).
Qed.

Lemma init_state_wf p s0 : init_state p = Some s0 -> wf_state s0.
Proof.
  unfold init_state. destruct (init_globals (pglobals p) []) as [g|] eqn:E; [|discriminate]. intros [= <-].
  repeat split; cbn.
  - eapply init_globals_wf; [constructor|exact E].
  - constructor; [|constructor]. unfold wf_frame; cbn. constructor; constructor.
  - constructor.
Qed.

(* a rejected global initialiser ends the program before anything runs *)
Lemma init_globals_rejects gs acc g v :
  In g gs -> In v (ginit g) -> coerce (gty g) v = Fail ERange -> init_globals gs acc = None.
Proof.
  revert acc; induction gs as [|h r IH]; intros acc; [intros []|]. intros [->|Hin] Hv Hc; cbn [init_globals].
  - rewrite (coerce_all_rejects _ _ _ Hv Hc). reflexivity.
  - destruct (coerce_all (gty h) (ginit h)); try reflexivity. apply IH; assumption.
Qed.
