(* TypeManager::check_type_range (manager.cpp), GENERATED into C04/Gen_CheckTypeRange.v by translators/cxx_pure.py (target
   check_type_range) from clang's AST on every ./check C04: the closure the function hands to evaluate_safe - a switch over the
   type code that sets min_allowed / max_allowed, followed by the range test.  Lemmas for property C04:
   [check_type_range_tree]    the one symbolic evaluation of the generated term: for every type code (an int), both
                              signednesses and every int64 value the closure accepts exactly the closed interval of the
                              reference semantics [Lang.Sem.in_range] of the type whose case label the code is, and everything at
                              the `default:` label.  The lemmas below are read off it;
   [check_type_range_is_spec] the same, stated by type - nothing translators/ranges.py produces is used, so an edited bound
                              or comparison operator breaks THIS obligation whatever the regex translator makes of the text;
   [check_type_range_table]   the generated function rejects exactly the values outside the table [C04.Gen_RangeTable.gen_range]
                              (which translators/ranges.py extracts from the same text with regular expressions), with the
                              rejection test [gen_reject]: the two independent readings of the C++ text agree;
   [check_type_range_default], [type_codes_are_the_labels]  every other type code has no range. *)
From Coq Require Import ZArith Bool String List Lia ZifyBool.
From Cb Require Import Cxx.Cxx Cxx.CxxLemmas C04.Gen_CheckTypeRange.
From Cb Require Lang.Syntax Lang.Sem C04.Gen_RangeTable.
Import ListNotations.
Local Open Scope string_scope.
Local Open Scope Z_scope.

Module S := Cb.Lang.Syntax.
Module T := Cb.C04.Gen_RangeTable.

Definition ctr_args (code : Z) (u : bool) (v : Z) : list (string * value) :=
  [("is_unsigned", (TBool, b2z u)); ("type", (TInt, code)); ("value", (TLong, v))].

(* the closure returns (by `return;` when the type has no range, or by reaching its end) or throws *)
Inductive verdict := Accepted | Rejected (m : string) | Other (r : result).
Definition verdict_of (r : result) : verdict :=
  match r with RVoid | RFallOff => Accepted | RThrow m => Rejected m | r => Other r end.

(* the type codes are clang's values of the enumerators used as case labels *)
Fixpoint label (name : string) (l : list (string * Z)) : option Z :=
  match l with [] => None | (n, v) :: r => if String.eqb name n then Some v else label name r end.
Definition type_code (b : S.ity) : option Z :=
  label (match b with S.TTiny => "TYPE_TINY" | S.TShort => "TYPE_SHORT" | S.TInt => "TYPE_INT" | S.TLong => "TYPE_LONG"
                    | S.TChar => "TYPE_CHAR" | S.TBool => "TYPE_BOOL" end) check_type_range_labels.

Lemma sconv32_id a : (-2147483648 <=? a) = true -> (a <=? 2147483647) = true ->
  (a - -2147483648) mod 4294967296 + -2147483648 = a.
Proof. intros H1 H2. rewrite Z.mod_small; lia. Qed.
Lemma sconv64_id a : (-9223372036854775808 <=? a) = true -> (a <=? 9223372036854775807) = true ->
  (a - -9223372036854775808) mod 18446744073709551616 + -9223372036854775808 = a.
Proof. intros H1 H2. rewrite Z.mod_small; lia. Qed.

(* the switch of the closure: the integer types in the order of its case labels, [d] at the `default:` label *)
Definition switch_code {A} (code : Z) (f : S.ity -> A) (d : A) : A :=
  if code =? 1 then f S.TTiny else if code =? 2 then f S.TShort else if code =? 3 then f S.TInt
  else if code =? 5 then f S.TChar else if code =? 4 then f S.TLong else d.

Lemma switch_code_type {A} b code (f : S.ity -> A) d : type_code b = Some code ->
  in_range TInt code = true /\ switch_code code f d = f b.
Proof. destruct b; intros H; vm_compute in H; try discriminate; injection H as <-; split; reflexivity. Qed.

Lemma switch_code_default {A} code (f : S.ity -> A) d : ~ In code (map snd check_type_range_labels) -> switch_code code f d = d.
Proof.
  intros Hn. cbn [check_type_range_labels map snd In] in Hn.
  unfold switch_code. rewrite !(proj2 (Z.eqb_neq code _)) by lia. reflexivity.
Qed.

Lemma check_type_range_tree code u v : in_range TInt code = true -> in_range TLong v = true ->
  verdict_of (run fn_check_type_range "" (ctr_args code u v)) =
  switch_code code (fun b => if Cb.Lang.Sem.in_range {| S.base := b; S.uns := u |} v then Accepted
                             else Rejected "Value out of range for type") Accepted.
Proof.
  intros Hc Hv. unfold in_range in Hv, Hc. cbn [tmin tmax] in Hv, Hc.
  apply andb_true_iff in Hv as [Hv1 Hv2]. apply andb_true_iff in Hc as [Hc1 Hc2].
  (* the right-hand side as a tree of the tests the closure makes: [code =? n], [v <? lo], [hi <? v] *)
  unfold ctr_args, switch_code, Cb.Lang.Sem.in_range.
  destruct u; cbn [b2z Cb.Lang.Sem.range S.base S.uns]; unfold Cb.Lang.Sem.int64_min, Cb.Lang.Sem.int64_max;
    rewrite !(Z.leb_antisym _ v), !(Z.leb_antisym v); unfold andb, negb.
  (* the closure as a tree of tests; the message is named so that the tree does not carry a copy of the string at every
     rejecting leaf (two per case label) *)
  all: cxx_tree; set (m := "Value out of range for type"); fold_consts.
  (* value and code lie in the ranges of their C++ types, so binding them to the parameters converts nothing *)
  all: rewrite Hv1, Hv2, Hc1, Hc2; cbv beta iota; rewrite ?(sconv64_id _ Hv1 Hv2), ?(sconv32_id _ Hc1 Hc2).
  (* both sides now make the same tests in the same order *)
  all: cxx_cases; reflexivity.
Qed.

(* for every integer type of the property and every int64 value: exactly the closed interval of the reference semantics *)
Lemma check_type_range_is_spec t code v : type_code (S.base t) = Some code -> in_range TLong v = true ->
  verdict_of (run fn_check_type_range "" (ctr_args code (S.uns t) v)) =
  if Cb.Lang.Sem.in_range t v then Accepted else Rejected "Value out of range for type".
Proof.
  destruct t as [b u]. cbn [S.base S.uns]. intros Hc Hv. eapply switch_code_type in Hc as [Hc Hb].
  rewrite (check_type_range_tree _ _ _ Hc Hv). exact Hb.
Qed.

Lemma gen_reject_is_outside lo hi v : T.gen_reject v lo hi = negb ((lo <=? v) && (v <=? hi)).
Proof. unfold T.gen_reject. rewrite Z.gtb_ltb, !Z.leb_antisym. destruct (v <? lo), (hi <? v); reflexivity. Qed.

(* for every type code (an int) and every int64 value: exactly the table *)
Lemma check_type_range_table b u code v : type_code b = Some code -> in_range TLong v = true ->
  verdict_of (run fn_check_type_range "" (ctr_args code u v)) =
  match T.gen_range b u with
  | None => Accepted
  | Some (lo, hi) => if T.gen_reject v lo hi then Rejected "Value out of range for type" else Accepted
  end.
Proof.
  intros Hc Hv. rewrite (check_type_range_is_spec {| S.base := b; S.uns := u |} _ _ Hc Hv : verdict_of (run _ _ (ctr_args code u v)) = _).
  replace (T.gen_range b u) with (Cb.Lang.Sem.range {| S.base := b; S.uns := u |}) by (destruct b, u; reflexivity).
  unfold Cb.Lang.Sem.in_range. destruct (Cb.Lang.Sem.range _) as [[lo hi]|]; [|reflexivity].
  rewrite gen_reject_is_outside. destruct (_ && _); reflexivity.
Qed.

(* every other type code (bool, float, double, string, struct, ...: the `default:` label) has no range: nothing is rejected *)
Lemma check_type_range_default code u v : in_range TInt code = true -> in_range TLong v = true ->
  ~ In code (map snd check_type_range_labels) ->
  verdict_of (run fn_check_type_range "" (ctr_args code u v)) = Accepted.
Proof. intros Hc Hv Hn. rewrite (check_type_range_tree _ _ _ Hc Hv). apply switch_code_default. exact Hn. Qed.

(* the table's codes are exactly the labels of the switch (so the two lemmas cover every int) *)
Lemma type_codes_are_the_labels :
  map snd check_type_range_labels = [1; 2; 3; 5; 4] /\
  type_code S.TTiny = Some 1 /\ type_code S.TShort = Some 2 /\ type_code S.TInt = Some 3 /\ type_code S.TLong = Some 4 /\
  type_code S.TChar = Some 5 /\ type_code S.TBool = None.
Proof. vm_compute. repeat split; reflexivity. Qed.

Example rejects_128_for_tiny : verdict_of (run fn_check_type_range "" (ctr_args 1 false 128)) = Rejected "Value out of range for type".
Proof. vm_compute. reflexivity. Qed.
Example accepts_minus_128_for_tiny : verdict_of (run fn_check_type_range "" (ctr_args 1 false (-128))) = Accepted.
Proof. vm_compute. reflexivity. Qed.
Example unsigned_long_stops_at_int64_max : verdict_of (run fn_check_type_range "" (ctr_args 4 true (-1))) = Rejected "Value out of range for type".
Proof. vm_compute. reflexivity. Qed.
Example accepts_the_limits_of_unsigned_int :
  verdict_of (run fn_check_type_range "" (ctr_args 3 true 4294967295)) = Accepted /\
  verdict_of (run fn_check_type_range "" (ctr_args 3 true 4294967296)) = Rejected "Value out of range for type".
Proof. vm_compute. split; reflexivity. Qed.
Print Assumptions check_type_range_table.
Print Assumptions check_type_range_is_spec.
Print Assumptions check_type_range_default.
