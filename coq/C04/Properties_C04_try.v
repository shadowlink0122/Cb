(* C04 - property theorems about REJECTED stores (over the lemmas of C04/TryLaws.v and C04/EffectLaws.v).
   "... stops the program with a range error instead of keeping or wrapping it": since `try e` / `checked e` turn the range error
   into an Err(..) value, the program can go on after the rejected store, and what the store left in its target is observable.
   Spec = Lang.Sem under the try layer C04/Try.v; Mech = the order of conversion, check and write on every store path of /repo
   (C04/Model.v [store_steps]). *)
From Coq Require Import List ZArith Bool Arith.
From Cb Require Import Lang.Syntax Lang.Sem Lang.Respect Lang.Print
  C04.Gen_RangeTable C04.Model C04.Invariant C04.MechLaws C04.EffectLaws C04.Try C04.TryLaws.
Import ListNotations.
Local Open Scope Z_scope.

(* ---------------------------------------------------------------- Spec: the reference semantics *)
(* every primitive store of Ref that fails - whatever the error - leaves the state exactly as it was: assignment / compound
   assignment / ++,-- (m_write), declaration / parameter binding / array literal (m_declare), and the conversion of an argument or
   of a result does not touch the state at all *)
Theorem rejected_store_changes_nothing :
  (forall x idx v s e s', m_write x idx v s = (Fail e, s') -> s' = s) /\
  (forall sta cst t x dims vs s e s', m_declare sta cst t x dims vs s = (Fail e, s') -> s' = s) /\
  (forall t v s, snd (lift (coerce t v) s) = s) /\
  (forall t old v e, fst (spec_effect t old v) = Fail e -> snd (spec_effect t old v) = old /\ e = ERange).
Proof.
  split; [exact write_rejected_l|]. split; [|split; [reflexivity|]].
  - intros sta cst t x dims vs s e s'. unfold m_declare. destruct (coerce_all t vs); try (intros H; inversion H; reflexivity).
    destruct (sframes s) as [|f fr]; [discriminate|]. destruct sta; [discriminate|].
    destruct (fscopes f); [intros H; inversion H; reflexivity|discriminate].
  - intros t old v e. unfold spec_effect. destruct (coerce_shape t v) as [[w E]|E]; rewrite E; cbn [fst snd]; [discriminate|].
    intros [= <-]. split; reflexivity.
Qed.
Print Assumptions rejected_store_changes_nothing.

(* `try x++` / `try ++x` / `try x--` / `try --x` on a variable, an array element or a struct member: if the action fails, the state
   is the one in which its target had been located - for a plain variable or member: the state before the action *)
Theorem try_incdec_rejected_changes_nothing : forall funcs n pre inc,
  (forall lv s e s', try_act funcs n (AIncDec pre inc lv) s = (Fail e, s') -> s' = snd (lval_target (eval funcs n) lv s)) /\
  (forall x s e s', try_act funcs n (AIncDec pre inc (LVar x)) s = (Fail e, s') -> s' = s).
Proof.
  intros funcs n pre inc. split.
  - intros lv s e s' E. pose proof (incdec_unless_done funcs n pre inc lv s) as H. rewrite E in H. exact H.
  - intros x s e s' E. pose proof (incdec_unless_done funcs n pre inc (LVar x) s) as H. rewrite E in H. exact H.
Qed.
Print Assumptions try_incdec_rejected_changes_nothing.

(* whatever the action of a try item does and however it ends - a caught range error inside a callee included - the caller's
   frames and the blocks of every frame are as deep afterwards as they were: the program continues in the scope of the try *)
Theorem caught_error_leaves_frames_and_blocks : forall funcs n a s, shape (snd (try_act funcs n a s)) = shape s.
Proof.
  intros funcs n a s. symmetry.
  exact (try_act_respects same_shape same_shape_refl same_shape_trans funcs n write_shape (proj1 (shape_step_l funcs n)) a s).
Qed.
Print Assumptions caught_error_leaves_frames_and_blocks.

(* the store invariant survives caught errors: every try-program, every fuel - either a global initialiser is rejected and nothing
   runs, or the run starts and ends (normally, by an uncaught error, out of fuel; after any number of caught range errors) in a
   state in which every typed cell holds a value of its declared type *)
Theorem store_inv_try_run : forall fuel p,
  match init_state (globals_program p) with
  | None => final_state_try fuel p = None /\ run_try fuel p = ([], Failed ERange)
  | Some s0 => wf_state s0 /\ exists s, final_state_try fuel p = Some s /\ wf_state s /\ fst (run_try fuel p) = rev (sout s)
  end.
Proof.
  intros fuel p. unfold final_state_try, run_try. destruct (init_state (globals_program p)) as [s0|] eqn:E; [|split; reflexivity].
  pose proof (init_state_wf _ _ E) as H0. split; [exact H0|]. eexists. split; [reflexivity|]. split.
  - apply run_items_wf. exact H0.
  - destruct (run_items _ _ _ _) as [c s]. reflexivity.
Qed.
Print Assumptions store_inv_try_run.

Theorem store_inv_try_items : forall funcs n its s, wf_state s -> wf_state (snd (run_items funcs n its s)).
Proof. intros funcs n its s. apply run_items_wf. Qed.
Print Assumptions store_inv_try_items.

(* the try layer adds nothing to programs without try items *)
Theorem try_layer_is_conservative : forall fuel gs fs ss,
  run_try fuel {| tglobals := gs; tfuncs := fs; tmain := map TStmt ss |} = run fuel {| pglobals := gs; pfuncs := fs; pmain := ss |}.
Proof.
  intros fuel gs fs ss. unfold run_try, run, init_state, globals_program. cbn [pglobals tglobals tfuncs tmain pfuncs pmain].
  destruct (init_globals gs []); [|reflexivity]. rewrite run_items_stmts_l. reflexivity.
Qed.
Print Assumptions try_layer_is_conservative.

(* a cell that holds a value of its type holds one after any sequence of stores, accepted or rejected *)
Theorem stores_keep_cell_in_range : forall t ops cell, in_range t cell = true ->
  Forall (fun r => in_range t (snd r) = true) (spec_effects t cell ops).
Proof.
  intros t ops. unfold spec_effects. induction ops as [|o r IH]; intros cell Hc; cbn [effects]; [constructor|].
  destruct (spec_effect t cell (op_value (fun z => z) cell o)) as [c cell'] eqn:E.
  assert (Hc' : in_range t cell' = true).
  { unfold spec_effect in E. destruct (coerce t _) as [w| | | |] eqn:Ec; inversion E; subst; try exact Hc.
    eapply coerce_in_range; exact Ec. }
  constructor; [exact Hc'|apply IH; exact Hc'].
Qed.
Print Assumptions stores_keep_cell_in_range.

(* ---------------------------------------------------------------- Mech: the order of check and write in /repo *)
(* on EVERY store path of the model of /repo - the paths with recorded defects included - the range check comes before the write:
   a store that is rejected leaves its target as it was (what seeded change C04-4 broke for ++/-- on variables) *)
Theorem mech_rejected_store_changes_nothing : forall p t old v e,
  fst (mech_effect p t old v) = Fail e -> snd (mech_effect p t old v) = old.
Proof. intros p t old v e. unfold mech_effect. apply run_steps_rejected_l. apply steps_check_first_l. Qed.
Print Assumptions mech_rejected_store_changes_nothing.

Theorem mech_checks_before_it_writes : forall p t, checks_first false (store_steps p t) = true.
Proof. exact steps_check_first_l. Qed.
Print Assumptions mech_checks_before_it_writes.

(* and however often a rejected store is repeated *)
Theorem repeated_rejected_stores_change_nothing : forall p t ops cell,
  Forall (fun r => fst r = false) (mech_effects p t cell ops) -> Forall (fun r => snd r = cell) (mech_effects p t cell ops).
Proof.
  intros p t ops. unfold mech_effects. induction ops as [|o r IH]; intros cell H; cbn [effects] in *; [constructor|].
  pose proof (mech_rejected_store_changes_nothing p t cell (op_value (read_of p t) cell o)) as R.
  pose proof (effect_agrees_with_store_l p t cell (op_value (read_of p t) cell o)) as G.
  destruct (mech_effect p t cell (op_value (read_of p t) cell o)) as [c cell']. cbn [fst snd] in R.
  inversion H as [|x l Hx Hl]; subst. cbn [fst] in Hx.
  assert (cell' = cell) by (destruct c as [u| | |w|e]; try discriminate; try contradiction; apply (R e); reflexivity).
  subst cell'. constructor; [reflexivity|apply IH; exact Hl].
Qed.
Print Assumptions repeated_rejected_stores_change_nothing.

(* the sequence "write in place, clamp in place, check afterwards" (the shape seeded change C04-4 gave incdec.cpp) is refuted by
   tiny 127, ++: the error is reported and the cell holds 128 *)
Theorem write_before_check_refuted :
  checks_first false write_first_steps = false /\
  run_steps tiny 128 write_first_steps 128 127 = (Fail ERange, 128) /\
  spec_effect tiny 127 128 = (Fail ERange, 127) /\ mech_effect PIncDecVar tiny 127 128 = (Fail ERange, 127).
Proof. vm_compute. repeat split; reflexivity. Qed.
Print Assumptions write_before_check_refuted.

(* the two readings of a store path agree: outcome of [mech_effect] = outcome of [mech_store]; after an accepted store a read of
   the cell yields what [mech_store] predicts *)
Theorem effect_agrees_with_store : forall p t old v,
  match mech_effect p t old v with
  | (Val _, c) => mech_store p t v = Val (read_of p t c)
  | (Fail e, c) => mech_store p t v = Fail e
  | _ => False
  end.
Proof. exact effect_agrees_with_store_l. Qed.
Print Assumptions effect_agrees_with_store.

(* Mech = Spec, rejected stores included: on the checked paths, on the 1-D element paths (the cell itself; the narrowing READ is
   the recorded finding) and on the callers of assign_variable with a non-bool, non-pointer hint the cell afterwards holds the
   converted value, or - when the store is rejected - what it held before *)
Theorem checked_paths_effect_refines_spec :
  (forall p, In p checked_paths \/ In p element_paths -> forall t old v, mech_effect p t old v = spec_effect t old v) /\
  (forall h p, In p (hinted_paths h ++ unhinted_paths) -> h <> HPointer ->
     forall t old v, resolved_type h t <> TBool -> base t <> TBool -> mech_effect p t old v = spec_effect t old v).
Proof.
  split.
  - intros p H t old v. unfold mech_effect. replace (store_steps p t) with [KClamp; KCheck; KWrite]; [apply steps_clamp_check_write_l|].
    cbn in H. destruct H as [H|H]; repeat (destruct H as [<-|H]; [reflexivity|]); destruct H.
  - intros h p H Hp t old v Hb Hb'. cbn in H. unfold mech_effect.
    repeat (destruct H as [<-|H]; [cbn [store_steps]; apply assign_variable_effect_l; solve [assumption|discriminate]|]). destruct H.
Qed.
Print Assumptions checked_paths_effect_refines_spec.

(* ---------------------------------------------------------------- non-vacuity *)
(* tiny g = 127; long f1(long a) { g = a; return 7; }  main: tiny t = 127; try t++; println(t); try f1(300); println(g); try f1(5); println(g); *)
Example sample_try :
  let tiny_t := {| base := TTiny; uns := false |} in
  let long_t := {| base := TLong; uns := false |} in
  let p := {| tglobals := [ {| gcst := false; gty := tiny_t; gname := 9%nat; gdims := []; ginit := [127] |} ];
              tfuncs := [ {| fname := 1%nat; fret := Some long_t; fparams := [ {| pty := long_t; pname := 7%nat; pdef := None |} ];
                             fbody := [ SAssign (LVar 9%nat) None (EVar 7%nat); SReturn (Some (ENum 7)) ] |} ];
              tmain := [ TStmt (SDecl false false tiny_t 1%nat (Some (ENum 127)));
                         TTry false (AIncDec false true (LVar 1%nat));
                         TStmt (SPrint true [EVar 1%nat]);
                         TTry false (ACall 1%nat [ENum 300]);
                         TStmt (SPrint true [EVar 9%nat]);
                         TTry true (ACall 1%nat [ENum 5]);
                         TStmt (SPrint true [EVar 9%nat]) ] |} in
  run_try 100 p = ([OInt 0; ONl; OInt 127; ONl; OInt 0; ONl; OInt 127; ONl; OInt 1; OSp; OInt 7; ONl; OInt 5; ONl], Finished).
Proof. vm_compute. reflexivity. Qed.
