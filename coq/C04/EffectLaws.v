(* C04 - what a REJECTED store leaves behind (observable through `try` / `checked`): the order of conversion, check and write
   on every store path of the Mech model ([store_steps]), against the property's reading ([spec_effect]: a rejected store changes
   nothing). *)
From Coq Require Import List ZArith.
From Cb Require Import Lang.Syntax Lang.Sem C04.Gen_RangeTable C04.Model C04.Invariant C04.MechLaws.
Import ListNotations.
Local Open Scope Z_scope.

Lemma mech_check_rejects_l t v : mech_check t v = if mech_rejects t v then Fail ERange else Val v.
Proof.
  unfold mech_check, mech_rejects. destruct (gen_range (base t) (uns t)) as [[lo hi]|]; [|reflexivity].
  destruct (gen_reject v lo hi); reflexivity.
Qed.

Lemma mech_rejects_is_spec_l t v : mech_rejects t v = negb (in_range t v).
Proof.
  pose proof (mech_check_is_spec_l t v) as H. rewrite mech_check_rejects_l in H.
  destruct (mech_rejects t v), (in_range t v); try reflexivity; discriminate.
Qed.

(* once a write has happened no check may follow *)
Fixpoint checks_first (written : bool) (ks : list sstep) : bool :=
  match ks with
  | [] => true
  | KWrite :: r => checks_first true r
  | (KCheck | KCheckSigned | KCheckCopy | KCheckUnlessPtr) :: r => negb written && checks_first written r
  | _ :: r => checks_first written r
  end.

(* after the write no check is left, so the run cannot fail any more *)
Lemma run_steps_after_write_l t v0 ks : checks_first true ks = true ->
  forall cur cell, exists c, run_steps t v0 ks cur cell = (Val tt, c).
Proof.
  induction ks as [|k r IH]; intros Hc cur cell; cbn [run_steps]; [eexists; reflexivity|].
  destruct k; cbn [checks_first negb andb] in Hc; try discriminate; apply IH; exact Hc.
Qed.

Lemma run_steps_rejected_l t v0 ks : checks_first false ks = true ->
  forall cur cell e, fst (run_steps t v0 ks cur cell) = Fail e -> snd (run_steps t v0 ks cur cell) = cell.
Proof.
  induction ks as [|k r IH]; intros Hc cur cell e; cbn [run_steps].
  - discriminate.
  - destruct k; cbn [checks_first negb andb] in Hc.
    + apply IH; exact Hc.
    + apply IH; exact Hc.
    + destruct (mech_rejects t cur); [reflexivity|apply IH; exact Hc].
    + destruct (mech_rejects (signed_of t) cur); [reflexivity|apply IH; exact Hc].
    + destruct (mech_rejects t (mech_clamp (uns t) cur)); [reflexivity|apply IH; exact Hc].
    + destruct (looks_like_pointer v0); [apply IH; exact Hc|]. destruct (mech_rejects t cur); [reflexivity|apply IH; exact Hc].
    + destruct (run_steps_after_write_l t v0 r Hc cur cur) as [c E]. rewrite E. discriminate.
Qed.

Lemma assign_variable_steps_check_first_l h t : checks_first false (assign_variable_steps h t) = true.
Proof.
  unfold assign_variable_steps. destruct h as [|b|]; cbn [resolved_type];
    [destruct (base t)|destruct b|destruct (base t)]; reflexivity.
Qed.

Lemma steps_check_first_l p t : checks_first false (store_steps p t) = true.
Proof. destruct p; cbn [store_steps]; try apply assign_variable_steps_check_first_l; reflexivity. Qed.

(* the outcome of [mech_effect] is the outcome of [mech_store], and after an accepted store a read of the cell yields the value
   [mech_store] predicts *)
Lemma effect_agrees_with_store_l p t old v :
  match mech_effect p t old v with
  | (Val _, c) => mech_store p t v = Val (read_of p t c)
  | (Fail e, c) => mech_store p t v = Fail e
  | _ => False
  end.
Proof.
  unfold mech_effect.
  assert (A : forall h, match run_steps t v (assign_variable_steps h t) v old with
                        | (Val _, c) => mech_assign_variable h t v = Val c
                        | (Fail e, c) => mech_assign_variable h t v = Fail e
                        | _ => False end).
  { intros h. unfold assign_variable_steps, mech_assign_variable.
    destruct h as [|b|]; cbn [resolved_type];
      [destruct (base t)|destruct b|destruct (base t)]; cbn [app run_steps];
      rewrite ?mech_check_rejects_l; try (destruct (mech_rejects t _)); reflexivity. }
  destruct p; cbn [store_steps run_steps mech_store read_of]; try apply A;
    unfold clamp_check; rewrite ?mech_check_rejects_l;
    try (destruct (looks_like_pointer v));
    try (destruct (mech_rejects _ _)); reflexivity.
Qed.

Lemma steps_clamp_check_write_l t old v : run_steps t v [KClamp; KCheck; KWrite] v old = spec_effect t old v.
Proof.
  cbn [run_steps]. unfold spec_effect. rewrite <- clamp_check_is_coerce_l. unfold clamp_check.
  rewrite mech_check_rejects_l. destruct (mech_rejects t _); reflexivity.
Qed.

(* the callers of assign_variable with a hint whose resolved type is not bool *)
Lemma assign_variable_effect_l h t old v : h <> HPointer -> resolved_type h t <> TBool ->
  run_steps t v (assign_variable_steps h t) v old = spec_effect t old v.
Proof.
  intros Hp Hb. unfold assign_variable_steps.
  assert (E : (match resolved_type h t with TBool => [KBoolNorm] | _ => [] end) = []) by (destruct (resolved_type h t); congruence).
  rewrite E. destruct h; try congruence; apply steps_clamp_check_write_l.
Qed.

Lemma spec_accepted_l t old v : fst (spec_effect t old v) = Val tt ->
  coerce t v = Val (snd (spec_effect t old v)) /\ in_range t (snd (spec_effect t old v)) = true.
Proof.
  unfold spec_effect. destruct (coerce t v) as [w| | | |] eqn:E; cbn [fst snd]; try discriminate.
  intros _. split; [reflexivity|eapply coerce_in_range; exact E].
Qed.
