(* C04 - laws of the try layer (C04/Try.v) and of the reference semantics under it: a rejected store leaves the state exactly as it
   was, and so does a `try x++` that does not yield a value; the action of a try item respects every relation that writes and
   evaluations respect - the store invariant, and the depth of frames and blocks; a list of statements runs as Lang.Sem runs it. *)
From Coq Require Import List ZArith.
From Cb Require Import Lang.Syntax Lang.Sem Lang.Respect Lang.Theorems C04.Model C04.Invariant C04.StoreLaws C04.Try.
Import ListNotations.
Local Open Scope Z_scope.

Lemma write_rejected_l x idx v s e s' : m_write x idx v s = (Fail e, s') -> s' = s.
Proof. intros H. pose proof (m_write_cases x idx v s) as C. rewrite H in C. exact C. Qed.

(* `try x++` and its like: the reads and the arithmetic leave the state alone, a rejected write leaves it alone, and after an
   accepted write the read of the same cell cannot fail - so unless the action yields a value, the state is the one in which its
   target had been located *)
Lemma incdec_unless_done funcs n pre inc lv s :
  match try_act funcs n (AIncDec pre inc lv) s with
  | (Val _, _) => True
  | (_, s') => s' = snd (lval_target (eval funcs n) lv s)
  end.
Proof.
  unfold try_act, bind. destruct (lval_target (eval funcs n) lv s) as [[tg| | | |e1] s1]; cbn [snd]; try reflexivity.
  pose proof (m_read_state (fst tg) (snd tg) s1) as Hr. destruct (m_read (fst tg) (snd tg) s1) as [[old| | | |e2] s2];
    cbn [snd] in Hr; subst s2; try reflexivity.
  unfold lift. destruct (arith _ old 1) as [r| | | |e3]; try reflexivity.
  pose proof (m_write_cases (fst tg) (snd tg) r s1) as C. destruct (m_write (fst tg) (snd tg) r s1) as [[[]| | | |e4] s4]; try exact C.
  destruct C as (e & k & w & Hg & Hk & _ & ->). unfold m_read. rewrite (get_put_same _ _ _ _ Hg). cbn [edims]. rewrite Hk. exact I.
Qed.

Section Respects.
Variable R : state -> state -> Prop.
Hypothesis R_refl : forall s, R s s.
Hypothesis R_trans : forall a b c, R a b -> R b c -> R a c.
Variable funcs : list func.
Variable n : nat.
Hypothesis H_write : forall x i v, respects R (m_write x i v).
Hypothesis H_eval : forall e, respects R (eval funcs n e).

Lemma try_act_respects a : respects R (try_act funcs n a).
Proof.
  pose proof (@r_bind R R_trans) as B. destruct a as [pre inc lv|f args]; cbn [try_act]; [|apply H_eval].
  apply B; [apply (r_lval_target R R_refl R_trans); exact H_eval|]. intros tg.
  apply B; [apply (r_read R R_refl)|]. intros old.
  apply B; [apply (r_lift R R_refl)|]. intros r.
  apply B; [apply H_write|]. intros _.
  apply B; [apply (r_read R R_refl)|]. intros new. apply (r_ret R R_refl).
Qed.
End Respects.

Section Laws.
Variable funcs : list func.
Variable n : nat.

Lemma run_item_wf it : respects wf_pres (run_item funcs n it).
Proof.
  destruct it as [st|chk a]; cbn [run_item]; [apply (proj2 (store_inv_step_l funcs n))|].
  intros s Hw. pose proof (try_act_respects wf_pres wf_pres_refl wf_pres_trans funcs n write_wf (proj1 (store_inv_step_l funcs n)) a s Hw) as H1.
  destruct (try_act funcs n a s) as [c s1]. cbn [snd] in H1.
  (* the reports only extend the output, which the invariant does not mention *)
  destruct c as [v| | |w|e]; cbn [snd]; try exact H1. destruct e; exact H1.
Qed.

Lemma run_items_wf its : respects wf_pres (run_items funcs n its).
Proof.
  induction its as [|it r IH]; cbn [run_items]; [apply (r_ret wf_pres wf_pres_refl)|].
  apply (@r_bind wf_pres wf_pres_trans); [apply run_item_wf|]. intros _. exact IH.
Qed.

Lemma run_items_stmts_l ss s : run_items funcs n (map TStmt ss) s = exec_list (exec funcs n) ss s.
Proof.
  revert s; induction ss as [|st r IH]; intros s; cbn [map run_items exec_list run_item]; [reflexivity|].
  unfold bind. destruct (exec funcs n st s) as [c s1]. destruct c; try reflexivity. apply IH.
Qed.
End Laws.

Definition shape (s : state) : list (ident * nat) := map (fun f => (ffn f, List.length (fscopes f))) (sframes s).
Definition same_shape (s s' : state) : Prop := shape s = shape s'.

Lemma same_shape_refl s : same_shape s s. Proof. reflexivity. Qed.
Lemma same_shape_trans a b c : same_shape a b -> same_shape b c -> same_shape a c.
Proof. unfold same_shape. intros -> ->. reflexivity. Qed.

Lemma put_entry_shape x e s : shape (put_entry x e s) = shape s.
Proof.
  unfold put_entry, shape. destruct (sframes s) as [|f fr] eqn:Ef; cbn [sframes]; [reflexivity|].
  destruct (scopes_get x (fscopes f)).
  - cbn [sframes map ffn fscopes]. rewrite scopes_set_length. reflexivity.
  - destruct (assoc x (statics_of (ffn f) s)); cbn [sframes]; try rewrite Ef; reflexivity.
Qed.

Lemma write_shape x i v : respects same_shape (m_write x i v).
Proof.
  intros s. pose proof (m_write_cases x i v s) as C. destruct (m_write x i v s) as [c s']. cbn [snd].
  destruct c; try (rewrite C; reflexivity). destruct C as (e & k & w & _ & _ & _ & ->). unfold same_shape.
  rewrite put_entry_shape. reflexivity.
Qed.

Lemma declare_shape sta cst t x d vs : respects same_shape (m_declare sta cst t x d vs).
Proof.
  intros s. unfold m_declare. destruct (coerce_all t vs); try reflexivity.
  destruct (sframes s) as [|f fr] eqn:Ef; cbn [snd]; unfold same_shape, shape; cbn [sframes]; [rewrite Ef; reflexivity|].
  destruct sta; cbn [snd sframes]; [rewrite Ef; reflexivity|].
  destruct (fscopes f) as [|sc scs] eqn:Es; cbn [snd sframes]; rewrite Ef; cbn [map ffn fscopes]; [reflexivity|].
  rewrite Es. reflexivity.
Qed.

Lemma shape_pop_scope s : shape (pop_scope_st s) = match shape s with (f, n) :: r => (f, pred n) :: r | [] => [] end.
Proof.
  unfold shape, pop_scope_st. destruct (sframes s) as [|f fr] eqn:Ef; [rewrite Ef; reflexivity|]. cbn. destruct (fscopes f); reflexivity.
Qed.
Lemma shape_pop_frame s : shape (pop_frame_st s) = tl (shape s).
Proof. unfold shape, pop_frame_st. cbn. destruct (sframes s); reflexivity. Qed.

Lemma block_shape A (m : M A) : respects same_shape m -> respects same_shape (m_push_scope ;;; finally m pop_scope_st).
Proof.
  intros Hm s. unfold bind, m_push_scope, finally. destruct (sframes s) as [|f fr] eqn:Ef; [reflexivity|].
  destruct (m _) as [c s2] eqn:Em. epose proof (Hm _) as H. rewrite Em in H.
  unfold same_shape in *. cbn [snd] in *. rewrite shape_pop_scope, <- H. unfold shape. cbn. rewrite Ef. reflexivity.
Qed.

Lemma frame_shape A f (m : M A) : respects same_shape m -> respects same_shape (m_push_frame f ;;; finally m pop_frame_st).
Proof.
  intros Hm s. unfold bind, m_push_frame, finally.
  destruct (m _) as [c s2] eqn:Em. epose proof (Hm _) as H. rewrite Em in H.
  unfold same_shape in *. cbn [snd] in *. rewrite shape_pop_frame, <- H. reflexivity.
Qed.

Lemma shape_step_l funcs n :
  (forall e, respects same_shape (eval funcs n e)) /\ (forall st, respects same_shape (exec funcs n st)).
Proof.
  apply eval_exec_respect.
  - exact same_shape_refl.
  - exact same_shape_trans.
  - exact write_shape.
  - exact declare_shape.
  - intros o s. reflexivity.
  - exact block_shape.
  - exact frame_shape.
Qed.
