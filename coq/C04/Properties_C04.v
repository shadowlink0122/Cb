(* C04 - the property theorems (over the lemmas of C04/Invariant.v, C04/StoreLaws.v, C04/MechLaws.v).
   Spec = the shared reference interpreter (Lang.Sem: every store, global initialisers included, goes through [coerce]);
   Mech = today's store paths of /repo (C04/Model.v, table re-extracted into C04/Gen_RangeTable.v). *)
From Coq Require Import List ZArith Bool Arith Lia.
From Cb Require Import Lang.Syntax Lang.Sem Lang.Respect Lang.Theorems Lang.Print
  C04.Gen_RangeTable C04.Model C04.Invariant C04.StoreLaws C04.MechLaws.
Import ListNotations.
Local Open Scope Z_scope.

(* ---------------------------------------------------------------- the generated table *)
(* The min/max table re-extracted from the `switch` of TypeManager::check_type_range is the table of
   the reference semantics for all 12 (type, signedness) pairs, and it is the documented n-bit
   two's-complement / unsigned range except for the two recorded rows below. *)
Theorem range_table_is_documented : forall b u,
  gen_range b u = range {| base := b; uns := u |} /\
  (b <> TChar -> (b, u) <> (TLong, true) -> gen_range b u = documented_range b u).
Proof.
  intros b u. split; [exact (gen_range_is_ref_l b u)|]. intros Hc Hl. destruct b, u; try reflexivity; congruence.
Qed.
Print Assumptions range_table_is_documented.

(* finding #33: unsigned long stops at 2^63-1, documented 2^64-1 *)
Theorem ulong_upper_bound_is_documented_refuted :
  gen_range TLong true = Some (0, 2 ^ 63 - 1) /\ documented_range TLong true = Some (0, 2 ^ 64 - 1) /\
  gen_range TLong true <> documented_range TLong true.
Proof. repeat split; try reflexivity. discriminate. Qed.
Print Assumptions ulong_upper_bound_is_documented_refuted.

(* docs/spec.md gives char the range 0-255; the code (and Ref) use -128..127 *)
Theorem char_range_is_documented_refuted :
  gen_range TChar false = Some (-128, 127) /\ documented_range TChar false = Some (0, 255) /\
  gen_range TChar false <> documented_range TChar false.
Proof. repeat split; try reflexivity. discriminate. Qed.
Print Assumptions char_range_is_documented_refuted.

(* check_type_range with the generated table and the generated comparison operators accepts exactly
   the closed interval; clamp_unsigned_value followed by it is the conversion the property demands *)
Theorem range_check_is_closed_interval : forall t v,
  mech_check t v = (if in_range t v then Val v else Fail ERange) /\ clamp_check t v = coerce t v.
Proof. intros t v. split; [exact (mech_check_is_spec_l t v)|exact (clamp_check_is_coerce_l t v)]. Qed.
Print Assumptions range_check_is_closed_interval.

(* ---------------------------------------------------------------- the invariant *)
(* For every function table, fuel, expression / statement and start state: if every typed cell of
   the start state (globals, every scope of every frame, statics) holds a value of its declared
   type, so does every cell of the state after the evaluation - whatever its outcome. *)
Theorem store_inv_step : forall funcs n,
  (forall e, respects wf_pres (eval funcs n e)) /\ (forall st, respects wf_pres (exec funcs n st)).
Proof. exact store_inv_step_l. Qed.
Print Assumptions store_inv_step.

(* every program, every fuel: either a global initialiser is rejected (they are converted like every
   other store) and nothing runs, or the run starts in a well-formed state and ends - normally, by an
   error or out of fuel - in a well-formed state, whose output is what [run] reports *)
Theorem store_inv_run : forall fuel p,
  match init_state p with
  | None => final_state fuel p = None /\ run fuel p = ([], Failed ERange)
  | Some s0 => wf_state s0 /\ exists s, final_state fuel p = Some s /\ wf_state s /\ fst (run fuel p) = rev (sout s)
  end.
Proof.
  intros fuel p. unfold final_state, run. destruct (init_state p) as [s0|] eqn:E; [|split; reflexivity].
  pose proof (init_state_wf _ _ E) as H0. split; [exact H0|]. eexists. split; [reflexivity|]. split.
  - apply store_inv_list. exact H0.
  - destruct (exec_list _ _ _) as [c s]. reflexivity.
Qed.
Print Assumptions store_inv_run.

Theorem global_initialiser_out_of_range_is_error : forall fuel p g v,
  In g (pglobals p) -> In v (ginit g) -> coerce (gty g) v = Fail ERange -> run fuel p = ([], Failed ERange).
Proof.
  intros fuel p g v Hg Hv Hc. unfold run, init_state. rewrite (init_globals_rejects _ [] _ _ Hg Hv Hc). reflexivity.
Qed.
Print Assumptions global_initialiser_out_of_range_is_error.

(* in a well-formed state every read yields a value of the declared type of what is read; every
   value a call yields is a value of the declared result type; every argument that reaches a
   parameter is a value of the parameter's type (the value itself, or 0 for a clamped negative) *)
Theorem values_yielded_are_in_range :
  (forall x idx s v s', wf_state s -> m_read x idx s = (Val v, s') ->
     exists e, get_entry x s = Some e /\ in_range (ety e) v = true) /\
  (forall t c v, call_result (Some t) c = Val v -> in_range t v = true) /\
  (forall t v w, coerce t v = Val w -> in_range t w = true /\ (w = v \/ (uns t = true /\ v < 0 /\ w = 0))).
Proof.
  split; [|split].
  - intros x idx s v s' Hw. unfold m_read. destruct (get_entry x s) as [e|] eqn:Hg; [|discriminate].
    destruct (flat_index _ _ _) as [k|]; [|discriminate]. intros [= <- _]. exists e. split; [reflexivity|].
    destruct (get_entry_wf _ _ _ Hw Hg) as [Hv _]. apply nth_forall; [apply zero_in_range|exact Hv].
  - intros t c v. destruct c as [u| | |[w|]|e]; cbn [call_result]; try (intros [= <-]; apply zero_in_range); try discriminate.
    apply coerce_in_range.
  - intros t v w H. split; [eapply coerce_in_range; exact H|]. revert H.
    destruct (coerce_cases t v) as [(U & Hv & ->)|[_ ->]]; [intros [= <-]; auto|].
    destruct (in_range t v); [intros [= <-]; auto|discriminate].
Qed.
Print Assumptions values_yielded_are_in_range.

(* ---------------------------------------------------------------- one store *)
(* a value the target's type admits - both limits included - is stored, a read of the same cell
   yields exactly it, and the state stays well-formed *)
Theorem store_exact : forall x idx v s e,
  wf_state s -> get_entry x s = Some e -> econst e = false -> in_range (ety e) v = true ->
  (uns (ety e) = true -> 0 <= v) ->
  (exists k, flat_index (edims e) idx 0 = Some k) ->
  exists s', m_write x idx v s = (Val tt, s') /\ m_read x idx s' = (Val v, s') /\ wf_state s'.
Proof.
  intros x idx v s e Hw Hg Hc Hr Hu [k Hk]. exact (store_reads_back _ _ _ _ _ _ _ Hw Hg Hc Hk (coerce_id _ _ Hr Hu)).
Qed.
Print Assumptions store_exact.

(* both limits of every type are such values *)
Theorem boundary_values_admitted : forall t lo hi, range t = Some (lo, hi) ->
  in_range t lo = true /\ in_range t hi = true /\ in_range t (lo - 1) = false /\ in_range t (hi + 1) = false /\
  (uns t = true -> lo = 0).
Proof.
  intros [b u] lo hi H. destruct b, u; cbn in H; try discriminate; injection H as <- <-; vm_compute; repeat split; intros;
    try reflexivity; discriminate.
Qed.
Print Assumptions boundary_values_admitted.

(* the store changes no other variable and no other cell of the same array *)
Theorem store_touches_only_target : forall x idx v s s' y j,
  m_write x idx v s = (Val tt, s') ->
  (x <> y -> m_read y j s' = (fst (m_read y j s), s')) /\
  (forall e k k', get_entry x s = Some e -> flat_index (edims e) idx 0 = Some k -> flat_index (edims e) j 0 = Some k' ->
     Z.to_nat k <> Z.to_nat k' -> fst (m_read x j s') = fst (m_read x j s)).
Proof. exact store_touches_only_target_l. Qed.
Print Assumptions store_touches_only_target.

Theorem unsigned_negative_clamps :
  (forall t v, uns t = true -> v < 0 -> coerce t v = Val 0) /\
  (forall x idx v s e, wf_state s -> get_entry x s = Some e -> econst e = false -> uns (ety e) = true -> v < 0 ->
     (exists k, flat_index (edims e) idx 0 = Some k) ->
     exists s', m_write x idx v s = (Val tt, s') /\ m_read x idx s' = (Val 0, s')).
Proof.
  split; [exact unsigned_negative_clamps_l|]. intros x idx v s e Hw Hg Hc Hu Hv [k Hk].
  destruct (store_reads_back _ _ _ _ _ _ _ Hw Hg Hc Hk (unsigned_negative_clamps_l _ _ Hu Hv)) as (s' & H1 & H2 & _). eauto.
Qed.
Print Assumptions unsigned_negative_clamps.

(* any other out-of-range value is a range error on every store path of Ref - assignment and
   compound assignment and ++/-- (m_write), declaration / parameter binding / array literal
   (m_declare), return (call_result), argument conversion - and the state is left as it was *)
Theorem out_of_range_is_error : forall t v, in_range t v = false -> (uns t = false \/ 0 <= v) ->
  (forall x idx s e k, get_entry x s = Some e -> ety e = t -> econst e = false -> flat_index (edims e) idx 0 = Some k ->
      m_write x idx v s = (Fail ERange, s)) /\
  (forall sta cst x s, m_declare sta cst t x [] [v] s = (Fail ERange, s)) /\
  (forall sta cst x dims vs s, In v vs -> m_declare sta cst t x dims vs s = (Fail ERange, s)) /\
  call_result (Some t) (Ret (Some v)) = Fail ERange /\
  (forall p s, pty p = t -> lift (coerce (pty p) v) s = (@Fail Z ERange, s)).
Proof.
  intros t v Hr Hu. pose proof (out_of_range_coerce_l _ _ Hr Hu) as Hc. repeat split.
  - intros x idx s e k Hg <- Hcst Hk. unfold m_write. rewrite Hg, Hcst, Hk, Hc. reflexivity.
  - intros. unfold m_declare. cbn [coerce_all]. rewrite Hc. reflexivity.
  - intros sta cst x dims vs s Hin. unfold m_declare. rewrite (coerce_all_rejects _ _ _ Hin Hc). reflexivity.
  - cbn [call_result]. exact Hc.
  - intros p s <-. unfold lift. rewrite Hc. reflexivity.
Qed.
Print Assumptions out_of_range_is_error.

(* ---------------------------------------------------------------- Mech against Spec *)
(* declaration (also with a call as initialiser and through a typedef alias), assignment, compound assignment, argument passing,
   global scalar initialisers, ++/-- on variables, function results, multi-dimensional element stores, nested literals and (since
   fix a3f0b3d) direct stores into struct members of /repo behave as the property demands, for every type and every value *)
Theorem checked_paths_refine_spec : forall p, In p checked_paths -> forall t v, mech_store p t v = coerce t v.
Proof.
  intros p H t v. cbn in H. repeat (destruct H as [<-|H]; [apply clamp_check_is_coerce_l|]). destruct H.
Qed.
Print Assumptions checked_paths_refine_spec.

(* so do ++/-- on variables (fix 892a98c), function results (d7775cd), multi-dimensional element stores
   (a6c628c) and nested array literals (11769f3) - named instances of the theorem above *)
Theorem incdec_is_checked : forall t v, mech_store PIncDecVar t v = coerce t v.
Proof. apply checked_paths_refine_spec. cbn. tauto. Qed.
Print Assumptions incdec_is_checked.

Theorem return_is_checked : forall t v, mech_store PReturn t v = coerce t v.
Proof. apply checked_paths_refine_spec. cbn. tauto. Qed.
Print Assumptions return_is_checked.

Theorem multidim_store_is_checked : forall t v,
  mech_store PElemN t v = coerce t v /\ mech_store PLitN t v = coerce t v.
Proof. intros t v. split; apply checked_paths_refine_spec; cbn; tauto. Qed.
Print Assumptions multidim_store_is_checked.

(* 1-D element storage - assignment, compound assignment, ++/-- (fix 1b2d709), local array literal
   (fix 11769f3): as demanded for signed element types (reads included) and for the lower half of the
   unsigned ones; the upper half is the narrowing-read finding below *)
Theorem element_store_refines_spec_partial :
  (forall p t v, In p element_paths -> uns t = false -> mech_store p t v = coerce t v) /\
  (forall b v bits, bits_of b = Some bits -> b <> TChar -> 0 <= v < 2 ^ (bits - 1) ->
     mech_store PElem1 {| base := b; uns := true |} v = Val v).
Proof.
  split; [exact elem1_signed_refines_l|]. intros b v bits Hb Hc Hv.
  assert (H : in_range (mk b true) v = true /\ in_range (mk b false) v = true).
  { unfold in_range. destruct b; try discriminate; try congruence; injection Hb as <-; cbn in Hv |- *;
      unfold int64_min, int64_max; split; apply andb_true_iff; split; apply Z.leb_le; lia. }
  destruct H as [Hu Hs]. apply elem1_store_exact; [cbn; auto|apply coerce_id; [exact Hu|intros _; lia]|exact Hs].
Qed.
Print Assumptions element_store_refines_spec_partial.

(* a[i]++ / a[i]--: the stored element +-1 is converted like any store and an out-of-range result is an
   error for every element type - never a silent wrap *)
Theorem incdec_element_is_checked : forall t old delta,
  (uns t = false -> mech_elem1_update PIncDecElem1 t old delta = coerce t (old + delta)) /\
  (coerce t (old + delta) = Fail ERange -> mech_elem1_update PIncDecElem1 t old delta = Fail ERange).
Proof.
  intros t old delta. cbn [mech_elem1_update]. split.
  - apply elem1_signed_refines_l. cbn. auto.
  - intros H. rewrite elem1_store, H by (cbn; auto). reflexivity.
Qed.
Print Assumptions incdec_element_is_checked.

Theorem array_literal_is_checked : forall t v,
  (uns t = false -> mech_store PLit1 t v = coerce t v) /\
  (coerce t v = Fail ERange -> mech_store PLit1 t v = Fail ERange).
Proof.
  intros t v. split.
  - apply elem1_signed_refines_l. cbn. auto.
  - intros H. rewrite elem1_store, H by (cbn; auto). reflexivity.
Qed.
Print Assumptions array_literal_is_checked.

(* every remaining path has a 64-bit value on which today's behaviour is not the demanded one *)
Theorem unchecked_paths_refuted : forall p, In p unchecked_paths ->
  let '(t, v) := witness p in in64 v = true /\ mech_store p t v <> coerce t v.
Proof.
  intros p H. cbn in H. repeat (destruct H as [<-|H]; [vm_compute; split; [reflexivity|discriminate]|]). destruct H.
Qed.
Print Assumptions unchecked_paths_refuted.

Theorem global_array_literal_is_checked_refuted : (* global tiny[3] g = [128,0,0]; reads -128; unsigned: no clamp *)
  mech_store PGlobalArr tiny 128 = Val (-128) /\ mech_store PGlobalArr tint 2147483648 = Val (-2147483648) /\
  mech_store PGlobalArr utiny (-1) = Val (-1) /\
  coerce tiny 128 = Fail ERange /\ coerce tint 2147483648 = Fail ERange /\ coerce utiny (-1) = Val 0.
Proof. vm_compute. repeat split; reflexivity. Qed.
Print Assumptions global_array_literal_is_checked_refuted.

Theorem unsigned_element_reads_back_refuted : (* unsigned tiny[2] a; a[0] = 254;  reads -2 *)
  in_range utiny 254 = true /\ coerce utiny 254 = Val 254 /\ mech_store PElem1 utiny 254 = Val (-2) /\
  in_range utiny (-2) = false /\ mech_elem1_update PElem1Compound utiny 244 10 = Val 0 /\
  mech_store PLit1 utiny 254 = Val (-2) /\ mech_elem1_update PIncDecElem1 utiny 253 1 = Val (-2).
Proof. vm_compute. repeat split; reflexivity. Qed.
Print Assumptions unsigned_element_reads_back_refuted.

Theorem static_unsigned_clamps_refuted :     (* static unsigned tiny s = -1;  keeps -1 *)
  mech_store PStatic utiny (-1) = Val (-1) /\ coerce utiny (-1) = Val 0.
Proof. vm_compute. repeat split; reflexivity. Qed.
Print Assumptions static_unsigned_clamps_refuted.

Theorem bare_multidim_value_is_checked_refuted : (* int q = 0; q = m[1][1];  /  int f() { return m[1][1]; }  with m[1][1] = 4294967296 *)
  mech_store PAssignFromElemN tint 4294967296 = Val 4294967296 /\ mech_store PReturnElemN tint 4294967296 = Val 4294967296 /\
  coerce tint 4294967296 = Fail ERange /\
  mech_store PAssignFromElemN tiny (-129) = Fail ERange /\ mech_store PAssignFromElemN tiny 128 = Fail ERange.
Proof. vm_compute. repeat split; reflexivity. Qed.
Print Assumptions bare_multidim_value_is_checked_refuted.

(* ---------------------------------------------------------------- the typed store entry point *)
(* VariableManager::assign_variable range-checks against the declared type of the TARGET whatever type hint its caller
   passes - `x = c ? a : b;` passes the inferred type of the selected branch, a multiple declaration the declared type, plain
   assignments none: for every hint (other than TYPE_POINTER) whose resolved type is not bool, every target type and every value
   the store is the demanded conversion. (The seeded change C04-1 made the check follow the hint.) *)
Theorem assign_variable_checks_target_type : forall h t v,
  h <> HPointer -> resolved_type h t <> TBool -> mech_assign_variable h t v = coerce t v.
Proof.
  intros h t v Hp Hb. unfold mech_assign_variable.
  assert (E : match resolved_type h t with TBool => bool_norm v | _ => v end = v) by (destruct (resolved_type h t); congruence).
  rewrite E. fold (clamp_check t v). rewrite <- clamp_check_is_coerce_l. destruct h; try reflexivity. congruence.
Qed.
Print Assumptions assign_variable_checks_target_type.

Theorem ternary_assignment_is_checked : forall b t v, b <> TBool -> mech_store (PAssignHint (HTy b)) t v = coerce t v.
Proof. intros b t v Hb. apply assign_variable_checks_target_type; [discriminate|exact Hb]. Qed.
Print Assumptions ternary_assignment_is_checked.

(* `x = c ? a : b;` and `T a = .., x = c ? a : b;` with any non-bool hint; `x = f(..);` and `const T g = c;` (no hint) *)
Theorem hinted_paths_refine_spec :
  (forall h p, In p (hinted_paths h) -> h <> HPointer -> forall t v, resolved_type h t <> TBool -> mech_store p t v = coerce t v) /\
  (forall p, In p unhinted_paths -> forall t v, base t <> TBool -> mech_store p t v = coerce t v).
Proof.
  split.
  - intros h p H Hp t v Hb. cbn in H. repeat (destruct H as [<-|H]; [apply assign_variable_checks_target_type; assumption|]). destruct H.
  - intros p H t v Hb. cbn in H.
    repeat (destruct H as [<-|H]; [apply assign_variable_checks_target_type; [discriminate|exact Hb]|]). destruct H.
Qed.
Print Assumptions hinted_paths_refine_spec.

(* finding C04-ternary-assign-bool-branch: with a bool-inferred branch every admitted value other than 0 and 1 is not stored
   exactly (it is normalised to 1 before the store) *)
Theorem assign_variable_bool_hint_refuted : forall t v,
  v <> 0 -> v <> 1 -> in_range t v = true -> (uns t = true -> 0 <= v) ->
  coerce t v = Val v /\ mech_assign_variable (HTy TBool) t v <> Val v.
Proof.
  intros t v H0 H1 Hr Hu. split; [exact (coerce_id _ _ Hr Hu)|].
  unfold mech_assign_variable, bool_norm. cbn [resolved_type]. rewrite (proj2 (Z.eqb_neq v 0) H0).
  rewrite mech_clamp_is_spec_l, andb_false_r, mech_check_is_spec_l. destruct (in_range t 1); congruence.
Qed.
Print Assumptions assign_variable_bool_hint_refuted.

Theorem ternary_assign_bool_branch_refuted :   (* long u; u = c ? ~(5 == 3) : 0;  stores 1 *)
  mech_store (PAssignHint (HTy TBool)) {| base := TLong; uns := false |} (-1) = Val 1 /\ coerce {| base := TLong; uns := false |} (-1) = Val (-1) /\
  mech_store (PAssignHint (HTy TBool)) utiny (-2) = Val 1 /\ coerce utiny (-2) = Val 0 /\
  mech_store (PAssignHint (HTy TBool)) tiny 2 = Val 1 /\ mech_store (PDeclMulti (HTy TBool)) tiny (-1) = Val 1.
Proof. vm_compute. repeat split; reflexivity. Qed.
Print Assumptions ternary_assign_bool_branch_refuted.

Theorem typedef_ternary_init_is_checked_refuted :   (* typedef tiny T8; T8 t = c ? 128 : 0;  keeps 128; every other typedef initialiser is checked *)
  mech_store PDeclTypedefTernary tiny 128 = Val 128 /\ coerce tiny 128 = Fail ERange /\
  mech_store PDeclTypedefTernary tiny (-129) = Val (-129) /\ (forall t v, mech_store PDeclTypedef t v = coerce t v).
Proof. repeat split; try (vm_compute; reflexivity). apply checked_paths_refine_spec. cbn. tauto. Qed.
Print Assumptions typedef_ternary_init_is_checked_refuted.

Theorem static_assignment_keeps_unsigned_refuted :  (* static unsigned tiny s; s = 200 is an error, s = -1 keeps -1; signed statics are as demanded *)
  mech_store PStaticAssign utiny 200 = Fail ERange /\ coerce utiny 200 = Val 200 /\
  mech_store PStaticAssign utiny (-1) = Val (-1) /\ coerce utiny (-1) = Val 0 /\
  (forall t v, uns t = false -> mech_store PStaticAssign t v = coerce t v).
Proof.
  repeat split; try (vm_compute; reflexivity). intros [b u] v Hu. cbn in Hu. subst u.
  cbn [mech_store signed_of base uns]. rewrite mech_check_is_spec_l. reflexivity.
Qed.
Print Assumptions static_assignment_keeps_unsigned_refuted.

Theorem whole_array_store_is_checked_refuted :  (* tiny[3] a; a = [1,300,3] reads 44; 2-D keeps 300; a = b (long[3] b) keeps 300 *)
  mech_store PArrLitAssign1 tiny 300 = Val 44 /\ mech_store PArrLitAssignN tiny 300 = Val 300 /\ mech_store PArrCopy tiny 300 = Val 300 /\
  coerce tiny 300 = Fail ERange /\ mech_store PArrLitAssign1 utiny (-5) = Val 0 /\ mech_store PElem1Global utiny (-1) = Val (-1) /\
  mech_store PElem1Global utiny 200 = Fail ERange.
Proof. vm_compute. repeat split; reflexivity. Qed.
Print Assumptions whole_array_store_is_checked_refuted.

(* struct members.  A direct member store - `s.m = e;`, `s.m op= e;`, `s.m++` / `--s.m`, `s.a[i] = e;` (element of a member array),
   `Box<tiny> b; b.v = e;` (member of an instantiated generic struct) - is the demanded conversion for every type and every value
   since fix a3f0b3d (named instance of checked_paths_refine_spec; findings C04-struct-member-unchecked and C04-generic-struct-member
   are closed) *)
Theorem member_store_is_checked : forall t v, mech_store PMember t v = coerce t v.
Proof. apply checked_paths_refine_spec. cbn. tauto. Qed.
Print Assumptions member_store_is_checked.

(* what the fix does not cover.  Struct literals (`S s = {m: e};`, positional, nested, generic: unsigned clamp only) and indirect
   member stores (`o.in.m = e`, `p->m = e`, `ps[i].m = e`, `r.m = e` through a reference, `self.m = e`; also `*p = e`, `T& q = t; q = e`:
   nothing): a value the type admits is stored exactly; a negative to an unsigned member becomes 0 in a literal and is KEPT on the
   indirect paths; any other out-of-range value is KEPT where the property demands an error (findings C04-struct-literal-unchecked,
   C04-nested-member-store-unchecked, C04-member-through-pointer-unchecked, C04-member-through-reference-unchecked,
   C04-struct-array-member-unchecked, C04-pointer-store-unchecked, C04-reference-store-unchecked) *)
Theorem member_store_partial : forall t v,
  (in_range t v = true -> (uns t = true -> 0 <= v) -> mech_store PMemberLit t v = coerce t v /\ mech_store PIndirect t v = coerce t v) /\
  (uns t = true -> v < 0 -> mech_store PMemberLit t v = coerce t v /\ mech_store PIndirect t v = Val v /\ coerce t v = Val 0) /\
  (in_range t v = false -> (uns t = false \/ 0 <= v) -> mech_store PMemberLit t v = Val v /\ mech_store PIndirect t v = Val v /\ coerce t v = Fail ERange).
Proof.
  intros t v. cbn [mech_store]. split; [|split].
  - intros H H0. rewrite (coerce_id _ _ H H0), (mech_clamp_keeps _ _ H0). split; reflexivity.
  - intros U Hv. rewrite (unsigned_negative_clamps_l _ _ U Hv), U, (mech_clamp_negative _ Hv). repeat split; reflexivity.
  - intros H Hu. rewrite (out_of_range_coerce_l _ _ H Hu), mech_clamp_keeps; [repeat split; reflexivity|].
    intros U. destruct Hu as [Hu|Hu]; [congruence|exact Hu].
Qed.
Print Assumptions member_store_partial.

Theorem struct_literal_is_checked_refuted :   (* struct S { tiny t; }; S s = {t: 200}; keeps 200 - while s.t = 200 is a range error now *)
  mech_store PMemberLit tiny 200 = Val 200 /\ coerce tiny 200 = Fail ERange /\
  mech_store PMemberLit utiny 256 = Val 256 /\ coerce utiny 256 = Fail ERange /\
  mech_store PMemberLit utiny (-5) = Val 0 /\ coerce utiny (-5) = Val 0 /\
  mech_store PMember tiny 200 = Fail ERange /\ mech_store PMember utiny 256 = Fail ERange.
Proof. vm_compute. repeat split; reflexivity. Qed.
Print Assumptions struct_literal_is_checked_refuted.

Theorem indirect_member_store_is_checked_refuted :   (* o.inner.w = 40000 (short w) keeps 40000; p->t = 200 keeps 200; an unsigned short member keeps -2 *)
  mech_store PIndirect tshort 40000 = Val 40000 /\ coerce tshort 40000 = Fail ERange /\
  mech_store PIndirect tiny 200 = Val 200 /\ coerce tiny 200 = Fail ERange /\
  mech_store PIndirect ushort (-2) = Val (-2) /\ coerce ushort (-2) = Val 0.
Proof. vm_compute. repeat split; reflexivity. Qed.
Print Assumptions indirect_member_store_is_checked_refuted.

(* ---------------------------------------------------------------- non-vacuity *)
Example sample_store :
  let p := {| pglobals := [ {| gcst := false; gty := {| base := TShort; uns := true |}; gname := 9%nat; gdims := []; ginit := [-4] |} ];
              pfuncs := [];
              pmain := [ SDecl false false tiny 1%nat (Some (ENum 127));
                         SPrint true [EVar 1%nat; EVar 9%nat];
                         SAssign (LVar 1%nat) None (ENum (-128));
                         SPrint true [EVar 1%nat];
                         SIncDec false false (LVar 1%nat);
                         SPrint true [EVar 1%nat] ] |} in
  run 100 p = ([OInt 127; OSp; OInt 0; ONl; OInt (-128); ONl], Failed ERange).
Proof. vm_compute. reflexivity. Qed.

Example sample_wf : exists s, final_state 50 {| pglobals := []; pfuncs := [];
   pmain := [ SArr false utiny 1%nat [2%nat; 2%nat] [ENum 255; ENum (-3)]; SAssign (LIdx 1%nat [ENum 1; ENum 1]) None (ENum 256) ] |} = Some s
   /\ wf_state s.
Proof. eexists. split; [reflexivity|]. apply store_inv_list. repeat split; cbn; repeat constructor. Qed.
