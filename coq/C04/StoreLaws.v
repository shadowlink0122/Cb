(* C04 - what one store does: a read of the stored cell yields the converted value, every other variable and every other cell of
   the same array is left alone. *)
From Coq Require Import List ZArith Bool Lia.
From Cb Require Import Lang.Sem Lang.Theorems C04.Model C04.Invariant.
Import ListNotations.
Local Open Scope Z_scope.

Lemma nth_set_nth_same k v l d : (k < List.length l)%nat -> nth k (set_nth k v l) d = v.
Proof. revert k; induction l as [|x r IH]; intros k H; cbn in H; [lia|]. destruct k; cbn [set_nth nth]; [reflexivity|apply IH; lia]. Qed.
Lemma nth_set_nth_other k j v l d : k <> j -> nth j (set_nth k v l) d = nth j l d.
Proof.
  revert k j; induction l as [|x r IH]; intros k j H; destruct k; cbn [set_nth]; try reflexivity.
  - destruct j; [congruence|reflexivity].
  - destruct j; cbn [nth]; [reflexivity|apply IH; congruence].
Qed.

(* reading after an update - of a block list, of the state: the entry is replaced where the name is bound, nothing is added,
   every other name is as it was *)
Lemma scopes_get_set x y e ss : scopes_get y (scopes_set x e ss) =
  if Nat.eqb y x then match scopes_get x ss with Some _ => Some e | None => None end else scopes_get y ss.
Proof.
  induction ss as [|sc r IH]; cbn [scopes_get scopes_set]; [destruct (Nat.eqb y x); reflexivity|].
  destruct (assoc x sc) eqn:E; cbn [scopes_get]; [rewrite assoc_assoc_set|rewrite IH];
    destruct (Nat.eqb_spec y x) as [->|]; rewrite ?E; reflexivity.
Qed.

Lemma assoc_set_stat_same f sc l : assoc f (set_stat f sc l) = Some sc.
Proof.
  unfold set_stat. destruct (assoc f l) eqn:E; [eapply assoc_set_same; exact E|]. cbn [assoc]. rewrite Nat.eqb_refl. reflexivity.
Qed.

Lemma get_put x y e s : get_entry y (put_entry x e s) =
  if Nat.eqb y x then match get_entry x s with Some _ => Some e | None => None end else get_entry y s.
Proof.
  unfold get_entry, put_entry. destruct (sframes s) as [|f fr] eqn:Ef.
  - cbn. rewrite ?Ef. apply assoc_assoc_set.
  - destruct (scopes_get x (fscopes f)) eqn:E1.
    + cbn. rewrite scopes_get_set, E1. destruct (Nat.eqb y x); reflexivity.
    + destruct (assoc x (statics_of (ffn f) s)) eqn:E2; cbn; rewrite ?Ef.
      * unfold statics_of at 1. cbn. rewrite assoc_set_stat_same, assoc_assoc_set, E2.
        destruct (Nat.eqb_spec y x) as [->|]; rewrite ?E1; reflexivity.
      * unfold statics_of in *. cbn [sstat]. rewrite assoc_assoc_set.
        destruct (Nat.eqb_spec y x) as [->|]; rewrite ?E1, ?E2; reflexivity.
Qed.
Lemma get_put_same x e s b : get_entry x s = Some b -> get_entry x (put_entry x e s) = Some e.
Proof. intros H. rewrite get_put, Nat.eqb_refl, H. reflexivity. Qed.
Lemma get_put_other x y e s : x <> y -> get_entry y (put_entry x e s) = get_entry y s.
Proof. intros H. rewrite get_put. destruct (Nat.eqb_spec y x); [congruence|reflexivity]. Qed.

(* an accumulator below [a] stays below the product of [a] and the dimensions it passes *)
Lemma flat_index_bound dims idx acc a k :
  flat_index dims idx acc = Some k -> 0 <= acc < Z.of_nat a -> 0 <= k < Z.of_nat (fold_left Nat.mul dims a).
Proof.
  revert idx acc a. induction dims as [|d ds IH]; intros [|i is_] acc a; cbn [flat_index fold_left]; try discriminate.
  - intros [= <-] H. exact H.
  - destruct ((0 <=? i) && (i <? Z.of_nat d)) eqn:E; [|discriminate]. intros Hf Hacc. apply (IH _ _ _ Hf).
    apply andb_true_iff in E as [E1 E2]. apply Z.leb_le in E1. apply Z.ltb_lt in E2. nia.
Qed.

Lemma flat_index_cell e idx k : wf_entry e -> flat_index (edims e) idx 0 = Some k ->
  (Z.to_nat k < List.length (evals e))%nat.
Proof. intros [_ Hl] Hf. apply (flat_index_bound _ _ _ 1%nat) in Hf; [|lia]. rewrite Hl. unfold size_of. lia. Qed.

(* a store that the conversion accepts succeeds, and a read of the same cell afterwards yields the converted value *)
Lemma store_reads_back x idx v w s e k :
  wf_state s -> get_entry x s = Some e -> econst e = false -> flat_index (edims e) idx 0 = Some k -> coerce (ety e) v = Val w ->
  exists s', m_write x idx v s = (Val tt, s') /\ m_read x idx s' = (Val w, s') /\ wf_state s'.
Proof.
  intros Hw Hg Hc Hk Hv. pose proof (write_wf x idx v s Hw) as Hw'. revert Hw'. unfold m_write. rewrite Hg, Hc, Hk, Hv.
  intros Hw'. eexists. split; [reflexivity|]. split; [|exact Hw'].
  unfold m_read. rewrite (get_put_same _ _ _ _ Hg). cbn [edims evals]. rewrite Hk, nth_set_nth_same; [reflexivity|].
  exact (flat_index_cell _ _ _ (get_entry_wf _ _ _ Hw Hg) Hk).
Qed.

(* ... and leaves every other variable and every other cell of the same array as it was *)
Lemma store_touches_only_target_l x idx v s s' y j :
  m_write x idx v s = (Val tt, s') ->
  (x <> y -> m_read y j s' = (fst (m_read y j s), s')) /\
  (forall e k k', get_entry x s = Some e -> flat_index (edims e) idx 0 = Some k -> flat_index (edims e) j 0 = Some k' ->
     Z.to_nat k <> Z.to_nat k' -> fst (m_read x j s') = fst (m_read x j s)).
Proof.
  intros H. pose proof (m_write_cases x idx v s) as C. rewrite H in C. destruct C as (e & k & w & Hg & Hk & _ & ->). split.
  - intros Hxy. unfold m_read. rewrite (get_put_other _ _ _ _ Hxy). destruct (get_entry y s) as [e'|]; [|reflexivity].
    destruct (flat_index (edims e') j 0); reflexivity.
  - intros e0 k0 k' He Hk0 Hk' Hne. rewrite Hg in He. injection He as <-. rewrite Hk in Hk0. injection Hk0 as <-.
    unfold m_read. rewrite (get_put_same _ _ _ _ Hg), Hg. cbn [edims evals].
    rewrite Hk'. cbn [fst]. f_equal. apply nth_set_nth_other. exact Hne.
Qed.
