(* C04 - the model of today's store paths (Mech) against the property's reading (Spec = Lang.Sem.coerce): the generated range
   table and tests are those of the reference semantics, clamp followed by check is the demanded conversion, and a 1-D element
   store is that conversion followed by the narrowing read.  The property theorems about the single paths
   (C04/Properties_C04.v) are instances of these. *)
From Coq Require Import List ZArith Bool Lia.
From Cb Require Import Lang.Syntax Lang.Sem C04.Gen_RangeTable C04.Model C04.Invariant.
Import ListNotations.
Local Open Scope Z_scope.

Definition mk (b : ity) (u : bool) : ty := {| base := b; uns := u |}.

Lemma gen_range_is_ref_l b u : gen_range b u = range (mk b u).
Proof. destruct b, u; reflexivity. Qed.

(* the accept/reject decision of check_type_range is the documented closed interval *)
Lemma mech_check_is_spec_l t v : mech_check t v = if in_range t v then Val v else Fail ERange.
Proof.
  unfold mech_check, in_range. destruct t as [b u]. cbn [base uns]. rewrite gen_range_is_ref_l. unfold mk.
  destruct (range {| base := b; uns := u |}) as [[lo hi]|]; [|reflexivity].
  unfold gen_reject. rewrite Z.ltb_antisym, Z.gtb_ltb, (Z.ltb_antisym v hi), <- negb_andb.
  destruct ((lo <=? v) && (v <=? hi)); reflexivity.
Qed.

Lemma mech_clamp_is_spec_l u v : mech_clamp u v = if u && (v <? 0) then 0 else v.
Proof.
  unfold mech_clamp, gen_clamp_keeps, gen_clamp_to. rewrite Z.geb_leb, Z.ltb_antisym.
  destruct u; cbn [negb orb andb]; [|reflexivity]. destruct (0 <=? v); reflexivity.
Qed.

Lemma mech_clamp_keeps u v : (u = true -> 0 <= v) -> mech_clamp u v = v.
Proof.
  intros H. rewrite mech_clamp_is_spec_l. destruct u; [|reflexivity].
  rewrite (proj2 (Z.ltb_ge v 0) (H eq_refl)). reflexivity.
Qed.

Lemma mech_clamp_negative v : v < 0 -> mech_clamp true v = 0.
Proof. intros H. rewrite mech_clamp_is_spec_l, (proj2 (Z.ltb_lt v 0) H). reflexivity. Qed.

Lemma clamp_check_is_coerce_l t v : clamp_check t v = coerce t v.
Proof.
  unfold clamp_check, coerce. rewrite mech_clamp_is_spec_l, mech_check_is_spec_l.
  destruct (uns t && (v <? 0)); [rewrite zero_in_range|]; reflexivity.
Qed.

Lemma sext_id bits v : 0 < bits -> - 2 ^ (bits - 1) <= v < 2 ^ (bits - 1) -> sext bits v = v.
Proof.
  intros Hb Hv. unfold sext. replace (2 ^ bits) with (2 * 2 ^ (bits - 1)).
  - rewrite Z.mod_small; lia.
  - rewrite <- Z.pow_succ_r by lia. f_equal. lia.
Qed.

(* the narrowing read re-interprets the element as the SIGNED type of its width: the values of that type are read as they are *)
Lemma narrow_read_id t v : in_range (signed_of t) v = true -> narrow_read t v = v.
Proof.
  unfold in_range, narrow_read, signed_of, range. cbn [base uns]. destruct (base t); try reflexivity; intros H;
    apply andb_true_iff in H as [H1 H2]; apply Z.leb_le in H1; apply Z.leb_le in H2; apply sext_id; cbn; lia.
Qed.

(* a 1-D element store - by assignment, compound assignment, ++/--, array literal - is the demanded conversion, but what a
   later read yields has gone through the narrowing read *)
Lemma elem1_store p t v : In p element_paths ->
  mech_store p t v = match coerce t v with Val w => Val (narrow_read t w) | other => other end.
Proof.
  intros Hp. rewrite <- clamp_check_is_coerce_l. cbn in Hp. repeat (destruct Hp as [<-|Hp]; [reflexivity|]). destruct Hp.
Qed.

(* which changes nothing where the converted value is one of the signed type of the element's width: *)
Lemma elem1_store_exact p t v w : In p element_paths -> coerce t v = Val w -> in_range (signed_of t) w = true ->
  mech_store p t v = Val w.
Proof. intros Hp Hc Hw. rewrite (elem1_store _ _ _ Hp), Hc, (narrow_read_id _ _ Hw). reflexivity. Qed.

(* for a signed element type always *)
Lemma elem1_signed_refines_l p t v : In p element_paths -> uns t = false -> mech_store p t v = coerce t v.
Proof.
  intros Hp Hu. destruct (coerce t v) as [w| | | |] eqn:E; try (rewrite (elem1_store _ _ _ Hp), E; reflexivity).
  apply (elem1_store_exact _ _ _ _ Hp E). destruct t as [b u]. cbn in Hu. subst u. exact (coerce_in_range _ _ _ E).
Qed.

Definition tiny := mk TTiny false.
Definition utiny := mk TTiny true.
Definition tint := mk TInt false.
Definition tshort := mk TShort false.
Definition ushort := mk TShort true.

(* a witness per path: a 64-bit value on which today's behaviour differs from the demanded one *)
Definition witness (p : path) : ty * Z :=
  match p with
  | PStatic => (utiny, -1)
  | PElem1 | PElem1Compound | PIncDecElem1 | PLit1 => (utiny, 254)
  | PGlobalArr => (tiny, 128)
  | PAssignFromElemN | PReturnElemN => (tint, 4294967296)
  | PAssignHint _ | PDeclMulti _ => (tiny, -1)
  | PDeclTypedefTernary | PArrCopy | PArrLitAssign1 | PArrLitAssignN | PMemberLit | PIndirect => (tiny, 128)
  | PStaticAssign | PElem1Global => (utiny, -1)
  | _ => (tiny, 0)
  end.
