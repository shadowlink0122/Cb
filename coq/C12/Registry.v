(* C12 - registration (register_impl_definition) and dispatch through the T::m function table:
   the method found for a receiver of dynamic type T is the one of the unique impl block that
   gives T a method of that name; registration succeeds iff the impl blocks are pairwise
   conflict-free, which does not depend on their order; neither does any lookup. *)
From Coq Require Import List Bool String ZArith Permutation.
From Cb Require Import C12.Model C12.Maps.
Import ListNotations.
Local Open Scope string_scope.
Local Open Scope list_scope.

Lemma smem_In : forall k l, smem k l = true <-> In k l.
Proof.
  unfold smem; intros; rewrite existsb_exists; split.
  - intros [x [H E]]. apply String.eqb_eq in E; subst; assumption.
  - intros H. exists k. split; [assumption|apply String.eqb_refl].
Qed.

Lemma same_pair_iff : forall i t d, same_pair i t d = true <-> i_iface d = i /\ i_type d = t.
Proof. unfold same_pair; intros. rewrite andb_true_iff, !String.eqb_eq. tauto. Qed.

Lemma impl_exists_iff : forall ds i t, impl_exists ds i t = true <-> exists d, In d ds /\ i_iface d = i /\ i_type d = t.
Proof.
  unfold impl_exists; intros. rewrite existsb_exists.
  split; intros [d [H S]]; exists d; split; auto; apply same_pair_iff; assumption.
Qed.
Lemma impl_exists_find : forall ds i t, impl_exists ds i t = match find_impl ds t i with Some _ => true | None => false end.
Proof.
  unfold impl_exists, find_impl; induction ds as [|d ds IH]; simpl; intros; [reflexivity|].
  destruct (same_pair i t d); simpl; auto.
Qed.

(* find_impl_for_struct (exact match) returns a block of the requested pair, and finds one whenever some exists *)
Lemma find_impl_some : forall ds t i d, find_impl ds t i = Some d -> In d ds /\ i_iface d = i /\ i_type d = t.
Proof. unfold find_impl; intros ds t i d H. apply find_some in H as [H1 H2]. apply same_pair_iff in H2. auto. Qed.
Lemma find_impl_unique : forall ds t i d,
  NoDup (map (fun d => (i_iface d, i_type d)) ds) -> In d ds -> i_iface d = i -> i_type d = t ->
  find_impl ds t i = Some d.
Proof.
  induction ds as [|e ds IH]; simpl; intros t i d ND H Hi Ht; [tauto|].
  inversion ND as [|? ? Hn ND']; subst. unfold find_impl in *. simpl.
  destruct (same_pair (i_iface d) (i_type d) e) eqn:S.
  - destruct H as [->|H]; [reflexivity|]. exfalso. apply Hn.
    apply same_pair_iff in S as [A B]. rewrite A, B.
    apply (in_map (fun d => (i_iface d, i_type d))) in H. exact H.
  - destruct H as [->|H]; [|apply IH; auto].
    rewrite (proj2 (same_pair_iff _ _ _)) in S by auto. discriminate.
Qed.

(* names are identifiers (no ':'), method names inside one impl block are distinct *)
Definition wf_impl (d : impl_def) : Prop :=
  no_colon (i_iface d) = true /\ no_colon (i_type d) = true /\
  Forall (fun m => no_colon m = true) (method_names d) /\ NoDup (method_names d).
Definition wf_impls (ds : list impl_def) : Prop := Forall wf_impl ds.

(* two impl blocks for one type sharing a method name: "Method name conflict" *)
Definition conflict (d e : impl_def) : Prop :=
  i_type d = i_type e /\ exists m, In m (method_names d) /\ In m (method_names e).
Lemma conflict_sym : forall d e, conflict d e -> conflict e d.
Proof. intros d e [H [m [H1 H2]]]. split; [auto|exists m; auto]. Qed.

Lemma find_conflict_none : forall ds d, find_conflict ds d = None <-> (forall e, In e ds -> ~ conflict d e).
Proof.
  unfold find_conflict; intros ds d; split.
  - intros H e He [Ht [m [Hm1 Hm2]]].
    pose proof (find_none _ _ H m Hm1) as F. simpl in F. apply not_true_iff_false in F. apply F.
    apply existsb_exists. exists e. split; [assumption|].
    rewrite Ht, String.eqb_refl. simpl. apply smem_In; assumption.
  - intros H.
    destruct (find _ _) as [m|] eqn:F; [|reflexivity].
    apply find_some in F as [Hm F]. apply existsb_exists in F as [e [He F]].
    apply andb_true_iff in F as [F1 F2]. apply String.eqb_eq in F1. apply smem_In in F2.
    exfalso. apply (H e He). split; [auto|exists m; auto].
Qed.

(* the function table after add_funcs *)
Section AddFuncs.
Variable d : impl_def.
Let i := i_iface d.
Let t := i_type d.
Let step := fun (acc : list (string * fentry)) (m : method) =>
  aset (iface_key i t (m_name m)) (mk_entry d m) (aset (method_key t (m_name m)) (mk_entry d m) acc).

Lemma add_other : forall ms fs k,
  (forall m, In m ms -> k <> method_key t (m_name m) /\ k <> iface_key i t (m_name m)) ->
  alookup k (fold_left step ms fs) = alookup k fs.
Proof.
  induction ms as [|m0 ms IH]; simpl; intros fs k H; [reflexivity|].
  rewrite IH by (intros; apply H; auto).
  destruct (H m0 (or_introl eq_refl)) as [H1 H2].
  unfold step. rewrite alookup_aset_other by assumption. apply alookup_aset_other; assumption.
Qed.

Hypotheses (Hi : no_colon i = true) (Ht : no_colon t = true).

Lemma add_new : forall ms fs m, NoDup (map m_name ms) -> Forall (fun n => no_colon n = true) (map m_name ms) ->
  In m ms -> alookup (method_key t (m_name m)) (fold_left step ms fs) = Some (mk_entry d m).
Proof.
  induction ms as [|m0 ms IH]; simpl; intros fs m ND NC H; [tauto|].
  inversion ND as [|? ? Hn ND']; subst. inversion NC as [|? ? Hc NC']; subst.
  destruct H as [->|H].
  - rewrite add_other.
    + unfold step. rewrite alookup_aset_other.
      * apply alookup_aset_same.
      * apply method_key_not_iface_key; assumption.
    + intros m' Hm'.
      assert (no_colon (m_name m') = true) as Hc' by (rewrite Forall_forall in NC'; apply NC', in_map, Hm').
      split.
      * intros E. apply method_key_inj_r in E as [_ E]; try assumption.
        apply Hn. rewrite E. apply in_map; assumption.
      * apply method_key_not_iface_key; assumption.
  - apply IH; assumption.
Qed.

Lemma add_inv : forall ms fs k fe, alookup k (fold_left step ms fs) = Some fe ->
  alookup k fs = Some fe \/ (exists m, In m ms /\ fe = mk_entry d m /\ (k = method_key t (m_name m) \/ k = iface_key i t (m_name m))).
Proof.
  induction ms as [|m0 ms IH]; simpl; intros fs k fe H; [auto|].
  apply IH in H as [H|[m [H1 H2]]]; [|right; exists m; auto].
  unfold step in H. rewrite !alookup_aset in H.
  destruct (String.eqb k (iface_key i t (m_name m0))) eqn:E1.
  - apply String.eqb_eq in E1. inversion H; subst. right; exists m0; auto.
  - destruct (String.eqb k (method_key t (m_name m0))) eqn:E2.
    + apply String.eqb_eq in E2. inversion H; subst. right; exists m0; auto.
    + auto.
Qed.
End AddFuncs.

Definition all_statics (ds : list impl_def) (ss : list (string * Z)) : list (string * Z) :=
  fold_left (fun ss d => add_statics d ss) ds ss.

(* add_statics d is a run of insertions under the keys impl::I::T::n of d's own pair *)
Lemma keys_add_statics : forall d ss k, In k (keys (add_statics d ss)) <->
  In k (map (fun nz => static_key (i_iface d) (i_type d) (fst nz)) (i_statics d)) \/ In k (keys ss).
Proof. intros. apply (keys_inserts _ _ (fun nz : name * Z => static_key (i_iface d) (i_type d) (fst nz)) snd). Qed.
Lemma add_statics_over : forall d ss, over (add_statics d []) ss (add_statics d ss).
Proof.
  intros. apply (inserts_over _ _ (fun nz : name * Z => static_key (i_iface d) (i_type d) (fst nz)) snd).
  intros k. reflexivity.
Qed.

Lemma all_statics_keeps : forall ds ss k, In k (keys ss) -> In k (keys (all_statics ds ss)).
Proof. induction ds as [|d ds IH]; simpl; intros ss k H; [assumption|]. apply IH, keys_add_statics. auto. Qed.
Lemma all_statics_declared : forall ds ss d nz, In d ds -> In nz (i_statics d) ->
  In (static_key (i_iface d) (i_type d) (fst nz)) (keys (all_statics ds ss)).
Proof.
  induction ds as [|e ds IH]; simpl; intros ss d nz Hd Hn; [tauto|].
  destruct Hd as [->|Hd]; [|apply IH; assumption].
  apply all_statics_keeps, keys_add_statics. left.
  apply (in_map (fun nz => static_key (i_iface d) (i_type d) (fst nz))). assumption.
Qed.

Definition funcs_ok (r : registry) : Prop :=
  forall d m, In d (r_impls r) -> In m (i_methods d) ->
    alookup (method_key (i_type d) (m_name m)) (r_funcs r) = Some (mk_entry d m).
(* every entry of the table, under either key, is a method of a registered block stamped with the block's pair *)
Definition funcs_from (r : registry) : Prop :=
  forall k fe, alookup k (r_funcs r) = Some fe ->
    exists d m, In d (r_impls r) /\ In m (i_methods d) /\ fe = mk_entry d m /\
      (k = method_key (i_type d) (m_name m) \/ k = iface_key (i_iface d) (i_type d) (m_name m)).

Lemma register_impl_keeps : forall r d r', wf_impl d -> wf_impls (r_impls r) ->
  funcs_ok r -> funcs_from r -> register_impl r d = inl r' ->
  funcs_ok r' /\ funcs_from r'.
Proof.
  unfold register_impl, wf_impls; intros r d r' [Wi [Wt [Wn Wd]]] Wr OK SD H.
  destruct (find_conflict (r_impls r) d) eqn:FC; [discriminate|].
  inversion H; subst r'; clear H. simpl.
  rewrite find_conflict_none in FC.
  unfold method_names in *.
  assert (forall m, In m (i_methods d) -> no_colon (m_name m) = true) as Nm.
  { intros m Hm. rewrite Forall_forall in Wn. apply Wn, in_map, Hm. }
  split.
  - intros d' m' Hd' Hm'. simpl in *. apply in_app_or in Hd' as [Hd'|[<-|[]]].
    + unfold add_funcs. rewrite add_other.
      * apply OK; assumption.
      * intros m Hm. split.
        -- intros E. apply method_key_inj_r in E as [E1 E2]; auto.
           apply (FC d' Hd'). split; [auto|]. exists (m_name m). split; [apply in_map; assumption|].
           rewrite <- E2. apply in_map; assumption.
        -- apply method_key_not_iface_key; auto.
    + unfold add_funcs. apply add_new; assumption.
  - intros k fe H. simpl in *. unfold add_funcs in H.
    apply add_inv in H as [H|[m [H1 [-> H2]]]].
    + destruct (SD k fe H) as [d' [m [A B]]]. exists d', m. split; [apply in_or_app; auto|exact B].
    + exists d, m. split; [apply in_or_app; right; left; reflexivity|auto].
Qed.

(* the impl list and the statics table grow whatever the blocks look like *)
Lemma register_all_tables : forall ds r r', register_all r ds = inl r' ->
  r_impls r' = r_impls r ++ ds /\ r_statics r' = all_statics ds (r_statics r).
Proof.
  induction ds as [|d ds IH]; simpl; intros r r' H.
  - inversion H; subst. rewrite app_nil_r. auto.
  - unfold register_impl in H. destruct (find_conflict (r_impls r) d); [discriminate|].
    apply IH in H as [I S]. simpl in I, S. rewrite <- app_assoc in I. auto.
Qed.

Lemma register_all_keeps : forall ds r r', wf_impls ds -> wf_impls (r_impls r) ->
  funcs_ok r -> funcs_from r -> register_all r ds = inl r' -> funcs_ok r' /\ funcs_from r'.
Proof.
  induction ds as [|d ds IH]; simpl; intros r r' W Wr OK SD H.
  - inversion H; subst. auto.
  - inversion W as [|? ? Wd Wds]; subst.
    destruct (register_impl r d) as [r1|] eqn:R; [|discriminate].
    destruct (register_impl_keeps _ _ _ Wd Wr OK SD R) as [OK1 SD1].
    destruct (register_all_tables [d] r r1) as [I1 _]; [simpl; rewrite R; reflexivity|].
    apply (IH r1 r' Wds); try assumption.
    rewrite I1. apply Forall_app; split; [assumption|constructor; [assumption|constructor]].
Qed.

(* what a successful registration of ds from the empty registry leaves; its first two parts are THE dispatch fact:
   T::m finds the method m of every block for T, in any order, and nothing that was not registered for T *)
Lemma registered : forall ds r, wf_impls ds -> register_all empty_registry ds = inl r ->
  funcs_ok r /\ funcs_from r /\ r_impls r = ds /\ r_statics r = all_statics ds [].
Proof.
  intros ds r W R. destruct (register_all_tables _ _ _ R) as [I S].
  destruct (register_all_keeps ds empty_registry r W) as [OK SD]; try assumption; auto.
  - constructor.
  - intros d m [].
  - intros k fe H. discriminate.
Qed.
Lemma dispatch_registered : forall ds r d m, wf_impls ds -> register_all empty_registry ds = inl r ->
  In d ds -> In m (i_methods d) ->
  alookup (method_key (i_type d) (m_name m)) (r_funcs r) = Some (mk_entry d m).
Proof. intros ds r d m W R Hd Hm. destruct (registered _ _ W R) as [OK [_ [I _]]]. apply OK; [rewrite I|]; assumption. Qed.
Lemma dispatch_sound : forall ds r t n fe, wf_impls ds -> register_all empty_registry ds = inl r ->
  alookup (method_key t n) (r_funcs r) = Some fe ->
  exists d m, In d ds /\ i_type d = t /\ In m (i_methods d) /\ m_name m = n /\ fe = mk_entry d m.
Proof.
  intros ds r t n fe W R H. destruct (registered _ _ W R) as [_ [SD [I _]]].
  destruct (SD _ _ H) as [d [m [Hd [Hm [-> K]]]]]. rewrite I in Hd.
  pose proof (proj1 (Forall_forall _ _) W d Hd) as [Wi [Wt [Wn _]]].
  assert (no_colon (m_name m) = true) as Nm by (rewrite Forall_forall in Wn; apply Wn, in_map, Hm).
  destruct K as [K|K].
  - apply method_key_inj_r in K as [-> ->]; auto. exists d, m. auto.
  - exfalso. exact (method_key_not_iface_key _ _ _ _ _ Wi Wt Nm K).
Qed.

Definition noconf (e d : impl_def) : Prop := ~ conflict d e.

Lemma register_all_ok_iff : forall ds r,
  (exists r', register_all r ds = inl r') <->
  (Forall (fun d => forall e, In e (r_impls r) -> noconf e d) ds /\ ForallOrdPairs noconf ds).
Proof.
  induction ds as [|d ds IH]; simpl; intros r.
  - split; [intros _; split; constructor|intros _; eauto].
  - unfold register_impl at 1. destruct (find_conflict (r_impls r) d) eqn:FC.
    + split; [intros [r' H]; discriminate|].
      intros [F _]. inversion F as [|? ? H1 _]; subst.
      assert (find_conflict (r_impls r) d = None) as N by (apply find_conflict_none; exact H1).
      rewrite N in FC; discriminate.
    + rewrite find_conflict_none in FC. rewrite IH. simpl. split.
      * intros [F P]. split.
        -- constructor; [exact FC|]. rewrite Forall_forall in *. intros x Hx e He. apply (F x Hx). apply in_or_app; auto.
        -- constructor; [|assumption]. rewrite Forall_forall in *. intros x Hx. apply (F x Hx). apply in_or_app; right; left; reflexivity.
      * intros [F P]. inversion F as [|? ? _ F']; subst. inversion P as [|? ? Pd P']; subst.
        split; [|assumption]. rewrite Forall_forall in *. intros x Hx e He.
        apply in_app_or in He as [He|[<-|[]]]; [apply (F' x Hx e He)|apply (Pd x Hx)].
Qed.

Lemma FOP_perm : forall (A : Type) (R : A -> A -> Prop), (forall a b, R a b -> R b a) ->
  forall l l', Permutation l l' -> ForallOrdPairs R l -> ForallOrdPairs R l'.
Proof.
  intros A R S l l' P. induction P; intros H.
  - assumption.
  - inversion H; subst. constructor; [eapply Permutation_Forall; eauto|auto].
  - inversion H as [|? ? Hy H']; subst. inversion H' as [|? ? Hx H'']; subst.
    inversion Hy; subst. constructor; [constructor; [apply S; assumption|assumption]|constructor; assumption].
  - auto.
Qed.

Lemma wf_impls_perm : forall ds ds', Permutation ds ds' -> wf_impls ds -> wf_impls ds'.
Proof. intros; eapply Permutation_Forall; eauto. Qed.

(* the "Method name conflict" check is symmetric, so blocks that register in one order register in every order *)
Lemma registration_succeeds_any_order : forall ds ds' r, Permutation ds ds' ->
  register_all empty_registry ds = inl r -> exists r', register_all empty_registry ds' = inl r'.
Proof.
  intros ds ds' r P H.
  assert (exists r0, register_all empty_registry ds = inl r0) as E by eauto.
  apply register_all_ok_iff in E as [_ F].
  apply register_all_ok_iff. split.
  - apply Forall_forall. intros x _ e [].
  - eapply FOP_perm; eauto. intros a b N C. apply N, conflict_sym, C.
Qed.

(* impl_exists / find_impl only see membership *)
Lemma impl_exists_perm : forall ds ds' i t, Permutation ds ds' -> impl_exists ds i t = impl_exists ds' i t.
Proof.
  intros ds ds' i t P. apply eq_true_iff_eq. rewrite !impl_exists_iff.
  split; intros [d [H S]]; exists d; (split; [|exact S]).
  - apply (Permutation_in d P H).
  - apply (Permutation_in d (Permutation_sym P) H).
Qed.

(* two lookups that find the same things are equal *)
Lemma option_ext : forall (A : Type) (a b : option A), (forall x, a = Some x <-> b = Some x) -> a = b.
Proof.
  intros A [x|] [y|] H.
  - apply H. reflexivity.
  - symmetry. apply H. reflexivity.
  - apply H. reflexivity.
  - reflexivity.
Qed.

(* the function table answers every T::n lookup identically whatever the registration order: what a lookup finds is
   described by membership in the list of blocks alone *)
Lemma dispatch_order_independent : forall ds ds' r r', Permutation ds ds' -> wf_impls ds ->
  register_all empty_registry ds = inl r -> register_all empty_registry ds' = inl r' ->
  forall t n, alookup (method_key t n) (r_funcs r') = alookup (method_key t n) (r_funcs r).
Proof.
  intros ds ds' r r' P W R R' t n.
  assert (wf_impls ds') as W' by (eapply wf_impls_perm; eauto).
  apply option_ext. intros fe. split; intros H.
  - destruct (dispatch_sound _ _ _ _ _ W' R' H) as [d [m [Hd [<- [Hm [<- ->]]]]]].
    apply (dispatch_registered ds); auto. apply (Permutation_in d (Permutation_sym P) Hd).
  - destruct (dispatch_sound _ _ _ _ _ W R H) as [d [m [Hd [<- [Hm [<- ->]]]]]].
    apply (dispatch_registered ds'); auto. apply (Permutation_in d P Hd).
Qed.

Lemma find_impl_order_independent : forall ds ds' t i, Permutation ds ds' ->
  NoDup (map (fun d => (i_iface d, i_type d)) ds) -> find_impl ds' t i = find_impl ds t i.
Proof.
  intros ds ds' t i P ND.
  assert (NoDup (map (fun d => (i_iface d, i_type d)) ds')) as ND'
    by (eapply Permutation_NoDup; [apply Permutation_map|]; eauto).
  apply option_ext. intros d. split; intros H; apply find_impl_some in H as [H1 [H2 H3]]; apply find_impl_unique; auto.
  - apply (Permutation_in d (Permutation_sym P) H1).
  - apply (Permutation_in d P H1).
Qed.
