(* C12 - lemmas on association lists (std::map) and on the key strings T::m, I_T_m, impl::I::T::n *)
From Coq Require Import List Bool Ascii String Lia.
From Cb Require Import C12.Model.
Import ListNotations.
Local Open Scope string_scope.
Local Open Scope list_scope.

Lemma alookup_aset : forall (A : Type) k k' (v : A) l,
  alookup k' (aset k v l) = if String.eqb k' k then Some v else alookup k' l.
Proof.
  induction l as [|[k0 v0] r IH]; simpl.
  - reflexivity.
  - destruct (String.eqb k k0) eqn:E; simpl.
    + apply String.eqb_eq in E; subst k0. destruct (String.eqb k' k); reflexivity.
    + destruct (String.eqb k' k0) eqn:E2.
      * apply String.eqb_eq in E2; subst k0.
        destruct (String.eqb k' k) eqn:E3; [|reflexivity].
        apply String.eqb_eq in E3; subst. rewrite String.eqb_refl in E; discriminate.
      * apply IH.
Qed.
Lemma alookup_aset_same : forall (A : Type) k (v : A) l, alookup k (aset k v l) = Some v.
Proof. intros. rewrite alookup_aset, String.eqb_refl. reflexivity. Qed.
Lemma alookup_aset_other : forall (A : Type) k k' (v : A) l, k' <> k -> alookup k' (aset k v l) = alookup k' l.
Proof. intros. rewrite alookup_aset. destruct (String.eqb k' k) eqn:E; [apply String.eqb_eq in E; contradiction|reflexivity]. Qed.

Lemma alookup_aremove_other : forall (A : Type) k k' (l : list (string * A)), k' <> k -> alookup k' (aremove k l) = alookup k' l.
Proof.
  induction l as [|[k0 v0] r IH]; simpl; intros; [reflexivity|].
  destruct (String.eqb k k0) eqn:E.
  - apply String.eqb_eq in E; subst k0.
    destruct (String.eqb k' k) eqn:E2; [apply String.eqb_eq in E2; contradiction|reflexivity].
  - simpl. destruct (String.eqb k' k0); [reflexivity|]. apply IH; assumption.
Qed.

Lemma alookup_In : forall (A : Type) k (l : list (string * A)) v, alookup k l = Some v -> In (k, v) l.
Proof.
  induction l as [|[k0 v0] r IH]; simpl; intros v H; [discriminate|].
  destruct (String.eqb k k0) eqn:E.
  - apply String.eqb_eq in E; subst. inversion H; auto.
  - right. apply IH; assumption.
Qed.
Lemma In_aset : forall (A : Type) k (v : A) l x w, In (x, w) (aset k v l) -> (x, w) = (k, v) \/ In (x, w) l.
Proof.
  induction l as [|[k0 v0] r IH]; simpl; intros x w H.
  - destruct H as [H|[]]; auto.
  - destruct (String.eqb k k0); simpl in H.
    + destruct H as [H|H]; auto.
    + destruct H as [H|H]; auto. destruct (IH _ _ H); auto.
Qed.
Lemma In_aremove : forall (A : Type) k (l : list (string * A)) x w, In (x, w) (aremove k l) -> In (x, w) l.
Proof.
  induction l as [|[k0 v0] r IH]; simpl; intros x w H; [assumption|].
  destruct (String.eqb k k0); simpl in H; [auto|]. destruct H as [H|H]; auto.
Qed.

Definition keys {A : Type} (l : list (string * A)) : list string := map fst l.
Lemma alookup_in_keys : forall (A : Type) k (l : list (string * A)), In k (keys l) <-> exists v, alookup k l = Some v.
Proof.
  induction l as [|[k0 v0] r IH]; simpl.
  - split; [tauto|intros [v H]; discriminate].
  - destruct (String.eqb k k0) eqn:E.
    + apply String.eqb_eq in E; subst. split; [eauto|auto].
    + split.
      * intros [H|H]; [subst; rewrite String.eqb_refl in E; discriminate|]. apply IH; assumption.
      * intros H. right. apply IH; assumption.
Qed.
Lemma keys_aset : forall (A : Type) k k' (v : A) l, In k' (keys (aset k v l)) <-> k = k' \/ In k' (keys l).
Proof.
  induction l as [|[k0 v0] r IH]; simpl.
  - split; intros [H|H]; auto.
  - destruct (String.eqb k k0) eqn:E; simpl.
    + apply String.eqb_eq in E; subst. split; [auto|intros [H|H]; auto].
    + split.
      * intros [H|H]; [auto|]. apply IH in H as [H|H]; auto.
      * intros [H|[H|H]]; [right; apply IH|left|right; apply IH]; auto.
Qed.
Lemma keys_aset_present : forall (A : Type) k (v : A) l, In k (keys l) -> keys (aset k v l) = keys l.
Proof.
  induction l as [|[k0 v0] r IH]; simpl; intros H; [tauto|].
  destruct (String.eqb k k0) eqn:E; simpl.
  - apply String.eqb_eq in E; subst; reflexivity.
  - f_equal. apply IH. destruct H as [H|H]; [subst; rewrite String.eqb_refl in E; discriminate|assumption].
Qed.

Lemma set_nth_nth_same : forall (A : Type) i (v : A) l, i < List.length l -> nth_error (set_nth i v l) i = Some v.
Proof. induction i; destruct l; simpl; intros; try lia; [reflexivity|apply IHi; lia]. Qed.
Lemma set_nth_nth_other : forall (A : Type) i j (v : A) l, i <> j -> nth_error (set_nth i v l) j = nth_error l j.
Proof. induction i; destruct l; destruct j; simpl; intros; try reflexivity; try lia. apply IHi; lia. Qed.
Lemma set_nth_length : forall (A : Type) i (v : A) l, List.length (set_nth i v l) = List.length l.
Proof. induction i; destruct l; simpl; intros; auto. Qed.

Definition eqmap {A : Type} (l l' : list (string * A)) : Prop := forall k, alookup k l = alookup k l'.
Lemma eqmap_refl : forall (A : Type) (l : list (string * A)), eqmap l l.
Proof. intros A l k; reflexivity. Qed.
Lemma eqmap_sym : forall (A : Type) (a b : list (string * A)), eqmap a b -> eqmap b a.
Proof. intros A a b H k. symmetry. apply H. Qed.
Lemma eqmap_trans : forall (A : Type) (a b c : list (string * A)), eqmap a b -> eqmap b c -> eqmap a c.
Proof. intros A a b c H1 H2 k. rewrite H1. apply H2. Qed.
Lemma eqmap_aset : forall (A : Type) k (v : A) l l', eqmap l l' -> eqmap (aset k v l) (aset k v l').
Proof. intros A k v l l' H k'. rewrite !alookup_aset, H. reflexivity. Qed.

(* l answers like top where top has the key, like base elsewhere *)
Definition over {A : Type} (top base l : list (string * A)) : Prop :=
  forall k, alookup k l = match alookup k top with Some z => Some z | None => alookup k base end.

(* a run of insertions: what add_statics is *)
Section Inserts.
Variables (A X : Type) (key : X -> string) (val : X -> A).
Definition inserts (xs : list X) (l : list (string * A)) : list (string * A) :=
  fold_left (fun acc x => aset (key x) (val x) acc) xs l.

(* inserting into l is inserting into the empty map and laying the result over l *)
Lemma inserts_over : forall xs top base l, over top base l -> over (inserts xs top) base (inserts xs l).
Proof.
  induction xs as [|x xs IH]; simpl; intros top base l H; [assumption|].
  apply IH. intros k. rewrite !alookup_aset. destruct (String.eqb k (key x)); [reflexivity|apply H].
Qed.
Lemma keys_inserts : forall xs l k, In k (keys (inserts xs l)) <-> In k (map key xs) \/ In k (keys l).
Proof.
  induction xs as [|x xs IH]; simpl; intros l k.
  - split; [auto|intros [[]|H]; exact H].
  - split.
    + intros H. apply IH in H as [H|H]; [auto|]. apply keys_aset in H as [H|H]; auto.
    + intros [[H|H]|H]; apply IH; [right; apply keys_aset|left|right; apply keys_aset]; auto.
Qed.
End Inserts.

(* identifiers contain no ':' *)
Definition colon : ascii := ":"%char.
Fixpoint no_colon (s : string) : bool :=
  match s with
  | EmptyString => true
  | String c r => negb (Ascii.eqb c colon) && no_colon r
  end.

Lemma append_assoc : forall a b c : string, (a +++ b) +++ c = a +++ (b +++ c).
Proof. induction a; simpl; intros; [reflexivity|rewrite IHa; reflexivity]. Qed.
Lemma no_colon_app : forall a b, no_colon (a +++ b) = no_colon a && no_colon b.
Proof. induction a; simpl; intros; [reflexivity|rewrite IHa, andb_assoc; reflexivity]. Qed.

Lemma sep_inj : forall a a' b b', no_colon a = true -> no_colon a' = true ->
  a +++ "::" +++ b = a' +++ "::" +++ b' -> a = a' /\ b = b'.
Proof.
  induction a as [|c r IH]; destruct a' as [|c' r']; simpl; intros b b' Ha Ha' H.
  - inversion H; auto.
  - inversion H; subst c'. apply andb_true_iff in Ha' as [Hc _]. rewrite Ascii.eqb_refl in Hc. discriminate.
  - inversion H; subst c. apply andb_true_iff in Ha as [Hc _]. rewrite Ascii.eqb_refl in Hc. discriminate.
  - inversion H; subst c'. apply andb_true_iff in Ha as [_ Ha]. apply andb_true_iff in Ha' as [_ Ha'].
    destruct (IH r' b b' Ha Ha' H2) as [-> ->]. auto.
Qed.

Lemma static_key_inj : forall i t n i' t' n',
  no_colon i = true -> no_colon i' = true -> no_colon t = true -> no_colon t' = true ->
  static_key i t n = static_key i' t' n' -> i = i' /\ t = t' /\ n = n'.
Proof.
  unfold static_key; intros i t n i' t' n' Hi Hi' Ht Ht' H.
  simpl in H. inversion H as [H1]; clear H.
  destruct (sep_inj _ _ _ _ Hi Hi' H1) as [-> H2].
  destruct (sep_inj _ _ _ _ Ht Ht' H2) as [-> ->]. auto.
Qed.

Lemma no_colon_iface_key : forall i t m, no_colon i = true -> no_colon t = true -> no_colon m = true ->
  no_colon (iface_key i t m) = true.
Proof. unfold iface_key; intros. rewrite !no_colon_app, H, H0, H1. reflexivity. Qed.
Lemma has_colon_method_key : forall t m, no_colon (method_key t m) = false.
Proof. unfold method_key; intros. rewrite no_colon_app. simpl. apply andb_false_r. Qed.
Lemma method_key_not_iface_key : forall t m i t' m', no_colon i = true -> no_colon t' = true -> no_colon m' = true ->
  method_key t m <> iface_key i t' m'.
Proof.
  intros t m i t' m' Hi Ht Hm E.
  pose proof (has_colon_method_key t m) as H1. rewrite E, no_colon_iface_key in H1 by assumption. discriminate.
Qed.

(* counting ':' : a key determines its parts as soon as ONE side consists of identifiers *)
Fixpoint ncolon (s : string) : nat :=
  match s with
  | EmptyString => 0
  | String c r => (if Ascii.eqb c colon then 1 else 0) + ncolon r
  end.
Lemma ncolon_app : forall a b, ncolon (a +++ b) = ncolon a + ncolon b.
Proof. induction a; simpl; intros; [reflexivity|rewrite IHa; lia]. Qed.
Lemma no_colon_ncolon : forall s, no_colon s = true <-> ncolon s = 0.
Proof.
  induction s as [|c r IH]; simpl; [tauto|].
  destruct (Ascii.eqb c colon); simpl; [split; [discriminate|lia]|exact IH].
Qed.
Lemma ncolon_sep : forall a b, ncolon (a +++ "::" +++ b) = ncolon a + S (S (ncolon b)).
Proof. intros. rewrite ncolon_app. reflexivity. Qed.
Lemma method_key_inj_r : forall t m t' m', no_colon t' = true -> no_colon m' = true ->
  method_key t m = method_key t' m' -> t = t' /\ m = m'.
Proof.
  intros t m t' m' Ht' Hm' E.
  pose proof (f_equal ncolon E) as N. unfold method_key in N. rewrite !ncolon_sep in N.
  pose proof (proj1 (no_colon_ncolon t') Ht'). pose proof (proj1 (no_colon_ncolon m') Hm').
  apply (sep_inj t t' m m'); [apply no_colon_ncolon; lia|exact Ht'|exact E].
Qed.
Lemma static_key_inj_r : forall i t n i' t' n', no_colon i' = true -> no_colon t' = true -> no_colon n' = true ->
  static_key i t n = static_key i' t' n' -> i = i' /\ t = t' /\ n = n'.
Proof.
  intros i t n i' t' n' Hi' Ht' Hn' E.
  pose proof (f_equal ncolon E) as N. unfold static_key in N. rewrite !(ncolon_app "impl::"), !ncolon_sep in N.
  apply no_colon_ncolon in Hn'. pose proof (proj1 (no_colon_ncolon i') Hi'). pose proof (proj1 (no_colon_ncolon t') Ht').
  assert (ncolon i = 0 /\ ncolon t = 0) as [Zi Zt] by lia. apply no_colon_ncolon in Zi, Zt.
  apply static_key_inj; assumption.
Qed.
