(* C12 - concrete programs: (a) the shapes on which the code used to violate the property and that the
   `fix:` commits ffeef7f / 3be9fd7 / 5e201e9 repaired - now positive examples of the laws, replayed on
   `main` through corpus/c12.json; (b) the programs on which the faithful model (hence the pinned code;
   each is replayed on `main` by harness/props/c12.py, see known_findings/C12.json) still does NOT satisfy
   a law the property demands; (c) examples showing that the hypotheses of the theorems are satisfiable. *)
From Coq Require Import List String ZArith.
From Cb Require Import C12.Model C12.Registry C12.Calls.
Import ListNotations.
Local Open Scope string_scope.
Local Open Scope list_scope.
Local Open Scope Z_scope.

(* interface C { int tick(int d); };  struct S { int v; };
   impl C for S { static int n = 0; int tick(int d) { n = n + 1; return n; } }; *)
Definition m_tick : method :=
  {| m_name := "tick"; m_void := false; m_locals := []; m_body := [SSetStatic "n" (EAdd (EStatic "n") (EConst 1))]; m_ret := EStatic "n" |}.
Definition d_CS : impl_def := {| i_iface := "C"; i_type := "S"; i_statics := [("n", 0)]; i_methods := [m_tick] |}.
Definition s1_var : name * value := ("s1", VConc "S" (PStruct [("v", 2)])).

(* former finding #34 (fixed ffeef7f):  C c = s1; c.tick(); s1.tick();  -> 1, 2 *)
Definition prog_struct_receiver : program :=
  {| p_ifaces := [("C", ["tick"])]; p_impls := [d_CS]; p_vars := [s1_var]; p_helpers := [];
     p_ops := [OBind "c" "C" "s1"; OCall (RVar "c") "tick" 0; OCall (RVar "s1") "tick" 0] |}.
Example struct_receiver_statics : run_program prog_struct_receiver = ([("", [1]); ("", [2])], None).
Proof. vm_compute. reflexivity. Qed.

(* former finding (fixed ffeef7f): typedef int P; impl C for P { static int n = 0; ... }; P x = 7; C c = x; c.tick(); *)
Definition d_CP : impl_def := {| i_iface := "C"; i_type := "P"; i_statics := [("n", 0)]; i_methods := [m_tick] |}.
Definition prog_prim_receiver : program :=
  {| p_ifaces := [("C", ["tick"])]; p_impls := [d_CP]; p_vars := [("x", VConc "P" (PPrim 7))]; p_helpers := [];
     p_ops := [OBind "c" "C" "x"; OCall (RVar "c") "tick" 0; OCall (RVar "x") "tick" 0] |}.
Example prim_receiver_statics : run_program prog_prim_receiver = ([("", [1]); ("", [2])], None).
Proof. vm_compute. reflexivity. Qed.

(* interface A { int get(int d); }; interface B { int other(int d); };
   impl A for S { static int n = 10;  get:   n = n + 1; return n; };
   impl B for S { static int n = 500; other: n = n + 1; return n; };
   A a = s1; B b = s1; a.get(); b.other(); a.other(); b.other();
   a.other() is STILL accepted (the method is found through T::m); since ffeef7f it counts in its own pair: 502 *)
Definition m_get : method := {| m_name := "get"; m_void := false; m_locals := []; m_body := [SSetStatic "n" (EAdd (EStatic "n") (EConst 1))]; m_ret := EStatic "n" |}.
Definition m_other : method := {| m_name := "other"; m_void := false; m_locals := []; m_body := [SSetStatic "n" (EAdd (EStatic "n") (EConst 1))]; m_ret := EStatic "n" |}.
Definition d_AS : impl_def := {| i_iface := "A"; i_type := "S"; i_statics := [("n", 10)]; i_methods := [m_get] |}.
Definition d_BS : impl_def := {| i_iface := "B"; i_type := "S"; i_statics := [("n", 500)]; i_methods := [m_other] |}.
Definition prog_cross_interface : program :=
  {| p_ifaces := [("A", ["get"]); ("B", ["other"])]; p_impls := [d_AS; d_BS]; p_vars := [s1_var]; p_helpers := [];
     p_ops := [OBind "a" "A" "s1"; OBind "b" "B" "s1"; OCall (RVar "a") "get" 0; OCall (RVar "b") "other" 0;
               OCall (RVar "a") "other" 0; OCall (RVar "b") "other" 0] |}.
Lemma cross_interface_witness :
  run_program prog_cross_interface = ([("", [11]); ("", [501]); ("", [502]); ("", [503])], None).
Proof. vm_compute. reflexivity. Qed.

(* former finding (fixed 3be9fd7): a nested call under another block's context, then the caller's static:
   impl A for S { static n = 10; int get .. ; int both(int d) { n = n + 1; int r = self.other(d); n = n + 1; return n; } }
   the callee counts in (B,S), the caller goes on counting in (A,S) *)
Definition m_both : method :=
  {| m_name := "both";
     m_void := false; m_locals := []; m_body := [SSetStatic "n" (EAdd (EStatic "n") (EConst 1)); SCallSelf "A.S.both>other" "other" EArg;
                SSetStatic "n" (EAdd (EStatic "n") (EConst 1))];
     m_ret := EStatic "n" |}.
Definition d_AS2 : impl_def := {| i_iface := "A"; i_type := "S"; i_statics := [("n", 10)]; i_methods := [m_get; m_both] |}.
Definition prog_nested_context : program :=
  {| p_ifaces := [("A", ["get"; "both"]); ("B", ["other"])]; p_impls := [d_AS2; d_BS]; p_vars := [s1_var]; p_helpers := [];
     p_ops := [OBind "a" "A" "s1"; OCall (RVar "a") "both" 0; OCall (RVar "s1") "both" 0; OCall (RVar "a") "get" 0] |}.
Example nested_context_restored :
  run_program prog_nested_context =
  ([("A.S.both>other", [501]); ("", [12]); ("A.S.both>other", [502]); ("", [14]); ("", [15])], None).
Proof. vm_compute. reflexivity. Qed.

(* former finding (fixed 5e201e9): typedef int P; impl C for P { int me(int d) { return self; } }; *)
Definition m_me : method := {| m_name := "me"; m_void := false; m_locals := []; m_body := []; m_ret := ESelf |}.
Definition d_CP2 : impl_def := {| i_iface := "C"; i_type := "P"; i_statics := []; i_methods := [m_me] |}.
Definition prog_return_self : program :=
  {| p_ifaces := [("C", ["me"])]; p_impls := [d_CP2]; p_vars := [("x", VConc "P" (PPrim 7))]; p_helpers := [];
     p_ops := [OBind "c" "C" "x"; OCall (RVar "c") "me" 0] |}.
Example return_self_value : run_program prog_return_self = ([("", [7])], None).
Proof. vm_compute. reflexivity. Qed.

(* STILL failing: the writes a nested  self.bump(d)  makes to self are not in the caller's self afterwards:
   impl C for S { int bump(int d) { self.v = self.v + d; return self.v; }
                  int outer(int d) { int r = self.bump(d); println(r); println(self.v); return self.v; } };
   s1.v = 2; s1.outer(5)  prints 7, then 2 (demanded 7), and s1.v stays 2 *)
Definition m_bump : method := {| m_name := "bump"; m_void := false; m_locals := []; m_body := [SSetField "v" (EAdd (EField "v") EArg)]; m_ret := EField "v" |}.
Definition m_outer : method :=
  {| m_name := "outer"; m_void := false; m_locals := []; m_body := [SCallSelf "C.S.outer>bump" "bump" EArg; SPrint "C.S.outer" [EField "v"]]; m_ret := EField "v" |}.
Definition d_CS2 : impl_def := {| i_iface := "C"; i_type := "S"; i_statics := []; i_methods := [m_bump; m_outer] |}.
Definition prog_nested_write : program :=
  {| p_ifaces := [("C", ["bump"; "outer"])]; p_impls := [d_CS2]; p_vars := [s1_var]; p_helpers := [];
     p_ops := [OCall (RVar "s1") "outer" 5; OShow "s1"] |}.
Lemma nested_write_witness :
  run_program prog_nested_write = ([("C.S.outer>bump", [7]); ("C.S.outer", [2]); ("", [2]); ("s1", [2])], None).
Proof. vm_compute. reflexivity. Qed.

(* the hypotheses used by the theorems hold for ordinary programs *)
Definition m_areaC : method := {| m_name := "area"; m_void := false; m_locals := []; m_body := [SSetField "r" (EAdd (EField "r") EArg); SPrint "Shape.Circle.area" [EField "r"]];
                                   m_ret := EMul (EField "r") (EConst 3) |}.
Definition m_areaR : method := {| m_name := "area"; m_void := false; m_locals := []; m_body := [SPrint "Shape.Rect.area" [EField "w"; EField "h"]];
                                   m_ret := EMul (EField "w") (EField "h") |}.
Definition d_SC : impl_def := {| i_iface := "Shape"; i_type := "Circle"; i_statics := [("n", 0)]; i_methods := [m_areaC] |}.
Definition d_SR : impl_def := {| i_iface := "Shape"; i_type := "Rect"; i_statics := [("n", 100)]; i_methods := [m_areaR] |}.
Example wf_example : wf_impls [d_SC; d_SR].
Proof.
  repeat constructor; simpl; try reflexivity; intros H; try (destruct H; try discriminate; auto).
Qed.
Example registers_example : exists r, register_all empty_registry [d_SC; d_SR] = inl r.
Proof. eexists. vm_compute. reflexivity. Qed.
Example dispatch_example :
  run_program {| p_ifaces := [("Shape", ["area"])]; p_impls := [d_SR; d_SC];
                 p_vars := [("c", VConc "Circle" (PStruct [("r", 2)])); ("q", VConc "Rect" (PStruct [("w", 3); ("h", 4)]))];
                 p_helpers := [];
                 p_ops := [OBind "s" "Shape" "c"; OCall (RVar "s") "area" 5; OBind "s" "Shape" "q"; OCall (RVar "s") "area" 0; OShow "c"] |}
  = ([("Shape.Circle.area", [7]); ("", [21]); ("Shape.Rect.area", [3; 4]); ("", [12]); ("c", [2])], None).
Proof. vm_compute. reflexivity. Qed.

(* nesting three deep across three pairs that all declare a static `n` (the shape of seeded/C12-1):
   struct Mail { int size; }; struct Hub { int id; };
   impl Job for Mail { static int n = 0;
     int cost(int d)    { return self.size * 2; }
     int process(int d) { int r = self.cost(0); println("Job.Mail.process>cost", r); n = n + 1; self.size = self.size + 1; return n; } };
   impl Registry for Hub { static int n = 1000;
     int submit(int d) { Mail lm; lm.size = 3; Job j = lm; n = n + 1; println(j.process(0)); println(j.process(0)); n = n + 1; return n; } };
   Hub h; h.submit(0);  -> process counts 1, 2 in (Job,Mail) although it runs under submit and after its own nested call;
   submit counts 1001, 1002 in (Registry,Hub) *)
Definition m_cost : method := {| m_name := "cost"; m_void := false; m_locals := []; m_body := []; m_ret := EMul (EField "size") (EConst 2) |}.
Definition m_process : method :=
  {| m_name := "process"; m_void := false; m_locals := [];
     m_body := [SCallSelf "Job.Mail.process>cost" "cost" (EConst 0); SSetStatic "n" (EAdd (EStatic "n") (EConst 1));
                SSetField "size" (EAdd (EField "size") (EConst 1))];
     m_ret := EStatic "n" |}.
Definition m_submit : method :=
  {| m_name := "submit"; m_void := false; m_locals := [("lm", VConc "Mail" (PStruct [("size", 3)]))];
     m_body := [SOp (OBind "j" "Job" "lm"); SSetStatic "n" (EAdd (EStatic "n") (EConst 1));
                SOp (OCall (RVar "j") "process" 0); SOp (OCall (RVar "j") "process" 0);
                SSetStatic "n" (EAdd (EStatic "n") (EConst 1))];
     m_ret := EStatic "n" |}.
Definition d_JobMail : impl_def := {| i_iface := "Job"; i_type := "Mail"; i_statics := [("n", 0)]; i_methods := [m_cost; m_process] |}.
Definition d_RegHub : impl_def := {| i_iface := "Registry"; i_type := "Hub"; i_statics := [("n", 1000)]; i_methods := [m_submit] |}.
Definition prog_three_deep : program :=
  {| p_ifaces := [("Job", ["cost"; "process"]); ("Registry", ["submit"])]; p_impls := [d_JobMail; d_RegHub];
     p_vars := [("h", VConc "Hub" (PStruct [("id", 1)]))]; p_helpers := [];
     p_ops := [OCall (RVar "h") "submit" 0; OCall (RVar "h") "submit" 0] |}.
Example three_deep_statics_stay_with_their_pair :
  run_program prog_three_deep =
  ([("Job.Mail.process>cost", [6]); ("", [1]); ("Job.Mail.process>cost", [8]); ("", [2]); ("", [1002]);
    ("Job.Mail.process>cost", [6]); ("", [3]); ("Job.Mail.process>cost", [8]); ("", [4]); ("", [1004])], None).
Proof. vm_compute. reflexivity. Qed.

(* a void method: the receiver gets its writes back (variable, pointer) and a nested  self.grow(d)  of a void
   method leaves its writes in the caller's self:
   impl C for S { void grow(int d) { self.v = self.v + d; }
                  void twice(int d) { self.grow(d); println("C.S.twice>grow", 0); self.grow(d); println(.., 0); println("C.S.twice", self.v); } }; *)
Definition m_grow : method := {| m_name := "grow"; m_void := true; m_locals := []; m_body := [SSetField "v" (EAdd (EField "v") EArg)]; m_ret := EConst 0 |}.
Definition m_twice : method :=
  {| m_name := "twice"; m_void := true; m_locals := [];
     m_body := [SCallSelf "C.S.twice>grow" "grow" EArg; SCallSelf "C.S.twice>grow" "grow" EArg; SPrint "C.S.twice" [EField "v"]];
     m_ret := EConst 0 |}.
Definition d_CS3 : impl_def := {| i_iface := "C"; i_type := "S"; i_statics := []; i_methods := [m_grow; m_twice] |}.
Definition prog_void_nested : program :=
  {| p_ifaces := [("C", ["grow"; "twice"])]; p_impls := [d_CS3]; p_vars := [s1_var]; p_helpers := [];
     p_ops := [OCall (RVar "s1") "twice" 5; OShow "s1"; OPtr "q" "s1"; OCall (RPtr "q") "grow" 1; OShow "s1"] |}.
Example void_nested_writes_visible :
  run_program prog_void_nested =
  ([("C.S.twice>grow", [0]); ("C.S.twice>grow", [0]); ("C.S.twice", [12]); ("", [0]); ("s1", [12]); ("", [0]); ("s1", [13])], None).
Proof. vm_compute. reflexivity. Qed.

(* guarded recursion inside one pair, eight frames deep, every frame counting in the pair's static before and
   after its nested call:  int down(int d) { n = n + 1; if (d > 0) { int r = self.down(d - 1); println(.., r); } n = n + 1; return n; } *)
Definition m_down : method :=
  {| m_name := "down"; m_void := false; m_locals := [];
     m_body := [SSetStatic "n" (EAdd (EStatic "n") (EConst 1));
                SGuard EArg (SCallSelf "C.S.down>down" "down" (ESub EArg (EConst 1)));
                SSetStatic "n" (EAdd (EStatic "n") (EConst 1))];
     m_ret := EStatic "n" |}.
Definition d_CS4 : impl_def := {| i_iface := "C"; i_type := "S"; i_statics := [("n", 0)]; i_methods := [m_down] |}.
Example recursion_counts_in_one_pair :
  run_program {| p_ifaces := [("C", ["down"])]; p_impls := [d_CS4]; p_vars := [s1_var]; p_helpers := []; p_ops := [OCall (RVar "s1") "down" 2] |}
  = ([("C.S.down>down", [4]); ("C.S.down>down", [5]); ("", [6])], None).
Proof. vm_compute. reflexivity. Qed.

(* the hypotheses of impl_statics_separate are satisfiable: {Hub, Mail} is closed for prog_three_deep *)
Example closed_example : forall r, register_all empty_registry (p_impls prog_three_deep) = inl r ->
  closed (r_funcs r) (fun t => t = "Hub" \/ t = "Mail").
Proof.
  intros r R. apply (closed_registered (p_impls prog_three_deep)); [|exact R|].
  - repeat constructor; simpl; try reflexivity; intros H; repeat (destruct H as [H|H]; try discriminate); auto.
  - intros d m Hd Hm _ x v I. simpl in Hd. destruct Hd as [<-|[<-|[]]]; simpl in Hm.
    + destruct Hm as [<-|[<-|[]]]; destruct I.
    + destruct Hm as [<-|[]]. destruct I as [I|[]]. injection I as <- <-. right. reflexivity.
Qed.
