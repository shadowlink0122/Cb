(* C12 - the property theorems. Statements are about the Mech model of impl registration, method
   dispatch, self copy-in / write-back, the impl-context stack and impl statics (Model.v); the lemmas are in Maps.v,
   Registry.v, Calls.v, OrderIndep.v; the programs of the `_refuted` witnesses in Witness.v.
   Calls nest to any depth: `call n hs` / `run_n n hs` run with fuel n (= maximal nesting depth), every theorem
   holds for every n; method bodies act on objects of their own through the same operations as main (SOp). *)
From Coq Require Import List Bool String ZArith Permutation.
From Cb Require Import C12.Model C12.Maps C12.Registry C12.Calls C12.OrderIndep C12.Witness.
Import ListNotations.
Local Open Scope string_scope.
Local Open Scope list_scope.

(* Dispatch on the dynamic type. For every conflict-free list of impl blocks (any number of interfaces
   and types, any sharing of method names across types), after registration a call  rc.m(arg)  whose
   receiver (variable, interface copy, parameter, pointer target) holds the interface value (i, t, p)
   runs exactly the method m of the block find_impl_for_struct returns for (t, i), with self := p, under
   that block's impl context (mk_entry d m = the method stamped with (i_iface d, i_type d)). *)
Theorem dispatch_on_dynamic_type : forall n hs ds r st rc l i t p d m arg,
  wf_impls ds -> register_all empty_registry ds = inl r -> s_funcs st = r_funcs r ->
  resolve (s_vars st) rc = Some l -> read (s_vars st) l = Some (VIface i t p) ->
  find_impl ds t i = Some d -> In m (i_methods d) ->
  call n hs st rc (m_name m) arg = invoke n hs st l (VIface i t p) t p (mk_entry d m) arg.
Proof.
  intros n hs ds r st rc l i t p d m arg W R F RS RD FI Hm.
  apply find_impl_some in FI as [Hd [_ Ht]].
  apply (call_g_dispatches _ ds r); auto. apply receiver_spec. auto.
Qed.
Print Assumptions dispatch_on_dynamic_type.

(* The same for receivers of the concrete type: value, pointer to struct, array element, struct parameter. *)
Theorem dispatch_concrete_receiver : forall n hs ds r st rc l t p d m arg,
  wf_impls ds -> register_all empty_registry ds = inl r -> s_funcs st = r_funcs r ->
  resolve (s_vars st) rc = Some l -> read (s_vars st) l = Some (VConc t p) ->
  In d ds -> i_type d = t -> In m (i_methods d) ->
  call n hs st rc (m_name m) arg = invoke n hs st l (VConc t p) t p (mk_entry d m) arg.
Proof.
  intros n hs ds r st rc l t p d m arg W R F RS RD Hd Ht Hm.
  apply (call_g_dispatches _ ds r); auto. apply receiver_spec. auto.
Qed.
Print Assumptions dispatch_concrete_receiver.

(* The table lookup behind the two theorems: T::m maps to the method m of the unique block giving T a
   method of that name, and to nothing that was not registered for T. *)
Theorem dispatch_table_exact : forall ds r, wf_impls ds -> register_all empty_registry ds = inl r ->
  (forall d m, In d ds -> In m (i_methods d) -> alookup (method_key (i_type d) (m_name m)) (r_funcs r) = Some (mk_entry d m)) /\
  (forall t n fe, alookup (method_key t n) (r_funcs r) = Some fe ->
     exists d m, In d ds /\ i_type d = t /\ In m (i_methods d) /\ m_name m = n /\ fe = mk_entry d m).
Proof. intros ds r W R. split; intros; [eapply dispatch_registered|eapply dispatch_sound]; eauto. Qed.
Print Assumptions dispatch_table_exact.

(* Permutation lemma: registration order is irrelevant. If the blocks register in one order they
   register in every order (the "Method name conflict" check is symmetric), and the resulting tables
   answer every T::n lookup, every impl-existence test and every find_impl_for_struct query alike. *)
Theorem dispatch_independent_of_registration_order : forall ds ds' r, Permutation ds ds' -> wf_impls ds ->
  NoDup (map (fun d => (i_iface d, i_type d)) ds) ->
  register_all empty_registry ds = inl r ->
  exists r', register_all empty_registry ds' = inl r' /\
    (forall t n, alookup (method_key t n) (r_funcs r') = alookup (method_key t n) (r_funcs r)) /\
    (forall i t, impl_exists ds' i t = impl_exists ds i t) /\
    (forall i t, find_impl ds' t i = find_impl ds t i).
Proof.
  intros ds ds' r P W ND R.
  destruct (registration_succeeds_any_order _ _ _ P R) as [r' R'].
  exists r'. split; [assumption|split; [|split]]; intros.
  - eapply dispatch_order_independent; eauto.
  - symmetry. apply impl_exists_perm; assumption.
  - apply find_impl_order_independent; assumption.
Qed.
Print Assumptions dispatch_independent_of_registration_order.

(* The whole-program form: for a program the parser accepts (complete impls, no duplicate pair) and whose
   blocks register, the printed lines and the way the run ends are the same for EVERY order of the
   impl blocks - function table, impl list and statics table all answer alike, and every operation of the
   machine (binding, calls through every receiver form, helper calls, writes, reads) preserves that. *)
Theorem program_output_independent_of_impl_order : forall p ds' r, Permutation (p_impls p) ds' ->
  wf_impls (p_impls p) -> parse_check (p_ifaces p) [] (p_impls p) = None ->
  register_all empty_registry (p_impls p) = inl r ->
  (forall n, run_program_n n (with_impls p ds') = run_program_n n p) /\ run_program (with_impls p ds') = run_program p.
Proof. intros p ds' r P W PC R. split; [|unfold run_program]; intros; eapply program_order_independent; eauto. Qed.
Print Assumptions program_output_independent_of_impl_order.

(* Registration succeeds exactly when no two blocks for one type share a method name. *)
Theorem registration_iff_conflict_free : forall ds,
  (exists r, register_all empty_registry ds = inl r) <-> ForallOrdPairs (fun e d => ~ conflict d e) ds.
Proof.
  intros ds. rewrite register_all_ok_iff. split; [intros [_ H]; exact H|].
  intros H. split; [apply Forall_forall; intros x _ e []|exact H].
Qed.
Print Assumptions registration_iff_conflict_free.

(* Re-binding: whatever the interface variable x held before,  x = src  makes the next call on x run
   the impl registered for src's dynamic type, on a copy of src's current state. *)
Theorem rebinding_switches_impl : forall n hs ds r st st' x i src sv t2 p d m arg,
  wf_impls ds -> register_all empty_registry ds = inl r -> s_funcs st = r_funcs r ->
  alookup src (s_vars st) = Some sv -> src_view sv = Some (t2, p) ->
  bind st x i src = Ok st' ->
  find_impl ds t2 i = Some d -> In m (i_methods d) ->
  call n hs st' (RVar x) (m_name m) arg = invoke n hs st' (LVar x) (VIface i t2 p) t2 p (mk_entry d m) arg.
Proof.
  intros n hs ds r st st' x i src sv t2 p d m arg W R F S V B FI Hm.
  apply bind_ok_inv in B as [sv' [t' [p' [S' [V' [_ ->]]]]]].
  rewrite S in S'. inversion S'; subst sv'. rewrite V in V'. inversion V'; subst t' p'.
  eapply dispatch_on_dynamic_type; eauto; simpl.
  apply alookup_aset_same.
Qed.
Print Assumptions rebinding_switches_impl.

(* self denotes the receiver: for every receiver form, what becomes self is the payload the receiver's
   cell holds at the moment of the call, and its dynamic type is the one used for the lookup. *)
Theorem self_reads_current_state : forall vs rc l v t self,
  receiver vs rc = Some (l, v, t, self) ->
  read vs l = Some v /\ payload_of v = Some self /\ dyn_type v = Some t /\
  match rc with
  | RVar x => l = LVar x
  | RPtr q => exists x, alookup q vs = Some (VPtr x) /\ l = LVar x
  | RElem a k => l = LElem a k
  end.
Proof.
  intros vs rc l v t self H. apply receiver_spec in H as [RS [RD OB]].
  split; [assumption|].
  split; [|split]; [destruct v; inversion OB; reflexivity..|].
  destruct rc; simpl in RS.
  - inversion RS; reflexivity.
  - destruct (alookup p vs) as [[| |x|]|] eqn:P; try discriminate. inversion RS. eauto.
  - inversion RS; reflexivity.
Qed.
Print Assumptions self_reads_current_state.

(* ... in particular a direct write to the receiver just before the call is what self.f reads, through
   the variable and through any pointer to it, and likewise for an array element. *)
Theorem self_sees_latest_write : forall n hs st x f z st1 t fs,
  alookup x (s_vars st) = Some (VConc t (PStruct fs)) -> step n hs st (OSet x f z) = Ok st1 ->
  receiver (s_vars st1) (RVar x) = Some (LVar x, VConc t (PStruct (aset f z fs)), t, PStruct (aset f z fs)) /\
  (forall q, alookup q (s_vars st1) = Some (VPtr x) -> receiver (s_vars st1) (RPtr q) = receiver (s_vars st1) (RVar x)) /\
  (forall fr, f_self fr = PStruct (aset f z fs) -> eval fr (EField f) = inl z).
Proof.
  intros n hs st x f z st1 t fs A H. unfold step in H. cbn [step_g] in H. rewrite A in H.
  destruct (alookup f fs) eqn:F; [|discriminate]. inversion H; subst; clear H. simpl.
  split; [|split].
  - apply receiver_conc_var. apply alookup_aset_same.
  - intros q Q. apply receiver_ptr. assumption.
  - intros fr S. simpl. rewrite S. rewrite alookup_aset_same. reflexivity.
Qed.
Print Assumptions self_sees_latest_write.

Theorem self_sees_latest_element_write : forall n hs st a k f z st1 t es fs,
  alookup a (s_vars st) = Some (VArr t es) -> nth_error es k = Some (PStruct fs) ->
  step n hs st (OSetElem a k f z) = Ok st1 ->
  receiver (s_vars st1) (RElem a k) = Some (LElem a k, VConc t (PStruct (aset f z fs)), t, PStruct (aset f z fs)).
Proof.
  intros n hs st a k f z st1 t es fs A N H. unfold step in H. cbn [step_g] in H. simpl in H. rewrite A, N in H.
  destruct (alookup f fs) eqn:F; [|discriminate]. inversion H; subst; clear H. simpl.
  eapply receiver_elem.
  - apply alookup_aset_same.
  - apply set_nth_nth_same. apply nth_error_Some. congruence.
Qed.
Print Assumptions self_sees_latest_element_write.

(* Member writes made by the method are in the receiver after the call - for every receiver form the
   receiver's cell then holds the final self - and no disjoint cell (other variables, other array
   elements, the source an interface value was copied from) changes.  (A successful call has fuel S n;
   the body ran with its own calls at fuel n.)  The scope is main's or a method body's: see
   calls_in_bodies_take_the_same_path. *)
Theorem self_writes_visible_after_call : forall n hs st rc m arg st' z, call (S n) hs st rc m arg = Ok (st', z) ->
  exists l v t self fe fr',
    receiver (s_vars st) rc = Some (l, v, t, self) /\
    alookup (method_key t m) (s_funcs st) = Some fe /\
    exec_body (run_n n hs) hs st t (frame0 fe self arg st) (m_body (fe_meth fe)) = inl fr' /\
    read (s_vars st') l = Some (with_payload v (f_self fr')) /\
    (forall l', disjoint l l' -> read (s_vars st') l' = read (s_vars st) l').
Proof.
  intros n hs st rc m arg st' z H.
  destruct (call_g_ok_inv _ _ _ _ _ _ _ H) as [l [v [t [self [fe [fr' [RC [F [B ->]]]]]]]]].
  simpl in B. apply run_method_g_inv in B as [B _].
  exists l, v, t, self, fe, fr'. split; [assumption|split; [assumption|split; [assumption|]]].
  apply receiver_spec in RC as [_ [RD _]].
  simpl. split.
  - apply read_write_same; assumption.
  - intros l' D. apply read_write_other; assumption.
Qed.
Print Assumptions self_writes_visible_after_call.

Theorem successful_call_has_fuel : forall n hs st rc m arg st' z, call n hs st rc m arg = Ok (st', z) -> exists k, n = S k.
Proof.
  intros [|k] hs st rc m arg st' z H; [|eauto]. exfalso.
  destruct (call_g_ok_inv _ _ _ _ _ _ _ H) as [l [v [t [self [fe [fr' [_ [_ [B _]]]]]]]]]. discriminate.
Qed.
Print Assumptions successful_call_has_fuel.

(* A call a method body makes on one of its own objects - variable, interface copy, pointer, array element - is
   the very same call path, run on the body's scope under the body's impl context: every dispatch / self /
   write-back theorem above therefore holds at every nesting level. *)
Theorem calls_in_bodies_take_the_same_path : forall n hs g t fr rc m arg,
  exec_stmt (run_n n hs) hs g t fr (SOp (OCall rc m arg)) =
  match call n hs (st_of g fr) rc m arg with
  | Fail o x => inr (o, x)
  | Ok (st', z) => inl {| f_self := f_self fr; f_arg := f_arg fr; f_vars := s_vars st'; f_statics := s_statics st';
                          f_ctx := s_ctx st'; f_out := s_out st' ++ [("", [z])] |}
  end.
Proof.
  intros. cbn [exec_stmt step_g]. unfold call.
  destruct (call_g (run_n n hs) (st_of g fr) rc m arg) as [[st' z]|o x]; reflexivity.
Qed.
Print Assumptions calls_in_bodies_take_the_same_path.

(* What a nested  self.m(..)  of a void method wrote to self is in the caller's self afterwards. *)
Theorem nested_void_self_call_writes_visible : forall n hs g t m z fr fr1 r fe,
  wf_ctx (f_ctx fr) ->
  alookup (method_key t m) (s_funcs g) = Some fe -> m_void (fe_meth fe) = true ->
  nested_self_g (run_n n hs) g t m z fr = inl (fr1, r) ->
  exists fr', run_n n hs fe t (f_self fr) z (st_of g fr) = inl (fr', r) /\
    f_self fr1 = f_self fr' /\ r = 0%Z /\ f_ctx fr1 = f_ctx fr /\ f_vars fr1 = f_vars fr /\ f_arg fr1 = f_arg fr.
Proof.
  intros n hs g t m z fr fr1 r fe W L V H.
  apply nested_self_g_inv in H as [fe0 [fr' [L0 [R ->]]]]. rewrite L in L0. inversion L0; subst fe0.
  exists fr'. simpl. rewrite V.
  pose proof (run_n_restores n hs fe t (f_self fr) z (st_of g fr) fr' r _ W L R) as E. simpl in E.
  repeat split; auto.
  destruct n as [|n]; [discriminate|]. simpl in R. apply run_method_g_inv in R as [_ Z]. rewrite V in Z. exact Z.
Qed.
Print Assumptions nested_void_self_call_writes_visible.

(* The impl-static namespace impl::I::T::name is injective on identifiers ... *)
Theorem impl_static_key_injective : forall i t n i' t' n',
  no_colon i = true -> no_colon i' = true -> no_colon t = true -> no_colon t' = true ->
  static_key i t n = static_key i' t' n' -> i = i' /\ t = t' /\ n = n'.
Proof. exact static_key_inj. Qed.
Print Assumptions impl_static_key_injective.

(* ... hence statics are separate, however deep calls nest: let TS be a set of types closed under "a method of
   the type declares an object of" (every object a body can call a method on has a TS type).  A call on a receiver
   whose type is in TS - including everything its body calls, to any depth, through self, its own objects, pointers,
   interface copies and helper functions - leaves the statics of every pair with a type outside TS unchanged. *)
Theorem impl_statics_separate : forall (TS : name -> Prop) n hs ds r st rc m arg st' z l v self t i' t' n',
  wf_impls ds -> register_all empty_registry ds = inl r -> s_funcs st = r_funcs r -> wf_ctx (s_ctx st) ->
  closed (s_funcs st) TS -> (forall x, TS x -> no_colon x = true) ->
  call n hs st rc m arg = Ok (st', z) -> receiver (s_vars st) rc = Some (l, v, t, self) -> TS t ->
  no_colon i' = true -> no_colon t' = true -> no_colon n' = true -> ~ TS t' ->
  alookup (static_key i' t' n') (s_statics st') = alookup (static_key i' t' n') (s_statics st).
Proof.
  intros TS n hs ds r st rc m arg st' z l v self t i' t' n' W R F WC CL _ C RC Tt Hi' Ht' Hn' NE.
  assert (env_ok TS st) as E by (split; [assumption|split; [rewrite F; apply (registered_within TS ds)|]; assumption]).
  apply (call_g_kept TS _ (run_n_keeps TS n hs) st rc m arg st' z l v t self E Tt RC C). apply types_keys_other_type; assumption.
Qed.
Print Assumptions impl_statics_separate.
(* (when the methods of type t declare objects of type t only, {t} is closed) *)
Theorem single_type_is_closed : forall fs t,
  (forall k fe, alookup k fs = Some fe -> fe_type fe = t -> vars_typed (eq t) (m_locals (fe_meth fe))) -> closed fs (eq t).
Proof. intros fs t H k fe L E. apply (H k fe L). symmetry; assumption. Qed.
Print Assumptions single_type_is_closed.

(* ... and a method whose body makes no nested call touches only the statics of the pair that declares it. *)
Theorem impl_statics_separate_between_pairs : forall n hs st rc m arg st' z l v self t fe i' t' n',
  call n hs st rc m arg = Ok (st', z) -> receiver (s_vars st) rc = Some (l, v, t, self) ->
  alookup (method_key t m) (s_funcs st) = Some fe -> has_calls (m_body (fe_meth fe)) = false ->
  no_colon (fe_iface fe) = true -> no_colon i' = true -> no_colon (fe_type fe) = true -> no_colon t' = true ->
  (i', t') <> (fe_iface fe, fe_type fe) ->
  alookup (static_key i' t' n') (s_statics st') = alookup (static_key i' t' n') (s_statics st).
Proof.
  intros n hs st rc m arg st' z l v self t fe i' t' n' C RC F HC Hi Hi' Ht Ht' NE.
  destruct (call_g_ok_inv _ _ _ _ _ _ _ C) as [l0 [v0 [t0 [self0 [fe0 [fr' [RC0 [F0 [B ->]]]]]]]]].
  rewrite RC in RC0. inversion RC0; subst l0 v0 t0 self0. rewrite F in F0. inversion F0; subst fe0.
  simpl. destruct n as [|n]; [discriminate|]. simpl in B. apply run_method_g_inv in B as [B _].
  destruct (exec_body_leaf _ _ _ _ _ _ _ HC B) as [_ FR]. rewrite FR; [reflexivity|].
  apply ctx_keys_other_pair; assumption.
Qed.
Print Assumptions impl_statics_separate_between_pairs.

(* Statics are shared by ALL calls of the pair (DESIGN.md section 7 #34, fixed by ffeef7f): every method starts
   under the context of the block that declares it - struct value, pointer, array element, parameter,
   interface value, typedef'd primitive alike, at top level or nested - so a static name reads that pair's cell ... *)
Theorem statics_reachable_through_every_receiver : forall fe self arg st n,
  eval (frame0 fe self arg st) (EStatic n) =
  match alookup (static_key (fe_iface fe) (fe_type fe) n) (s_statics st) with Some v => inl v | None => inr (EUndefVar n) end.
Proof. intros. reflexivity. Qed.
Print Assumptions statics_reachable_through_every_receiver.

(* ... and it keeps doing so for the whole body: after ANY prefix b of the body, with calls nested to any depth in
   it (fuel n arbitrary, other pairs, recursion), the impl context is still exactly the one the method entered
   with, the current pair is the declaring one and a static name still denotes that pair's cell.
   (This is what seeded/C12-1 breaks: there the context after a call nested three deep is the outermost pair's.) *)
Theorem nested_calls_keep_declaring_context : forall n hs fe t self arg st b fr1,
  exec_body (run_n n hs) hs st t (frame0 fe self arg st) b = inl fr1 ->
  f_ctx fr1 = enter_ctx (s_ctx st) (fe_iface fe, fe_type fe) /\
  c_cur (f_ctx fr1) = Some (fe_iface fe, fe_type fe) /\
  forall s, eval fr1 (EStatic s) =
    match alookup (static_key (fe_iface fe) (fe_type fe) s) (f_statics fr1) with Some v => inl v | None => inr (EUndefVar s) end.
Proof.
  intros n hs fe t self arg st b fr1 H.
  destruct (exec_body_same_ctx n hs st t b (frame0 fe self arg st) fr1 (wf_enter _ _) H) as [C _].
  simpl in C. split; [assumption|]. rewrite C. split; [reflexivity|]. intros s. simpl. rewrite C. reflexivity.
Qed.
Print Assumptions nested_calls_keep_declaring_context.

(* The mechanism (static.cpp enter_impl_context / exit_impl_context: current pair + vector of saved pairs):
   exit after enter gives back the context - current pair AND saved stack - that was there before, the entered
   pair is current in between, and so does every well-nested history of enters and exits. *)
Theorem impl_context_stack_discipline :
  (forall c p, wf_ctx c -> exit_ctx (enter_ctx c p) = c) /\
  (forall c p, wf_ctx (enter_ctx c p) /\ c_cur (enter_ctx c p) = Some p) /\
  wf_ctx ctx0 /\
  (forall w, balanced w -> forall c, wf_ctx c -> run_acts c w = c) /\
  (forall w c p, balanced w -> c_cur (run_acts (enter_ctx c p) w) = Some p).
Proof.
  split; [exact exit_enter|split; [intros; split; [apply wf_enter|reflexivity]|split; [exact wf_ctx0|split; [exact balanced_restores|]]]].
  intros w c p B. rewrite (balanced_restores w B _ (wf_enter c p)). reflexivity.
Qed.
Print Assumptions impl_context_stack_discipline.

(* The impl context the caller had is in force again after every call (fixed by 3be9fd7), at top level, after a
   nested  self.m(..)  and after any statement of a body, for calls nested to any depth. *)
Theorem impl_context_restored_after_call :
  (forall n hs st rc m arg st' z, wf_ctx (s_ctx st) -> call n hs st rc m arg = Ok (st', z) -> s_ctx st' = s_ctx st) /\
  (forall n hs g t m z fr fr1 r, wf_ctx (f_ctx fr) -> nested_self_g (run_n n hs) g t m z fr = inl (fr1, r) -> f_ctx fr1 = f_ctx fr) /\
  (forall n hs g t s fr fr', wf_ctx (f_ctx fr) -> exec_stmt (run_n n hs) hs g t fr s = inl fr' -> f_ctx fr' = f_ctx fr).
Proof.
  split; [|split].
  - intros n hs st rc m arg st' z W H. apply (call_same_frame n hs _ _ _ _ _ _ W H).
  - intros n hs g t m z fr fr1 r W H. apply nested_self_g_inv in H as [fe [fr' [L [R ->]]]]. simpl.
    apply (run_n_restores n hs fe t (f_self fr) z (st_of g fr) fr' r _ W L R).
  - intros n hs g t s fr fr' W H. apply (exec_body_same_ctx n hs g t [s] fr fr' W). simpl. rewrite H. reflexivity.
Qed.
Print Assumptions impl_context_restored_after_call.

(* `return self;` of a primitive self returns the receiver's value (fixed by 5e201e9). *)
Theorem return_self_returns_receiver : forall run hs fe t v arg st,
  m_body (fe_meth fe) = [] -> m_ret (fe_meth fe) = ESelf -> m_void (fe_meth fe) = false -> int_ok v = true ->
  exists fr', run_method_g run hs fe t (PPrim v) arg st = inl (fr', v).
Proof.
  intros run hs fe t v arg st B R V I. unfold run_method_g. rewrite B, R, V. simpl. rewrite I. eauto.
Qed.
Print Assumptions return_self_returns_receiver.

(* Statics keep a value for the whole run: after ANY history of operations every static declared in
   any registered impl block is still present ... *)
Theorem impl_static_persists : forall n ds r vs hs ops st' d nz,
  wf_impls ds -> register_all empty_registry ds = inl r ->
  run_ops n hs (init_state r vs) ops = Ok st' -> In d ds -> In nz (i_statics d) ->
  exists z, alookup (static_key (i_iface d) (i_type d) (fst nz)) (s_statics st') = Some z.
Proof.
  intros n ds r vs hs ops st' d nz _ R RO Hd Hn.
  apply alookup_in_keys. destruct (run_ops_same_frame n hs ops (init_state r vs) st' wf_ctx0 RO) as [_ [K _]]. rewrite K. simpl.
  destruct (register_all_tables _ _ _ R) as [_ ->]. apply all_statics_declared; assumption.
Qed.
Print Assumptions impl_static_persists.

(* ... the set of static cells never changes, and only calls can change a value (binding, pointer
   assignment, direct field writes and reads leave the whole table as it is). *)
Theorem impl_static_table_stable : forall n hs ops st st', wf_ctx (s_ctx st) -> run_ops n hs st ops = Ok st' ->
  keys (s_statics st') = keys (s_statics st) /\ s_ctx st' = s_ctx st.
Proof. intros n hs ops st st' W H. destruct (run_ops_same_frame n hs ops st st' W H) as [C [K _]]. auto. Qed.
Print Assumptions impl_static_table_stable.

Theorem statics_changed_only_by_calls : forall n hs st o st', step n hs st o = Ok st' ->
  match o with OCall _ _ _ | OVia _ _ _ => True | _ => s_statics st' = s_statics st end.
Proof.
  intros n hs st o st' H. destruct (is_call (SOp o)) eqn:NC; [destruct o; try discriminate NC; exact I|].
  apply (step_g_local _ _ _ _ _ NC) in H as [vs [out [-> _]]]. destruct o; reflexivity.
Qed.
Print Assumptions statics_changed_only_by_calls.

(* A value of a type with no impl for the interface is rejected where the interface is required:
   declaration / assignment ... *)
Theorem no_impl_rejected : forall ds r st x i src sv t p,
  wf_impls ds -> register_all empty_registry ds = inl r -> s_impls st = r_impls r ->
  alookup src (s_vars st) = Some sv -> src_view sv = Some (t, p) ->
  (forall d, In d ds -> ~ (i_iface d = i /\ i_type d = t)) ->
  bind st x i src = Fail (s_out st) (ENoImpl i t).
Proof.
  intros ds r st x i src sv t p _ R I S V N.
  apply (bind_no_impl st x i src sv t p S V). rewrite I. destruct (register_all_tables _ _ _ R) as [-> _].
  apply not_true_is_false. intros E. apply impl_exists_iff in E as [d [Hd E]]. exact (N d Hd E).
Qed.
Print Assumptions no_impl_rejected.

(* ... and parameter passing; the program stops there with the output printed so far. *)
Theorem no_impl_rejected_parameter : forall n ds r hs st h hh i src d0 sv t p,
  wf_impls ds -> register_all empty_registry ds = inl r -> s_impls st = r_impls r ->
  find (fun x => String.eqb (h_name x) h) hs = Some hh -> h_iface hh = Some i -> src <> h_param hh ->
  alookup src (s_vars st) = Some sv -> src_view sv = Some (t, p) ->
  (forall d, In d ds -> ~ (i_iface d = i /\ i_type d = t)) ->
  step n hs st (OVia h src d0) = Fail (s_out st) (ENoImpl i t).
Proof.
  intros n ds r hs st h hh i src d0 sv t p W R I F HI NE S V N.
  unfold step. cbn [step_g]. rewrite F, HI.
  rewrite (no_impl_rejected ds r (set_vars st (aremove (h_param hh) (s_vars st))) (h_param hh) i src sv t p); auto.
  simpl. rewrite alookup_aremove_other; assumption.
Qed.
Print Assumptions no_impl_rejected_parameter.

(* Conversely an accepted binding has an impl block for (i, dynamic type); the variable then carries
   (interface, implementing type, private copy of the payload) and nothing else changes. *)
Theorem bind_accepts_only_implementors : forall ds r st x i src st',
  wf_impls ds -> register_all empty_registry ds = inl r -> s_impls st = r_impls r ->
  bind st x i src = Ok st' ->
  exists sv t p d, alookup src (s_vars st) = Some sv /\ src_view sv = Some (t, p) /\
    In d ds /\ i_iface d = i /\ i_type d = t /\
    alookup x (s_vars st') = Some (VIface i t p) /\
    (forall y, y <> x -> alookup y (s_vars st') = alookup y (s_vars st)).
Proof.
  intros ds r st x i src st' _ R I B.
  apply bind_ok_inv in B as [sv [t [p [S [V [E ->]]]]]].
  rewrite I in E. destruct (register_all_tables _ _ _ R) as [EQ _]. rewrite EQ in E.
  apply impl_exists_iff in E as [d [Hd [Hi Ht]]].
  exists sv, t, p, d. simpl. repeat split; auto.
  - apply alookup_aset_same.
  - intros y NE. apply alookup_aset_other; assumption.
Qed.
Print Assumptions bind_accepts_only_implementors.

(* Laws the property demands that the faithful model - i.e. the pinned code - does NOT satisfy.
   Each witness is replayed on `main` on every run (known_findings/C12.json). *)

(* A method that the variable's interface does not declare is not rejected: it is found through T::m and
   runs (since ffeef7f under its own block's context: 502, 503 are the counter of (B,S)). *)
Theorem method_outside_interface_rejected_refuted :
  exists p, wf_impls (p_impls p) /\
    run_program p = ([("", [11%Z]); ("", [501%Z]); ("", [502%Z]); ("", [503%Z])], None) /\
    In (OCall (RVar "a") "other" 0%Z) (p_ops p) /\ alookup "A" (p_ifaces p) = Some ["get"].
Proof.
  exists prog_cross_interface. split; [|split; [exact cross_interface_witness|split; [simpl; auto 10|reflexivity]]].
  repeat constructor; simpl; try reflexivity; intros H; destruct H.
Qed.
Print Assumptions method_outside_interface_rejected_refuted.

(* Member writes made by a method are visible in the receiver - refuted when the receiver is `self` inside
   another method: bump adds d to self.v and returns 7, yet the caller's self.v is still 2 afterwards. *)
Theorem nested_self_call_writes_visible_refuted :
  exists p out, wf_impls (p_impls p) /\ run_program p = (out, None) /\
    In ("C.S.outer>bump", [7%Z]) out /\ In ("C.S.outer", [2%Z]) out /\
    (exists d, p_impls p = [d] /\ In m_bump (i_methods d) /\ In m_outer (i_methods d)).
Proof.
  exists prog_nested_write. eexists. split; [|split; [exact nested_write_witness|]].
  - repeat constructor; simpl; try reflexivity; intros H; repeat (destruct H as [H|H]; try discriminate); auto.
  - simpl. split; [auto|split; [auto|]]. exists d_CS2. simpl. auto.
Qed.
Print Assumptions nested_self_call_writes_visible_refuted.
