(* C12 - the whole-program form of the permutation lemma: for a program the parser and the
   registration accept, what it prints (and whether / how it stops) does not depend on the order in
   which its impl blocks are registered.  Proof: the two registries answer every query alike
   (Registry.v for the function table and the impl list; below for the statics table), and every
   operation of the machine preserves "answers alike". *)
From Coq Require Import List Bool String ZArith Permutation.
From Cb Require Import C12.Model C12.Maps C12.Registry.
Import ListNotations.
Local Open Scope string_scope.
Local Open Scope list_scope.

Definition pair_of (d : impl_def) : name * name := (i_iface d, i_type d).

Lemma own_keys : forall d k z, alookup k (add_statics d []) = Some z -> exists n, k = static_key (i_iface d) (i_type d) n.
Proof.
  intros d k z H. assert (In k (keys (add_statics d []))) as K by (apply alookup_in_keys; eauto).
  apply keys_add_statics in K as [K|[]]. apply in_map_iff in K as [nz [E _]]. eauto.
Qed.

Lemma add_statics_congr : forall d a b, eqmap a b -> eqmap (add_statics d a) (add_statics d b).
Proof. intros d a b H k. rewrite (add_statics_over d a k), (add_statics_over d b k), H. reflexivity. Qed.

(* blocks of different pairs write different cells *)
Lemma add_statics_comm : forall d e ss, wf_impl d -> wf_impl e -> pair_of d <> pair_of e ->
  eqmap (add_statics e (add_statics d ss)) (add_statics d (add_statics e ss)).
Proof.
  intros d e ss [Di [Dt _]] [Ei [Et _]] NE k.
  rewrite (add_statics_over e (add_statics d ss) k), (add_statics_over d (add_statics e ss) k),
          (add_statics_over d ss k), (add_statics_over e ss k).
  destruct (alookup k (add_statics e [])) as [ze|] eqn:A; destruct (alookup k (add_statics d [])) as [zd|] eqn:B; try reflexivity.
  exfalso. apply own_keys in A as [n1 ->]. apply own_keys in B as [n2 B].
  apply static_key_inj in B as [B1 [B2 _]]; auto. apply NE. unfold pair_of. congruence.
Qed.

Lemma all_statics_congr : forall ds a b, eqmap a b -> eqmap (all_statics ds a) (all_statics ds b).
Proof. induction ds as [|d ds IH]; simpl; intros a b H; [assumption|]. apply IH. apply add_statics_congr; assumption. Qed.

Lemma all_statics_perm : forall ds ds', Permutation ds ds' -> wf_impls ds -> NoDup (map pair_of ds) ->
  forall a b, eqmap a b -> eqmap (all_statics ds a) (all_statics ds' b).
Proof.
  intros ds ds' P. induction P; intros W ND a b H.
  - assumption.
  - simpl. inversion W; subst. inversion ND; subst. apply IHP; auto. apply add_statics_congr; assumption.
  - simpl. apply all_statics_congr.
    inversion W as [|? ? Wy W']; subst. inversion W' as [|? ? Wx _]; subst.
    inversion ND as [|? ? Ny _]; subst.
    eapply eqmap_trans; [apply add_statics_comm; auto|].
    + intros E. apply Ny. simpl. left. symmetry. exact E.
    + apply add_statics_congr. apply add_statics_congr. assumption.
  - eapply eqmap_trans; [apply (IHP1 W ND a b H)|].
    apply IHP2.
    + eapply wf_impls_perm; eauto.
    + eapply Permutation_NoDup; [apply Permutation_map; eassumption|assumption].
    + apply eqmap_refl.
Qed.

Definition complete (ifs : list (name * list name)) (d : impl_def) : Prop :=
  forall m, In m (iface_methods ifs (i_iface d)) -> In m (method_names d).

Lemma unseen_iff : forall seen d, existsb (same_pair (i_iface d) (i_type d)) seen = false <-> ~ In (pair_of d) (map pair_of seen).
Proof.
  intros seen d. fold (impl_exists seen (i_iface d) (i_type d)). rewrite <- not_true_iff_false, impl_exists_iff, in_map_iff.
  unfold pair_of. split; intros H [e K]; apply H; exists e.
  - destruct K as [E He]. inversion E. auto.
  - destruct K as [He [A B]]. split; [congruence|assumption].
Qed.

Lemma parse_check_none : forall ifs ds seen,
  parse_check ifs seen ds = None <-> (Forall (complete ifs) ds /\ NoDup (map pair_of ds) /\ forall d, In d ds -> ~ In (pair_of d) (map pair_of seen)).
Proof.
  induction ds as [|d ds IH]; simpl; intros seen.
  - split; [intros _; repeat split; [constructor|constructor|tauto]|reflexivity].
  - destruct (find _ _) as [m|] eqn:F.
    + split; [discriminate|]. intros [C _]. pose proof (Forall_inv C) as Cd.
      apply find_some in F as [Hm F]. apply negb_true_iff in F.
      assert (smem m (method_names d) = true) as T by (apply smem_In; apply Cd; assumption). congruence.
    + assert (complete ifs d) as Cd.
      { intros m Hm. pose proof (find_none _ _ F m Hm) as N. apply negb_false_iff in N. apply smem_In; assumption. }
      destruct (existsb (same_pair (i_iface d) (i_type d)) seen) eqn:E.
      * split; [discriminate|]. intros [_ [_ H]]. exfalso.
        assert (existsb (same_pair (i_iface d) (i_type d)) seen = false) as N by (apply unseen_iff; apply H; auto). congruence.
      * rewrite IH. rewrite unseen_iff in E. split.
        -- intros [C [ND H]]. split; [constructor; assumption|split].
           ++ constructor; [|assumption]. intros I. apply in_map_iff in I as [e [Ee He]].
              apply (H e He). rewrite map_app. apply in_or_app. right. simpl. left. symmetry; exact Ee.
           ++ intros x [<-|Hx]; [assumption|]. intros I. apply (H x Hx). rewrite map_app. apply in_or_app; auto.
        -- intros [C [ND H]]. inversion C; subst. inversion ND as [|? ? Nd ND']; subst.
           split; [assumption|split; [assumption|]].
           intros x Hx I. rewrite map_app in I. apply in_app_or in I as [I|[I|[]]].
           ++ apply (H x (or_intror Hx) I).
           ++ apply Nd. rewrite I. apply in_map; assumption.
Qed.

Lemma parse_check_perm : forall ifs ds ds', Permutation ds ds' ->
  parse_check ifs [] ds = None -> parse_check ifs [] ds' = None /\ NoDup (map pair_of ds).
Proof.
  intros ifs ds ds' P H. apply parse_check_none in H as [C [ND _]]. split; [|assumption].
  apply parse_check_none. split; [eapply Permutation_Forall; eauto|split].
  - eapply Permutation_NoDup; [apply Permutation_map; eassumption|assumption].
  - intros d _ [].
Qed.

Record fsim (a b : frame) : Prop := {
  fs_self : f_self a = f_self b; fs_arg : f_arg a = f_arg b; fs_vars : f_vars a = f_vars b; fs_ctx : f_ctx a = f_ctx b;
  fs_out : f_out a = f_out b; fs_st : eqmap (f_statics a) (f_statics b) }.

Lemma eval_sim : forall a b e, fsim a b -> eval a e = eval b e.
Proof.
  intros a b e [S A V C O M]. induction e; simpl; try reflexivity.
  - rewrite A. reflexivity.
  - rewrite S. reflexivity.
  - rewrite S. reflexivity.
  - unfold static_lookup. rewrite C. destruct (static_name (c_cur (f_ctx b)) n); [rewrite M|]; reflexivity.
  - rewrite IHe1, IHe2. reflexivity.
  - rewrite IHe1, IHe2. reflexivity.
  - rewrite IHe1, IHe2. reflexivity.
Qed.
Lemma eval_list_sim : forall a b es, fsim a b -> eval_list a es = eval_list b es.
Proof. intros a b es H. induction es as [|e es IH]; simpl; [reflexivity|]. rewrite (eval_sim a b e H), IH. reflexivity. Qed.

Definition osim {X Y : Type} (R : X -> X -> Prop) (x y : X + Y) : Prop :=
  match x, y with inl a, inl b => R a b | inr e, inr e' => e = e' | _, _ => False end.
Definition fsimz (x y : frame * Z) : Prop := fsim (fst x) (fst y) /\ snd x = snd y.

Definition funcs_alike (f1 f2 : list (string * fentry)) : Prop :=
  forall t n, alookup (method_key t n) f1 = alookup (method_key t n) f2.

Record ssim (a b : state) : Prop := {
  ss_funcs : funcs_alike (s_funcs a) (s_funcs b);
  ss_impls : forall i t, impl_exists (s_impls a) i t = impl_exists (s_impls b) i t;
  ss_st : eqmap (s_statics a) (s_statics b);
  ss_vars : s_vars a = s_vars b; ss_ctx : s_ctx a = s_ctx b; ss_out : s_out a = s_out b }.

Definition rsim {X : Type} (R : X -> X -> Prop) (x y : res X) : Prop :=
  match x, y with Ok a, Ok b => R a b | Fail o e, Fail o' e' => o = o' /\ e = e' | _, _ => False end.
Definition ssimz (x y : state * Z) : Prop := ssim (fst x) (fst y) /\ snd x = snd y.

(* related results stay related through the continuation of a match on them *)
Lemma rsim_bind : forall (X Y : Type) (R : X -> X -> Prop) (S : Y -> Y -> Prop) (x y : res X) (f g : X -> res Y),
  rsim R x y -> (forall a b, R a b -> rsim S (f a) (g b)) ->
  rsim S (match x with Ok a => f a | Fail o e => Fail o e end) (match y with Ok b => g b | Fail o e => Fail o e end).
Proof. intros X Y R S [a|o e] [b|o' e'] f g H K; simpl in *; try contradiction; auto. Qed.
Lemma osim_bind : forall (X Y E : Type) (R : X -> X -> Prop) (S : Y -> Y -> Prop) (x y : X + E) (f g : X -> Y + E),
  osim R x y -> (forall a b, R a b -> osim S (f a) (g b)) ->
  osim S (match x with inl a => f a | inr e => inr e end) (match y with inl b => g b | inr e => inr e end).
Proof. intros X Y E R S [a|e] [b|e'] f g H K; simpl in *; try contradiction; auto. Qed.

(* two ways of running a registered method / making a call that answer alike on states that answer alike *)
Definition runsim (r1 r2 : runner) : Prop := forall fe t self arg a b, ssim a b -> osim fsimz (r1 fe t self arg a) (r2 fe t self arg b).
Definition callsim (c1 c2 : caller) : Prop := forall a b rc m arg, ssim a b -> rsim ssimz (c1 a rc m arg) (c2 b rc m arg).

Lemma invoke_g_sim : forall r1 r2 a b l v t self fe arg, runsim r1 r2 -> ssim a b ->
  rsim ssimz (invoke_g r1 a l v t self fe arg) (invoke_g r2 b l v t self fe arg).
Proof.
  intros r1 r2 a b l v t self fe arg RS H. pose proof H as [F I S V C O]. unfold invoke_g.
  pose proof (RS fe t self arg a b H) as E.
  destruct (r1 fe t self arg a) as [[fa' za]|[oa xa]]; destruct (r2 fe t self arg b) as [[fb' zb]|[ob xb]]; simpl in E; try contradiction.
  - destruct E as [[S' A' V' C' O' M'] E2]. simpl in *. subst zb. split; [|reflexivity]. constructor; simpl; auto.
    + rewrite V, S'. reflexivity.
    + rewrite C'. reflexivity.
  - inversion E; subst. split; reflexivity.
Qed.
Lemma call_g_sim : forall r1 r2, runsim r1 r2 -> callsim (call_g r1) (call_g r2).
Proof.
  intros r1 r2 RS a b rc m arg H. pose proof H as [F I S V C O]. unfold call_g. rewrite V.
  destruct (receiver (s_vars b) rc) as [[[[l v] t] self]|]; simpl; [|auto].
  rewrite F. destruct (alookup (method_key t m) (s_funcs b)) as [fe|]; simpl; [|auto].
  apply invoke_g_sim; assumption.
Qed.

Lemma set_vars_sim : forall a b vs, ssim a b -> ssim (set_vars a vs) (set_vars b vs).
Proof. intros a b vs [F I S V C O]. constructor; simpl; auto. Qed.
Lemma emit_sim : forall a b l, ssim a b -> ssim (emit a l) (emit b l).
Proof. intros a b l [F I S V C O]. constructor; simpl; auto. rewrite O. reflexivity. Qed.

Lemma bind_sim : forall a b x i src, ssim a b -> rsim ssim (bind a x i src) (bind b x i src).
Proof.
  intros a b x i src H. pose proof H as [F I S V C O]. unfold bind. rewrite V, O.
  destruct (alookup src (s_vars b)) as [sv|]; simpl; [|auto].
  destruct (match sv with VConc t p => Some (t, p) | VIface _ t p => Some (t, p) | _ => None end) as [[t p]|]; simpl; [|auto].
  rewrite I. destruct (impl_exists (s_impls b) i t); simpl; [|auto].
  destruct (alookup x (s_vars b)) as [[| i' t' p'| |]|]; simpl; auto.
  - destruct (String.eqb i' i && Bool.eqb (payload_kind p') (payload_kind p)); simpl; auto.
    apply set_vars_sim; assumption.
  - apply set_vars_sim; assumption.
Qed.

Lemma run_calls_g_sim : forall c1 c2, callsim c1 c2 -> forall cs a b tag rc d, ssim a b ->
  rsim ssim (run_calls_g c1 a tag rc d cs) (run_calls_g c2 b tag rc d cs).
Proof.
  intros c1 c2 CS. induction cs as [|[m c] cs IH]; simpl; intros a b tag rc d H; [assumption|].
  apply (rsim_bind _ _ ssimz ssim); [apply CS; assumption|].
  intros [a1 za] [b1 zb] [E1 E2]. simpl in E1, E2. subst zb. apply IH. apply emit_sim; assumption.
Qed.

Lemma step_g_sim : forall c1 c2 hs, callsim c1 c2 -> forall a b o, ssim a b -> rsim ssim (step_g c1 hs a o) (step_g c2 hs b o).
Proof.
  intros c1 c2 hs CS a b o H. pose proof H as [F I S V C O]. destruct o; cbn [step_g].
  - apply bind_sim; assumption.
  - rewrite V, O. destruct (alookup x (s_vars b)); simpl; auto. apply set_vars_sim; assumption.
  - apply (rsim_bind _ _ ssimz ssim); [apply CS; assumption|].
    intros [a1 za] [b1 zb] [E1 E2]. simpl in E1, E2. subst zb. apply emit_sim; assumption.
  - destruct (find (fun hh => String.eqb (h_name hh) h) hs) as [hh|]; simpl; [|auto].
    apply (rsim_bind _ _ ssim ssim).
    { destruct (h_iface hh).
      - apply bind_sim. rewrite V. apply set_vars_sim; assumption.
      - rewrite V, O. destruct (alookup src (s_vars b)) as [[| | |]|]; simpl; auto. apply set_vars_sim; assumption. }
    intros a1 b1 EN. apply (rsim_bind _ _ ssim ssim); [apply run_calls_g_sim; assumption|].
    intros a2 b2 RC. simpl. rewrite (ss_vars _ _ RC). apply set_vars_sim; assumption.
  - rewrite V, O. destruct (alookup x (s_vars b)) as [[t [fs|v]| | |]|]; simpl; auto.
    + destruct (alookup f fs); simpl; auto. apply set_vars_sim; assumption.
    + apply set_vars_sim; assumption.
  - rewrite V, O. destruct (read (s_vars b) (LElem a0 i)) as [[t [fs|v]| | |]|]; simpl; auto.
    destruct (alookup f fs); simpl; auto. apply set_vars_sim; assumption.
  - rewrite V, O. destruct (alookup x (s_vars b)) as [[| | |]|]; simpl; auto; apply emit_sim; assumption.
Qed.

Lemma st_of_sim : forall ga gb a b, ssim ga gb -> fsim a b -> ssim (st_of ga a) (st_of gb b).
Proof. intros ga gb a b [F I S V C O] [S' A' V' C' O' M']. constructor; simpl; auto. Qed.

Lemma exec_stmt_sim : forall r1 r2 hs ga gb t, runsim r1 r2 -> ssim ga gb -> forall s a b, fsim a b ->
  osim fsim (exec_stmt r1 hs ga t a s) (exec_stmt r2 hs gb t b s).
Proof.
  intros r1 r2 hs ga gb t RS G. induction s as [f e|n e|tag es|tag m e|o|ge s IH]; intros a b H; pose proof H as [S A V C O M]; cbn [exec_stmt].
  - rewrite (eval_sim a b e H), O. destruct (eval b e) as [v|x]; simpl; [|reflexivity].
    rewrite S. destruct (f_self b) as [fs|]; simpl; [|reflexivity].
    destruct (alookup f fs); simpl; [|reflexivity]. destruct (int_ok v); simpl; [|reflexivity].
    constructor; simpl; auto.
  - rewrite (eval_sim a b e H), O. destruct (eval b e) as [v|x]; simpl; [|reflexivity].
    rewrite C. destruct (static_name (c_cur (f_ctx b)) n) as [k|]; simpl; [|reflexivity].
    rewrite M. destruct (alookup k (f_statics b)); simpl; [|reflexivity]. destruct (int_ok v); simpl; [|reflexivity].
    constructor; simpl; auto. apply eqmap_aset; assumption.
  - rewrite (eval_list_sim a b es H), O. destruct (eval_list b es); simpl; [|reflexivity].
    constructor; simpl; auto.
  - rewrite (eval_sim a b e H), O. destruct (eval b e) as [v|x]; simpl; [|reflexivity].
    destruct (negb (int_ok v)); simpl; [reflexivity|].
    unfold nested_self_g. rewrite (ss_funcs _ _ G).
    destruct (alookup (method_key t m) (s_funcs gb)) as [fe|]; simpl; [|rewrite O; reflexivity].
    rewrite S.
    pose proof (RS fe t (f_self b) v (st_of ga a) (st_of gb b) (st_of_sim _ _ _ _ G H)) as E.
    destruct (r1 fe t (f_self b) v (st_of ga a)) as [[a1 za]|xa]; destruct (r2 fe t (f_self b) v (st_of gb b)) as [[b1 zb]|xb];
      simpl in E; try contradiction; [|assumption].
    destruct E as [[S1 A1 V1 C1 O1 M1] E2]. simpl in *. subst zb. constructor; simpl; auto.
    + rewrite S1. reflexivity.
    + rewrite C1. reflexivity.
    + rewrite O1. reflexivity.
  - pose proof (step_g_sim _ _ hs (call_g_sim _ _ RS) (st_of ga a) (st_of gb b) o (st_of_sim _ _ _ _ G H)) as E.
    destruct (step_g (call_g r1) hs (st_of ga a) o) as [a1|oa xa]; destruct (step_g (call_g r2) hs (st_of gb b) o) as [b1|ob xb];
      simpl in E; try contradiction; simpl.
    + destruct E as [F1 I1 S1 V1 C1 O1]. constructor; simpl; auto.
    + destruct E; subst; reflexivity.
  - rewrite (eval_sim a b ge H), O. destruct (eval b ge) as [v|x]; simpl; [|reflexivity].
    destruct (0 <? v)%Z; [apply IH; assumption|simpl; assumption].
Qed.
Lemma exec_body_sim : forall r1 r2 hs ga gb t, runsim r1 r2 -> ssim ga gb -> forall body a b, fsim a b ->
  osim fsim (exec_body r1 hs ga t a body) (exec_body r2 hs gb t b body).
Proof.
  intros r1 r2 hs ga gb t RS G. induction body as [|s body IH]; simpl; intros a b H; [assumption|].
  apply (osim_bind _ _ _ fsim fsim); [apply exec_stmt_sim; assumption|exact IH].
Qed.

Lemma run_method_g_sim : forall r1 r2 hs, runsim r1 r2 -> runsim (run_method_g r1 hs) (run_method_g r2 hs).
Proof.
  intros r1 r2 hs RS fe t self arg a b H. pose proof H as [F I S V C O]. unfold run_method_g.
  apply (osim_bind _ _ _ fsim fsimz).
  - apply exec_body_sim; try assumption. constructor; simpl; auto. rewrite C. reflexivity.
  - intros fa' fb' E. destruct (m_void (fe_meth fe)); simpl.
    + split; [assumption|reflexivity].
    + rewrite (eval_sim fa' fb' _ E). destruct (eval fb' (m_ret (fe_meth fe))) as [z|x]; simpl.
      * destruct (int_ok z); simpl; [split; [assumption|reflexivity]|rewrite (fs_out _ _ E); reflexivity].
      * rewrite (fs_out _ _ E). reflexivity.
Qed.
Lemma run_n_sim : forall n hs, runsim (run_n n hs) (run_n n hs).
Proof.
  induction n as [|n IH]; intros hs.
  - intros fe t self arg a b H. simpl. rewrite (ss_out _ _ H). reflexivity.
  - simpl. apply run_method_g_sim. apply IH.
Qed.

Lemma step_sim : forall n hs a b o, ssim a b -> rsim ssim (step n hs a o) (step n hs b o).
Proof. intros n hs. apply step_g_sim. apply call_g_sim. apply run_n_sim. Qed.

Lemma run_ops_sim : forall n hs os a b, ssim a b -> rsim ssim (run_ops n hs a os) (run_ops n hs b os).
Proof.
  induction os as [|o os IH]; simpl; intros a b H; [assumption|].
  apply (rsim_bind _ _ ssim ssim); [apply step_sim; assumption|exact IH].
Qed.

Definition with_impls (p : program) (ds : list impl_def) : program :=
  {| p_ifaces := p_ifaces p; p_impls := ds; p_vars := p_vars p; p_helpers := p_helpers p; p_ops := p_ops p |}.

Theorem program_order_independent : forall p ds' r, Permutation (p_impls p) ds' -> wf_impls (p_impls p) ->
  parse_check (p_ifaces p) [] (p_impls p) = None -> register_all empty_registry (p_impls p) = inl r ->
  forall n, run_program_n n (with_impls p ds') = run_program_n n p.
Proof.
  intros p ds' r P W PC R n. unfold run_program_n, with_impls; simpl.
  destruct (parse_check_perm _ _ _ P PC) as [PC' ND]. rewrite PC, PC', R.
  destruct (registration_succeeds_any_order _ _ _ P R) as [r' R']. rewrite R'.
  assert (wf_impls ds') as W' by (eapply wf_impls_perm; eauto).
  destruct (register_all_tables _ _ _ R) as [I S]. destruct (register_all_tables _ _ _ R') as [I' S'].
  assert (ssim (init_state r' (p_vars p)) (init_state r (p_vars p))) as SS.
  { constructor; simpl; auto.
    - intros t m. eapply dispatch_order_independent; eauto.
    - intros. rewrite I, I'. symmetry. apply impl_exists_perm; assumption.
    - rewrite S, S'. apply eqmap_sym. apply (all_statics_perm _ _ P W ND). apply eqmap_refl. }
  pose proof (run_ops_sim n (p_helpers p) (p_ops p) _ _ SS) as E.
  destruct (run_ops n (p_helpers p) (init_state r' (p_vars p)) (p_ops p)) as [a|oa xa];
    destruct (run_ops n (p_helpers p) (init_state r (p_vars p)) (p_ops p)) as [b|ob xb]; simpl in E; try contradiction.
  - rewrite (ss_out _ _ E). reflexivity.
  - destruct E; subst; reflexivity.
Qed.
