(* C12 - the call path: which body runs, what self is, where its writes go, the impl-context stack, which
   statics a call (nested to any depth) can touch, and rejection of types without an impl. *)
From Coq Require Import List Bool String ZArith.
From Cb Require Import C12.Model C12.Maps C12.Registry.
Import ListNotations.
Local Open Scope string_scope.
Local Open Scope list_scope.

Lemma call_g_dispatches : forall run ds r st rc l v t self d m arg,
  wf_impls ds -> register_all empty_registry ds = inl r -> s_funcs st = r_funcs r ->
  receiver (s_vars st) rc = Some (l, v, t, self) ->
  In d ds -> i_type d = t -> In m (i_methods d) ->
  call_g run st rc (m_name m) arg = invoke_g run st l v t self (mk_entry d m) arg.
Proof.
  intros run ds r st rc l v t self d m arg W R F RC Hd Ht Hm.
  unfold call_g. rewrite RC, F. subst t. rewrite (dispatch_registered ds r d m W R Hd Hm). reflexivity.
Qed.

(* readings of a value: what becomes self, the type used for the lookup, and what `bind` takes from its source *)
Definition payload_of (v : value) : option payload :=
  match v with VConc _ p => Some p | VIface _ _ p => Some p | _ => None end.
Definition dyn_type (v : value) : option name :=
  match v with VConc t _ => Some t | VIface _ t _ => Some t | _ => None end.
Definition src_view (v : value) : option (name * payload) :=
  match v with VConc t p => Some (t, p) | VIface _ t p => Some (t, p) | _ => None end.

Lemma receiver_spec : forall vs rc l v t self,
  receiver vs rc = Some (l, v, t, self) <-> resolve vs rc = Some l /\ read vs l = Some v /\ obj_of v = Some (t, self).
Proof.
  unfold receiver; intros vs rc l v t self. split.
  - destruct (resolve vs rc) as [l0|]; [|discriminate]. destruct (read vs l0) as [v0|] eqn:RD; [|discriminate].
    destruct (obj_of v0) as [[t0 s0]|] eqn:OB; [|discriminate]. intros H. injection H as <- <- <- <-. auto.
  - intros [-> [-> ->]]. reflexivity.
Qed.

Lemma receiver_iface_var : forall vs x i t p, alookup x vs = Some (VIface i t p) ->
  receiver vs (RVar x) = Some (LVar x, VIface i t p, t, p).
Proof. intros. unfold receiver; simpl. rewrite H. reflexivity. Qed.
Lemma receiver_conc_var : forall vs x t p, alookup x vs = Some (VConc t p) ->
  receiver vs (RVar x) = Some (LVar x, VConc t p, t, p).
Proof. intros. unfold receiver; simpl. rewrite H. reflexivity. Qed.
Lemma receiver_ptr : forall vs q x, alookup q vs = Some (VPtr x) -> receiver vs (RPtr q) = receiver vs (RVar x).
Proof. intros. unfold receiver; simpl. rewrite H. reflexivity. Qed.
Lemma receiver_elem : forall vs a t es k p, alookup a vs = Some (VArr t es) -> nth_error es k = Some p ->
  receiver vs (RElem a k) = Some (LElem a k, VConc t p, t, p).
Proof. intros. unfold receiver; simpl. rewrite H, H0. reflexivity. Qed.

Definition disjoint (l l' : loc) : Prop :=
  match l, l' with
  | LVar x, LVar y => x <> y
  | LVar x, LElem a _ => x <> a
  | LElem a _, LVar x => a <> x
  | LElem a i, LElem b j => a <> b \/ i <> j
  end.

Lemma read_write_same : forall vs l v p, read vs l = Some v ->
  read (write vs l (with_payload v p)) l = Some (with_payload v p).
Proof.
  intros vs l v p R. destruct l as [x|a k]; simpl in *.
  - apply alookup_aset_same.
  - destruct (alookup a vs) as [[| | |t es]|] eqn:A; try discriminate.
    destruct (nth_error es k) as [p0|] eqn:N; [|discriminate]. inversion R; subst v. simpl.
    rewrite alookup_aset_same. rewrite set_nth_nth_same; [reflexivity|].
    apply nth_error_Some. congruence.
Qed.

Lemma read_write_other : forall vs l l' v, disjoint l l' -> read (write vs l v) l' = read vs l'.
Proof.
  intros vs l l' v D. destruct l as [x|a k]; destruct l' as [y|b j]; simpl in *.
  - apply alookup_aset_other; auto.
  - rewrite alookup_aset_other by auto. reflexivity.
  - destruct (alookup a vs) as [[| | |t es]|] eqn:A; try reflexivity.
    destruct v; try reflexivity. apply alookup_aset_other; auto.
  - destruct (alookup a vs) as [[| | |t es]|] eqn:A; try reflexivity.
    destruct v as [t' p| | |]; try reflexivity.
    destruct (String.eqb b a) eqn:E.
    + apply String.eqb_eq in E; subst b. rewrite alookup_aset_same, A.
      destruct D as [D|D]; [congruence|]. rewrite set_nth_nth_other by auto. reflexivity.
    + rewrite alookup_aset_other; [reflexivity|]. intros ->. rewrite String.eqb_refl in E. discriminate.
Qed.

(* an inactive context has nothing saved (true initially; enter makes the context active) *)
Definition wf_ctx (c : ictx) : Prop := c_cur c = None -> c_stack c = [].
Lemma wf_ctx0 : wf_ctx ctx0.
Proof. intros _. reflexivity. Qed.
Lemma wf_enter : forall c p, wf_ctx (enter_ctx c p).
Proof. intros c p H. discriminate. Qed.
Lemma enter_cur : forall c p, c_cur (enter_ctx c p) = Some p.
Proof. reflexivity. Qed.
Lemma exit_enter : forall c p, wf_ctx c -> exit_ctx (enter_ctx c p) = c.
Proof.
  intros [[q|] stk] p W; unfold enter_ctx, exit_ctx; simpl.
  - reflexivity.
  - unfold wf_ctx in W. simpl in W. rewrite (W eq_refl). reflexivity.
Qed.

(* any well-nested history of enter / exit leaves the context (current pair AND saved stack) as it was *)
Inductive cact := CEnter (p : name * name) | CExit.
Definition do_act (c : ictx) (a : cact) : ictx := match a with CEnter p => enter_ctx c p | CExit => exit_ctx c end.
Definition run_acts (c : ictx) (w : list cact) : ictx := fold_left do_act w c.
Inductive balanced : list cact -> Prop :=
| bal_nil : balanced []
| bal_call : forall p w1 w2, balanced w1 -> balanced w2 -> balanced (CEnter p :: w1 ++ CExit :: w2).
Lemma balanced_restores : forall w, balanced w -> forall c, wf_ctx c -> run_acts c w = c.
Proof.
  induction 1 as [|p w1 w2 B1 IH1 B2 IH2]; intros c W; [reflexivity|].
  unfold run_acts. simpl. rewrite fold_left_app. simpl.
  fold (run_acts (enter_ctx c p) w1). rewrite (IH1 _ (wf_enter c p)).
  rewrite (exit_enter c p W). apply IH2; assumption.
Qed.

Lemma call_g_ok_inv : forall run st rc m arg st' z, call_g run st rc m arg = Ok (st', z) ->
  exists l v t self fe fr',
    receiver (s_vars st) rc = Some (l, v, t, self) /\
    alookup (method_key t m) (s_funcs st) = Some fe /\
    run fe t self arg st = inl (fr', z) /\
    st' = {| s_impls := s_impls st; s_funcs := s_funcs st; s_statics := f_statics fr';
             s_vars := write (s_vars st) l (with_payload v (f_self fr')); s_ctx := exit_ctx (f_ctx fr'); s_out := f_out fr' |}.
Proof.
  unfold call_g, invoke_g; intros run st rc m arg st' z H.
  destruct (receiver (s_vars st) rc) as [[[[l v] t] self]|] eqn:RC; [|discriminate].
  destruct (alookup (method_key t m) (s_funcs st)) as [fe|] eqn:F; [|discriminate].
  destruct (run fe t self arg st) as [[fr' z0]|[o x]] eqn:B; [|discriminate].
  injection H as <- <-. exists l, v, t, self, fe, fr'. auto.
Qed.
Lemma run_method_g_inv : forall run hs fe t self arg st fr' z, run_method_g run hs fe t self arg st = inl (fr', z) ->
  exec_body run hs st t (frame0 fe self arg st) (m_body (fe_meth fe)) = inl fr' /\
  (if m_void (fe_meth fe) then z = 0%Z else eval fr' (m_ret (fe_meth fe)) = inl z).
Proof.
  unfold run_method_g; intros run hs fe t self arg st fr' z H.
  destruct (exec_body run hs st t _ (m_body (fe_meth fe))) as [fr1|x] eqn:B; [|discriminate].
  destruct (m_void (fe_meth fe)).
  - inversion H; subst. auto.
  - destruct (eval fr1 (m_ret (fe_meth fe))) as [z1|x] eqn:E; [|discriminate].
    destruct (int_ok z1); [|discriminate]. inversion H; subst. auto.
Qed.
Lemma nested_self_g_inv : forall run g t m z fr fr1 r, nested_self_g run g t m z fr = inl (fr1, r) ->
  exists fe fr', alookup (method_key t m) (s_funcs g) = Some fe /\
    run fe t (f_self fr) z (st_of g fr) = inl (fr', r) /\
    fr1 = {| f_self := if m_void (fe_meth fe) then f_self fr' else f_self fr; f_arg := f_arg fr; f_vars := f_vars fr;
             f_statics := f_statics fr'; f_ctx := exit_ctx (f_ctx fr'); f_out := f_out fr' |}.
Proof.
  unfold nested_self_g; intros run g t m z fr fr1 r H.
  destruct (alookup (method_key t m) (s_funcs g)) as [fe|]; [|discriminate].
  destruct (run fe t (f_self fr) z (st_of g fr)) as [[fr' z0]|] eqn:R; [|discriminate].
  inversion H; subst. eauto.
Qed.

Lemma bind_ok_inv : forall st x i src st', bind st x i src = Ok st' ->
  exists sv t p, alookup src (s_vars st) = Some sv /\ src_view sv = Some (t, p) /\
    impl_exists (s_impls st) i t = true /\
    st' = set_vars st (aset x (VIface i t p) (s_vars st)).
Proof.
  unfold bind; intros st x i src st' H.
  destruct (alookup src (s_vars st)) as [sv|] eqn:S; [|discriminate].
  fold (src_view sv) in H. destruct (src_view sv) as [[t p]|] eqn:V; [|discriminate].
  destruct (impl_exists (s_impls st) i t) eqn:E; simpl in H; [|discriminate].
  exists sv, t, p. repeat split; auto.
  destruct (alookup x (s_vars st)) as [[| i' t' p'| |]|]; try discriminate.
  - destruct (String.eqb i' i && Bool.eqb (payload_kind p') (payload_kind p)); inversion H; reflexivity.
  - inversion H; reflexivity.
Qed.
Lemma bind_no_impl : forall st x i src sv t p, alookup src (s_vars st) = Some sv -> src_view sv = Some (t, p) ->
  impl_exists (s_impls st) i t = false -> bind st x i src = Fail (s_out st) (ENoImpl i t).
Proof.
  unfold bind; intros st x i src sv t p S V E. rewrite S. fold (src_view sv). rewrite V, E. reflexivity.
Qed.

Definition typed_val (TS : name -> Prop) (v : value) : Prop :=
  match v with VConc t _ | VIface _ t _ | VArr t _ => TS t | VPtr _ => True end.
Definition vars_typed (TS : name -> Prop) (vs : list (name * value)) : Prop := forall x v, In (x, v) vs -> typed_val TS v.
(* TS is closed under "declares an object of": every method of a TS type declares objects of TS types only *)
Definition closed (fs : list (string * fentry)) (TS : name -> Prop) : Prop :=
  forall k fe, alookup k fs = Some fe -> TS (fe_type fe) -> vars_typed TS (m_locals (fe_meth fe)).

Lemma vars_typed_aset : forall TS vs x v, vars_typed TS vs -> typed_val TS v -> vars_typed TS (aset x v vs).
Proof. intros TS vs x v H T y w I. apply In_aset in I as [E|I]; [inversion E; subst; assumption|eapply H; eauto]. Qed.
Lemma vars_typed_aremove : forall TS vs x, vars_typed TS vs -> vars_typed TS (aremove x vs).
Proof. intros TS vs x H y w I. apply In_aremove in I. eapply H; eauto. Qed.
Lemma read_typed : forall TS vs l v, vars_typed TS vs -> read vs l = Some v -> typed_val TS v.
Proof.
  intros TS vs l v H R. destruct l as [x|a k]; simpl in R.
  - apply alookup_In in R. eapply H; eauto.
  - destruct (alookup a vs) as [[| | |t es]|] eqn:A; try discriminate.
    destruct (nth_error es k); [|discriminate]. inversion R; subst. simpl.
    apply alookup_In in A. apply (H _ _ A).
Qed.
Lemma receiver_typed : forall TS vs rc l v t self, vars_typed TS vs -> receiver vs rc = Some (l, v, t, self) ->
  TS t /\ typed_val TS v.
Proof.
  intros TS vs rc l v t self H R. apply receiver_spec in R as [_ [RD OB]].
  pose proof (read_typed _ _ _ _ H RD) as T. split; [|assumption].
  destruct v; inversion OB; subst; exact T.
Qed.
Lemma typed_with_payload : forall TS v p, typed_val TS v -> typed_val TS (with_payload v p).
Proof. intros TS [t q|i t q|x|t es] p H; exact H. Qed.
Lemma write_typed : forall TS vs l v, vars_typed TS vs -> typed_val TS v -> vars_typed TS (write vs l v).
Proof.
  intros TS vs l v H T. destruct l as [x|a k]; simpl.
  - apply vars_typed_aset; assumption.
  - destruct (alookup a vs) as [[| | |t es]|] eqn:A; try assumption.
    destruct v; try assumption. apply vars_typed_aset; [assumption|].
    apply alookup_In in A. exact (H _ _ A).
Qed.
Lemma bind_typed : forall TS st x i src st', vars_typed TS (s_vars st) -> bind st x i src = Ok st' ->
  exists vs, st' = set_vars st vs /\ vars_typed TS vs.
Proof.
  intros TS st x i src st' VT H. apply bind_ok_inv in H as [sv [t [p [S [V [_ ->]]]]]].
  eexists. split; [reflexivity|]. apply vars_typed_aset; [assumption|].
  apply alookup_In in S. pose proof (VT _ _ S) as T. destruct sv; inversion V; subst; exact T.
Qed.

Fixpoint is_call (s : stmt) : bool :=
  match s with
  | SCallSelf _ _ _ => true
  | SOp (OCall _ _ _) | SOp (OVia _ _ _) => true
  | SGuard _ s' => is_call s'
  | _ => false
  end.
Definition has_calls (b : list stmt) : bool := existsb is_call b.

Lemma step_g_local : forall call hs st o st', is_call (SOp o) = false -> step_g call hs st o = Ok st' ->
  exists vs out, st' = set_out (set_vars st vs) out /\ forall TS, vars_typed TS (s_vars st) -> vars_typed TS vs.
Proof.
  intros call hs st o st' NC H. destruct o; try discriminate NC; cbn [step_g] in H.
  - exists (s_vars st'), (s_out st). split.
    + apply bind_ok_inv in H as [sv [t [p [_ [_ [_ ->]]]]]]. reflexivity.
    + intros TS VT. destruct (bind_typed _ _ _ _ _ _ VT H) as [vs [-> V]]. exact V.
  - destruct (alookup x (s_vars st)); inversion H; subst. do 2 eexists. split; [reflexivity|].
    intros TS VT. apply vars_typed_aset; [assumption|exact I].
  - destruct (alookup x (s_vars st)) as [[t [fs|v]| | |]|] eqn:A; try discriminate.
    + destruct (alookup f fs); inversion H; subst. do 2 eexists. split; [reflexivity|].
      intros TS VT. apply vars_typed_aset; [assumption|]. apply alookup_In in A. exact (VT _ _ A).
    + inversion H; subst. do 2 eexists. split; [reflexivity|].
      intros TS VT. apply vars_typed_aset; [assumption|]. apply alookup_In in A. exact (VT _ _ A).
  - destruct (read (s_vars st) (LElem a i)) as [[t [fs|v]| | |]|] eqn:A; try discriminate.
    destruct (alookup f fs); inversion H; subst.
    exists (write (s_vars st) (LElem a i) (VConc t (PStruct (aset f z fs)))), (s_out st). split; [reflexivity|].
    intros TS VT. apply write_typed; [assumption|]. exact (read_typed _ _ _ _ VT A).
  - destruct (alookup x (s_vars st)) as [[| | |]|]; inversion H; subst; exists (s_vars st); eexists; (split; [reflexivity|auto]).
Qed.

(* what a call - nested to any depth - preserves: the impl context, the set of static cells, the tables *)
Definition same_frame (st st' : state) : Prop :=
  s_ctx st' = s_ctx st /\ keys (s_statics st') = keys (s_statics st) /\ s_funcs st' = s_funcs st /\ s_impls st' = s_impls st.
Lemma same_frame_refl : forall st, same_frame st st.
Proof. intros; repeat split. Qed.
Lemma same_frame_trans : forall a b c, same_frame a b -> same_frame b c -> same_frame a c.
Proof. intros a b c [A1 [A2 [A3 A4]]] [B1 [B2 [B3 B4]]]. repeat split; congruence. Qed.

Definition ctx_keys (c : option (name * name)) (k : string) : Prop := exists n, static_name c n = Some k.

(* Relative to a set TS of types, the invariant of the fuel induction says of a method of a TS type, run on a
   receiver of a TS type from a state whose tables keep calls within TS: the impl context is restored, the set of
   static cells is the same, and the cells of pairs with a type outside TS hold what they held.  The objects
   of every scope on the way have TS types (vars_typed).  With every type in TS the side conditions are void and
   what is left is what every call preserves. *)
Section TypeSet.
Variable TS : name -> Prop.

Definition types_keys (k : string) : Prop := exists i t n, TS t /\ k = static_key i t n.
Definition funcs_within (fs : list (string * fentry)) : Prop :=
  forall t n fe, TS t -> alookup (method_key t n) fs = Some fe -> TS (fe_type fe).
Definition env_ok (st : state) : Prop := wf_ctx (s_ctx st) /\ funcs_within (s_funcs st) /\ closed (s_funcs st) TS.
Definition kept (st st' : state) : Prop :=
  same_frame st st' /\ forall k, ~ types_keys k -> alookup k (s_statics st') = alookup k (s_statics st).

Lemma kept_refl : forall st, kept st st.
Proof. intros. split; [apply same_frame_refl|reflexivity]. Qed.
(* kept does not look at the variables or the output *)
Lemma kept_local : forall st vs out, kept st (set_out (set_vars st vs) out).
Proof. intros. exact (kept_refl st). Qed.
Lemma kept_trans : forall a b c, kept a b -> kept b c -> kept a c.
Proof.
  intros a b c [A O1] [B O2]. split; [eapply same_frame_trans; eassumption|].
  intros k NK. rewrite (O2 k NK). apply O1; assumption.
Qed.
Lemma env_ok_kept : forall st st', kept st st' -> env_ok st -> env_ok st'.
Proof. intros st st' [[C [_ [F _]]] _] E. unfold env_ok. rewrite C, F. exact E. Qed.
Lemma ctx_keys_types : forall i t k, TS t -> ctx_keys (Some (i, t)) k -> types_keys k.
Proof. intros i t k T [n E]. simpl in E. inversion E. exists i, t, n. auto. Qed.

Definition run_inv (run : runner) : Prop := forall fe t self arg st fr' z,
  env_ok st -> TS t -> (exists k, alookup k (s_funcs st) = Some fe) -> TS (fe_type fe) ->
  run fe t self arg st = inl (fr', z) ->
  exit_ctx (f_ctx fr') = s_ctx st /\ keys (f_statics fr') = keys (s_statics st) /\
  forall k, ~ types_keys k -> alookup k (f_statics fr') = alookup k (s_statics st).
(* a scope whose objects have TS types: what one call does to it *)
Definition call_inv (call : caller) : Prop := forall st r m arg st' z,
  env_ok st -> vars_typed TS (s_vars st) -> call st r m arg = Ok (st', z) -> kept st st' /\ vars_typed TS (s_vars st').

(* the callee sees none of the caller's variables: of the calling scope only the receiver's type matters *)
Lemma call_g_kept : forall run, run_inv run -> forall st rc m arg st' z l v t self, env_ok st -> TS t ->
  receiver (s_vars st) rc = Some (l, v, t, self) -> call_g run st rc m arg = Ok (st', z) -> kept st st'.
Proof.
  intros run RI st rc m arg st' z l v t self E Tt RC H. pose proof E as [_ [FW _]].
  destruct (call_g_ok_inv _ _ _ _ _ _ _ H) as [l0 [v0 [t0 [self0 [fe [fr' [RC0 [L [B ->]]]]]]]]].
  rewrite RC in RC0. injection RC0 as <- <- <- <-.
  destruct (RI _ _ _ _ _ _ _ E Tt (ex_intro _ _ L) (FW _ _ _ Tt L) B) as [X [K O]].
  split; [repeat split; assumption|exact O].
Qed.
Lemma call_g_keeps : forall run, run_inv run -> call_inv (call_g run).
Proof.
  intros run RI st r m arg st' z E VT H.
  destruct (call_g_ok_inv _ _ _ _ _ _ _ H) as [l [v [t [self [fe [fr' [RC [_ [_ EQ]]]]]]]]].
  destruct (receiver_typed _ _ _ _ _ _ _ VT RC) as [Tt Tv].
  split; [exact (call_g_kept run RI _ _ _ _ _ _ _ _ _ _ E Tt RC H)|].
  subst st'. apply write_typed; [assumption|apply typed_with_payload; assumption].
Qed.

Lemma run_calls_g_keeps : forall call, call_inv call -> forall cs st tag rc d st',
  env_ok st -> vars_typed TS (s_vars st) -> run_calls_g call st tag rc d cs = Ok st' ->
  kept st st' /\ vars_typed TS (s_vars st').
Proof.
  intros call CI. induction cs as [|[m c] cs IH]; simpl; intros st tag rc d st' E VT H.
  - inversion H; subst. split; [apply kept_refl|assumption].
  - destruct (call st rc m (d + c)%Z) as [[st1 z]|] eqn:C; [|discriminate].
    destruct (CI _ _ _ _ _ _ E VT C) as [K1 V1].
    destruct (IH (emit st1 (tag, [z])) _ _ _ _ (env_ok_kept _ _ K1 E) V1 H) as [K2 V2].
    split; [exact (kept_trans _ _ _ K1 K2)|assumption].
Qed.

Lemma step_g_keeps : forall call hs, call_inv call -> forall st o st',
  env_ok st -> vars_typed TS (s_vars st) -> step_g call hs st o = Ok st' -> kept st st' /\ vars_typed TS (s_vars st').
Proof.
  intros call hs CI st o st' E VT H. destruct (is_call (SOp o)) eqn:NC.
  - destruct o; try discriminate NC; cbn [step_g] in H.
    + destruct (call st r m arg) as [[st1 z]|] eqn:C; [|discriminate]. inversion H; subst.
      exact (CI _ _ _ _ _ _ E VT C).
    + (* h(src, d): the parameter is bound, the calls run, the parameter goes out of scope *)
      destruct (find _ hs) as [hh|]; [|discriminate].
      match type of H with match ?X with _ => _ end = _ => destruct X as [st1|] eqn:EN; [|discriminate] end.
      destruct (run_calls_g call st1 h (RVar (h_param hh)) d (h_calls hh)) as [st2|] eqn:RCs; [|discriminate].
      inversion H; subst.
      assert (exists vs, st1 = set_vars st vs /\ vars_typed TS vs) as [vs [-> V1]].
      { destruct (h_iface hh).
        - apply (bind_typed TS) in EN as [vs [-> V]]; [|apply vars_typed_aremove; assumption].
          exists vs. split; [reflexivity|exact V].
        - destruct (alookup src (s_vars st)) as [[t pl| | |]|] eqn:A; inversion EN; subst.
          eexists. split; [reflexivity|]. apply vars_typed_aset; [assumption|]. apply alookup_In in A. exact (VT _ _ A). }
      destruct (run_calls_g_keeps _ CI _ (set_vars st vs) _ _ _ _ E V1 RCs) as [K2 V2].
      split; [exact K2|]. apply vars_typed_aremove; assumption.
  - apply (step_g_local _ _ _ _ _ NC) in H as [vs [out [-> T]]].
    split; [apply kept_local|apply T; assumption].
Qed.

(* a body frame, seen as the scope st_of g fr; the cells its context names are cells of TS *)
Lemma exec_stmt_keeps : forall run hs g t, run_inv run -> TS t -> forall s fr fr',
  env_ok (st_of g fr) -> (forall k, ctx_keys (c_cur (f_ctx fr)) k -> types_keys k) -> vars_typed TS (f_vars fr) ->
  exec_stmt run hs g t fr s = inl fr' ->
  kept (st_of g fr) (st_of g fr') /\ vars_typed TS (f_vars fr').
Proof.
  intros run hs g t RI Tt. induction s as [f e|n e|tag es|tag m e|o|ge s IH]; intros fr fr' E HP VT H; cbn [exec_stmt] in H.
  - destruct (eval fr e); [|discriminate]. destruct (f_self fr); [|discriminate].
    destruct (alookup f fs); [|discriminate]. destruct (int_ok z); [|discriminate].
    inversion H; subst. split; [exact (kept_refl (st_of g fr))|assumption].
  - destruct (eval fr e); [|discriminate].
    destruct (static_name (c_cur (f_ctx fr)) n) as [k|] eqn:SN; [|discriminate].
    destruct (alookup k (f_statics fr)) eqn:A; [|discriminate]. destruct (int_ok z); [|discriminate].
    inversion H; subst. split; [|assumption]. split; [repeat split|]; simpl.
    + apply keys_aset_present. apply alookup_in_keys. eauto.
    + intros k' NK. apply alookup_aset_other. intros ->. apply NK, HP. exists n. assumption.
  - destruct (eval_list fr es); [|discriminate]. inversion H; subst. split; [exact (kept_refl (st_of g fr))|assumption].
  - destruct (eval fr e); [|discriminate]. destruct (negb (int_ok z)); [discriminate|].
    destruct (nested_self_g run g t m z fr) as [[fr1 r]|] eqn:C; [|discriminate].
    inversion H; subst. apply nested_self_g_inv in C as [fe [fr2 [L [R ->]]]].
    pose proof E as [_ [FW _]].
    destruct (RI fe t (f_self fr) z (st_of g fr) fr2 r E Tt (ex_intro _ _ L) (FW _ _ _ Tt L) R) as [X [K O]].
    split; [|assumption]. split; [repeat split; assumption|exact O].
  - destruct (step_g (call_g run) hs (st_of g fr) o) as [st'|] eqn:S; [|discriminate].
    inversion H; subst.
    destruct (step_g_keeps _ hs (call_g_keeps _ RI) _ _ _ E VT S) as [[[C [K _]] O] V].
    split; [|exact V]. split; [repeat split; assumption|exact O].
  - destruct (eval fr ge); [|discriminate]. destruct (0 <? z)%Z; [apply IH; assumption|].
    inversion H; subst. split; [apply kept_refl|assumption].
Qed.
Lemma exec_body_keeps : forall run hs g t, run_inv run -> TS t -> forall b fr fr',
  env_ok (st_of g fr) -> (forall k, ctx_keys (c_cur (f_ctx fr)) k -> types_keys k) -> vars_typed TS (f_vars fr) ->
  exec_body run hs g t fr b = inl fr' ->
  kept (st_of g fr) (st_of g fr') /\ vars_typed TS (f_vars fr').
Proof.
  intros run hs g t RI Tt. induction b as [|s b IH]; simpl; intros fr fr' E HP VT H.
  - inversion H; subst. split; [apply kept_refl|assumption].
  - destruct (exec_stmt run hs g t fr s) as [fr1|] eqn:S; [|discriminate].
    destruct (exec_stmt_keeps _ _ _ _ RI Tt _ _ _ E HP VT S) as [K1 V1].
    assert (f_ctx fr1 = f_ctx fr) as C1 by apply K1.
    destruct (IH fr1 fr' (env_ok_kept _ _ K1 E)) as [K2 V2]; [rewrite C1; exact HP|exact V1|exact H|].
    split; [exact (kept_trans _ _ _ K1 K2)|assumption].
Qed.

Lemma run_method_g_keeps : forall run hs, run_inv run -> run_inv (run_method_g run hs).
Proof.
  intros run hs RI fe t self arg st fr' z E Tt [k0 L] Tf H. pose proof E as [W [FW CL]].
  apply run_method_g_inv in H as [B _].
  assert (kept (st_of st (frame0 fe self arg st)) (st_of st fr') /\ vars_typed TS (f_vars fr')) as [[[C [K _]] O] _].
  { apply (exec_body_keeps run hs st t RI Tt (m_body (fe_meth fe))); [| | |exact B].
    - split; [apply wf_enter|split; assumption].
    - intros k1 CK. exact (ctx_keys_types _ _ _ Tf CK).
    - exact (CL _ _ L Tf). }
  simpl in C, K, O. rewrite C. split; [apply exit_enter; assumption|split; assumption].
Qed.
Lemma run_n_keeps : forall n hs, run_inv (run_n n hs).
Proof.
  induction n as [|n IH]; intros hs; simpl.
  - intros fe t self arg st fr' z _ _ _ _ H. discriminate.
  - apply run_method_g_keeps, IH.
Qed.
End TypeSet.

Definition any_type (t : name) : Prop := True.
Lemma vars_typed_any : forall vs, vars_typed any_type vs.
Proof. intros vs x [t p|i t p|y|t es] _; exact I. Qed.
Lemma env_ok_any : forall st, wf_ctx (s_ctx st) -> env_ok any_type st.
Proof.
  intros st W. split; [assumption|split].
  - intros t n fe _ _. exact I.
  - intros k fe _ _. apply vars_typed_any.
Qed.

Lemma run_n_restores : forall n hs fe t self arg st fr' z k,
  wf_ctx (s_ctx st) -> alookup k (s_funcs st) = Some fe -> run_n n hs fe t self arg st = inl (fr', z) ->
  exit_ctx (f_ctx fr') = s_ctx st.
Proof. intros n hs fe t self arg st fr' z k W L R. apply (run_n_keeps any_type n hs fe t self arg st fr' z (env_ok_any _ W) I (ex_intro _ k L) I R). Qed.
Lemma call_same_frame : forall n hs st rc m arg st' z,
  wf_ctx (s_ctx st) -> call n hs st rc m arg = Ok (st', z) -> same_frame st st'.
Proof.
  intros n hs st rc m arg st' z W H.
  apply (call_g_keeps any_type _ (run_n_keeps any_type n hs) st rc m arg st' z (env_ok_any _ W) (vars_typed_any _) H).
Qed.
Lemma step_same_frame : forall n hs st o st', wf_ctx (s_ctx st) -> step n hs st o = Ok st' -> same_frame st st'.
Proof.
  intros n hs st o st' W H.
  apply (step_g_keeps any_type _ hs (call_g_keeps _ _ (run_n_keeps any_type n hs)) st o st' (env_ok_any _ W) (vars_typed_any _) H).
Qed.
Lemma exec_body_same_ctx : forall n hs g t b fr fr', wf_ctx (f_ctx fr) -> exec_body (run_n n hs) hs g t fr b = inl fr' ->
  f_ctx fr' = f_ctx fr /\ keys (f_statics fr') = keys (f_statics fr).
Proof.
  intros n hs g t b fr fr' W H.
  destruct (exec_body_keeps any_type _ hs g t (run_n_keeps any_type n hs) I b fr fr') as [[[C [K _]] _] _]; auto.
  - exact (env_ok_any (st_of g fr) W).
  - intros k CK. destruct (c_cur (f_ctx fr)) as [[i0 t0]|]; [exact (ctx_keys_types any_type i0 t0 k I CK)|destruct CK; discriminate].
  - apply vars_typed_any.
Qed.
Lemma run_ops_same_frame : forall n hs os st st', wf_ctx (s_ctx st) -> run_ops n hs st os = Ok st' -> same_frame st st'.
Proof.
  induction os as [|o os IH]; simpl; intros st st' W H.
  - inversion H; subst. apply same_frame_refl.
  - destruct (step n hs st o) as [st1|] eqn:S; [|discriminate].
    pose proof (step_same_frame _ _ _ _ _ W S) as K1.
    apply (same_frame_trans _ _ _ K1). apply IH; [|assumption]. destruct K1 as [-> _]. assumption.
Qed.

(* a body without calls touches only the statics of the pair that declares it: no typing is needed for that *)
Lemma exec_stmt_leaf : forall run hs g t s fr fr', is_call s = false -> exec_stmt run hs g t fr s = inl fr' ->
  f_ctx fr' = f_ctx fr /\ forall k, ~ ctx_keys (c_cur (f_ctx fr)) k -> alookup k (f_statics fr') = alookup k (f_statics fr).
Proof.
  intros run hs g t. induction s as [f e|n e|tag es|tag m e|o|ge s IH]; intros fr fr' NC H; cbn [exec_stmt] in H.
  - destruct (eval fr e); [|discriminate]. destruct (f_self fr); [|discriminate].
    destruct (alookup f fs); [|discriminate]. destruct (int_ok z); [|discriminate].
    inversion H; subst; simpl. auto.
  - destruct (eval fr e); [|discriminate].
    destruct (static_name (c_cur (f_ctx fr)) n) as [k|] eqn:SN; [|discriminate].
    destruct (alookup k (f_statics fr)) eqn:A; [|discriminate]. destruct (int_ok z); [|discriminate].
    inversion H; subst; simpl. split; [reflexivity|].
    intros k' NK. apply alookup_aset_other. intros ->. apply NK. exists n. assumption.
  - destruct (eval_list fr es); [|discriminate]. inversion H; subst; simpl. auto.
  - discriminate.
  - destruct (step_g (call_g run) hs (st_of g fr) o) as [st'|] eqn:S; [|discriminate].
    inversion H; subst; simpl. apply (step_g_local _ _ _ _ _ NC) in S as [vs [out [-> _]]]. simpl. auto.
  - destruct (eval fr ge); [|discriminate]. destruct (0 <? z)%Z.
    + apply IH; assumption.
    + inversion H; subst. auto.
Qed.
Lemma exec_body_leaf : forall run hs g t b fr fr', has_calls b = false -> exec_body run hs g t fr b = inl fr' ->
  f_ctx fr' = f_ctx fr /\ forall k, ~ ctx_keys (c_cur (f_ctx fr)) k -> alookup k (f_statics fr') = alookup k (f_statics fr).
Proof.
  intros run hs g t. induction b as [|s b IH]; simpl; intros fr fr' NC H.
  - inversion H; subst. auto.
  - destruct (exec_stmt run hs g t fr s) as [fr1|] eqn:S; [|discriminate].
    unfold has_calls in NC. simpl in NC. apply orb_false_iff in NC as [N1 N2].
    destruct (exec_stmt_leaf _ _ _ _ _ _ _ N1 S) as [C1 S1].
    destruct (IH _ _ N2 H) as [C2 S2]. split; [congruence|].
    intros k NK. rewrite S2 by (rewrite C1; assumption). apply S1; assumption.
Qed.

Lemma ctx_keys_other_pair : forall i t i' t' n', no_colon i = true -> no_colon i' = true ->
  no_colon t = true -> no_colon t' = true -> (i', t') <> (i, t) -> ~ ctx_keys (Some (i, t)) (static_key i' t' n').
Proof.
  intros i t i' t' n' Hi Hi' Ht Ht' NE [n H]. unfold static_name in H.
  assert (static_key i t n = static_key i' t' n') as E by congruence.
  apply static_key_inj in E as [-> [-> _]]; auto.
Qed.
Lemma types_keys_other_type : forall (TS : name -> Prop) i' t' n', no_colon i' = true -> no_colon t' = true -> no_colon n' = true ->
  ~ TS t' -> ~ types_keys TS (static_key i' t' n').
Proof.
  intros TS i' t' n' Hi' Ht' Hn' NE [i [t [n [Tt E]]]].
  symmetry in E. apply static_key_inj_r in E as [_ [-> _]]; auto.
Qed.

(* a registered table stores under T::m methods of blocks for T *)
Lemma registered_within : forall TS ds r, wf_impls ds -> register_all empty_registry ds = inl r -> funcs_within TS (r_funcs r).
Proof.
  intros TS ds r W R t n fe Tt L. destruct (dispatch_sound _ _ _ _ _ W R L) as [d [m [_ [Ht [_ [_ ->]]]]]].
  simpl. rewrite Ht. exact Tt.
Qed.
(* closedness can be read off the impl blocks *)
Lemma closed_registered : forall ds r (TS : name -> Prop), wf_impls ds -> register_all empty_registry ds = inl r ->
  (forall d m, In d ds -> In m (i_methods d) -> TS (i_type d) -> vars_typed TS (m_locals m)) -> closed (r_funcs r) TS.
Proof.
  intros ds r TS W R H k fe L T. destruct (registered _ _ W R) as [_ [SD [I _]]].
  destruct (SD _ _ L) as [d [m [Hd [Hm [-> _]]]]]. rewrite I in Hd. exact (H d m Hd Hm T).
Qed.
