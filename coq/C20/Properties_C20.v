(* C20 - property theorems only. `ffi_chain` / `ffi_arity_check` are the definitions regenerated on every
   run from the CURRENT text of FFIManager::callFunction (Gen_FfiTable.v); each theorem about them is
   the generic lemma of Lemmas.v / Sites.v applied to the corresponding decidable check, evaluated on
   the generated table (ffi_*_ok below) - a change of the table re-opens the obligation itself.
   Statements quantify over every native function, every signature (any arity, any TypeInfo), every
   argument list, every state of the FFI manager, every set of libraries on disk and every history.
   (State of the code: after the fix commits 0c197b6 1309e2f 7ec0e3a ccde50e 000c633.) *)
From Coq Require Import ZArith List.
From Cb Require Import C20.Model C20.Lemmas C20.IntDouble C20.Sites C20.Gen_FfiTable.
Import ListNotations.
Local Open Scope Z_scope.

Lemma ffi_casts_ok : casts_ok ffi_chain = true.
Proof. reflexivity. Qed.
Lemma ffi_feeds_ok : feeds_ok ffi_chain = true.
Proof. reflexivity. Qed.
Lemma ffi_stores_ok : stores_ok ffi_chain = true.
Proof. reflexivity. Qed.
Lemma ffi_tails_ok : tails_ok ffi_chain = true.
Proof. reflexivity. Qed.

(* Every row, for EVERY declared signature that selects it (whatever its return type), casts the
   void* to exactly the C type of that declared signature. *)
Theorem dispatch_cast_matches_signature :
  forall g r ret ps, In g ffi_chain -> In r (g_rows g) -> In ret (g_rets g) ->
  pat_match (r_pat r) ps = true -> r_cast r = mk_csig ret ps.
Proof. exact (casts_ok_sound ffi_chain ffi_casts_ok). Qed.
Print Assumptions dispatch_cast_matches_signature.

(* Semantic form: whatever the registered signature (any arity, any types - float returns, pointer
   parameters included) and the arguments, a native call made by callFunction goes through a pointer
   of exactly that type. *)
Theorem never_calls_through_wrong_type :
  forall native sig args c,
  o_call (dispatch native ffi_chain sig args) = Some c -> k_cast c = sig.
Proof. exact (fun native => dispatch_cast_sound native ffi_chain ffi_casts_ok). Qed.
Print Assumptions never_calls_through_wrong_type.

(* The native function receives, position by position and in declaration order, the C conversion of
   the k-th Cb argument to the k-th declared parameter type. *)
Theorem args_in_declaration_order :
  forall native sig args c, length args = length (cs_params sig) ->
  o_call (dispatch native ffi_chain sig args) = Some c ->
  k_args c = spec_args (cs_params sig) args /\
  forall k t a, nth_error (cs_params sig) k = Some t -> nth_error args k = Some a ->
                nth_error (k_args c) k = Some (conv t a).
Proof.
  intros native sig args c L Hc.
  pose proof (dispatch_args_sound native ffi_chain ffi_casts_ok ffi_feeds_ok sig args c L Hc) as H.
  split; [exact H|]. intros k t a Hp Ha. rewrite H. exact (spec_args_nth _ _ _ _ _ Hp Ha).
Qed.
Print Assumptions args_in_declaration_order.

(* int parameters: a value inside the 32-bit range arrives unchanged ... *)
Theorem int_exact_in_range :
  forall native sig args c k a, length args = length (cs_params sig) ->
  o_call (dispatch native ffi_chain sig args) = Some c ->
  nth_error (cs_params sig) k = Some TInt -> nth_error args k = Some a -> in_i32 (v_value a) ->
  nth_error (k_args c) k = Some (CInt (v_value a)).
Proof.
  intros native sig args c k a L Hc Hp Ha Hr.
  destruct (args_in_declaration_order native sig args c L Hc) as [_ H].
  rewrite (H k TInt a Hp Ha). unfold conv. simpl. now rewrite wrap32_id.
Qed.
Print Assumptions int_exact_in_range.

(* ... and any other 64-bit value is narrowed explicitly: the callee sees the value reduced modulo
   2^32 into the int range, never anything else. *)
Theorem int_narrowing_explicit :
  forall native sig args c k a, length args = length (cs_params sig) ->
  o_call (dispatch native ffi_chain sig args) = Some c ->
  nth_error (cs_params sig) k = Some TInt -> nth_error args k = Some a ->
  exists z, nth_error (k_args c) k = Some (CInt z) /\ in_i32 z /\ (z - v_value a) mod 2 ^ 32 = 0.
Proof.
  intros native sig args c k a L Hc Hp Ha.
  destruct (args_in_declaration_order native sig args c L Hc) as [_ H].
  exists (wrap32 (v_value a)). split; [exact (H k TInt a Hp Ha)|]. split; [apply wrap32_range | apply wrap32_congr].
Qed.
Print Assumptions int_narrowing_explicit.

(* Results: whenever a call is made, no error is recorded and the Variable handed back is exactly the
   native result, typed by the declared return type ... *)
Theorem results_returned_unchanged :
  forall native sig args c,
  o_call (dispatch native ffi_chain sig args) = Some c ->
  o_err (dispatch native ffi_chain sig args) = None /\
  o_res (dispatch native ffi_chain sig args) = spec_result (cs_ret sig) (native sig (k_args c)) default_var.
Proof. exact (fun native => dispatch_result_sound native ffi_chain ffi_casts_ok ffi_stores_ok). Qed.
Print Assumptions results_returned_unchanged.

(* ... in particular every 64-bit long result and every double bit pattern comes back exactly. *)
Theorem long_exact :
  forall native sig args c z, cs_ret sig = TLong ->
  o_call (dispatch native ffi_chain sig args) = Some c -> native sig (k_args c) = CLong z -> in_i64 z ->
  v_type (o_res (dispatch native ffi_chain sig args)) = TLong /\
  v_value (o_res (dispatch native ffi_chain sig args)) = z.
Proof.
  intros native sig args c z Hr Hc Hn Hz.
  destruct (results_returned_unchanged native sig args c Hc) as [_ H].
  rewrite H, Hn, Hr. simpl. split; [reflexivity | now apply wrap64_id].
Qed.
Print Assumptions long_exact.

Theorem double_result_bit_exact :
  forall native sig args c b, cs_ret sig = TDouble ->
  o_call (dispatch native ffi_chain sig args) = Some c -> native sig (k_args c) = CDouble b -> 0 <= b < 2 ^ 64 ->
  v_type (o_res (dispatch native ffi_chain sig args)) = TDouble /\
  v_dbl (o_res (dispatch native ffi_chain sig args)) = b.
Proof.
  intros native sig args c b Hr Hc Hn Hb.
  destruct (results_returned_unchanged native sig args c Hc) as [_ H].
  rewrite H, Hn, Hr. simpl. split; [reflexivity | now apply Z.mod_small].
Qed.
Print Assumptions double_result_bit_exact.

(* Only int/long/double/void returns over int/long/double parameters are ever called: a declaration
   returning float, or with a pointer parameter (registered as TYPE_POINTER), or with any other
   TypeInfo is unsupported - hence (unsupported_is_no_call, unsupported_reports_diagnostic) never
   entered and always reported. *)
Theorem supported_only_plain_types :
  forall sig, supported ffi_chain sig = true ->
  in_scope (cs_ret sig) = true /\ Forall plain (cs_params sig).
Proof. exact (supported_plain ffi_chain ffi_casts_ok ffi_feeds_ok ffi_stores_ok). Qed.
Print Assumptions supported_only_plain_types.

Theorem float_return_or_pointer_param_is_unsupported :
  forall d, (fd_ret d = TFloat \/ exists p, In p (fd_params d) /\ snd p = true) ->
  cs_params (decl_sig d) = map dty_ty (snd (decl_ctype d)) /\ supported ffi_chain (decl_sig d) = false.
Proof.
  intros d H. split; [apply decl_sig_params|].
  apply (not_plain_unsupported ffi_chain ffi_casts_ok ffi_feeds_ok ffi_stores_ok).
  destruct H as [H|(p & Hin & Hp)].
  - left. simpl. rewrite H. reflexivity.
  - right. exists TPointer. split; [exact (decl_sig_pointer d p Hin Hp)|].
    intros [A|[A|A]]; discriminate.
Qed.
Print Assumptions float_return_or_pointer_param_is_unsupported.

(* A signature outside the table never reaches a native function. *)
Theorem unsupported_is_no_call :
  forall native sig args, supported ffi_chain sig = false ->
  o_call (dispatch native ffi_chain sig args) = None.
Proof. exact (fun native => unsupported_no_call native ffi_chain). Qed.
Print Assumptions unsupported_is_no_call.

(* ... and it is always reported, for EVERY return type (void included) and on BOTH call paths:
   callFunction records "Unsupported function signature" and returns TYPE_UNKNOWN; module.f(...) and
   f(...) print the diagnostic and exit with status 1 without calling. *)
Theorem unsupported_reports_diagnostic :
  forall native sig, supported ffi_chain sig = false ->
  (forall args,
     o_err (dispatch native ffi_chain sig args) = Some (EUnsupported (cs_ret sig) (length (cs_params sig))) /\
     v_type (o_res (dispatch native ffi_chain sig args)) = TUnknown) /\
  (forall nat_fn st m f tvs, lookup_fn (st_fns st) m f = Some sig -> length tvs = length (cs_params sig) ->
     (mem_nat m (st_loaded st) = true ->
      qualified_call nat_fn ffi_chain ffi_arity_check st m f tvs =
        (SExit (EUnsupported (cs_ret sig) (length (cs_params sig))), None)) /\
     (mem_nat m (st_loaded st) = true -> min_module (st_fns st) f None = Some m ->
      unqualified_call nat_fn ffi_chain ffi_arity_check st f tvs =
        (SExit (EUnsupported (cs_ret sig) (length (cs_params sig))), None))).
Proof.
  intros native sig Hu. split.
  - intro args. exact (unsupported_diag native ffi_chain sig args ffi_tails_ok Hu).
  - intros nat_fn st m f tvs Hl L. split.
    + intro Hm. rewrite (qualified_is_site nat_fn ffi_chain ffi_arity_check st m f tvs Hm).
      exact (site_outcome_unsupported nat_fn ffi_chain ffi_arity_check st m f sig tvs Hm Hl L ffi_tails_ok Hu).
    + intros Hm Hmin. rewrite (unqualified_is_site nat_fn ffi_chain ffi_arity_check st m f tvs Hmin).
      exact (site_outcome_unsupported nat_fn ffi_chain ffi_arity_check st m f sig tvs Hm Hl L ffi_tails_ok Hu).
Qed.
Print Assumptions unsupported_reports_diagnostic.

(* Mech refines Spec on both paths: for every supported signature, every state in which it is
   registered and every well-typed argument list (integer-typed values in the int range for int
   parameters, integer-typed for long, double-typed OR integer-typed for double), exactly one native
   call is made, through the declared type, with exactly the argument values (doubles: the same 64
   bits; integers for a double parameter: their C conversion), and the value handed to the evaluator
   is exactly the native result. *)
Theorem supported_call_end_to_end :
  forall native st m f sig tvs,
    mem_nat m (st_loaded st) = true -> lookup_fn (st_fns st) m f = Some sig ->
    supported ffi_chain sig = true -> Forall2 wt (cs_params sig) tvs ->
    let expected :=
      (site_value (spec_result (cs_ret sig) (native m f sig (exact_vals (cs_params sig) tvs)) default_var),
       Some (mk_call sig (exact_vals (cs_params sig) tvs))) in
    qualified_call native ffi_chain ffi_arity_check st m f tvs = expected /\
    (min_module (st_fns st) f None = Some m ->
     unqualified_call native ffi_chain ffi_arity_check st f tvs = expected).
Proof.
  intros native st m f sig tvs Hm Hl Hs Hw expected.
  pose proof (site_outcome_supported native ffi_chain ffi_arity_check ffi_casts_ok ffi_feeds_ok ffi_stores_ok
                st m f sig tvs Hm Hl Hs Hw) as H.
  split.
  - rewrite (qualified_is_site native ffi_chain ffi_arity_check st m f tvs Hm). exact H.
  - intro Hmin. rewrite (unqualified_is_site native ffi_chain ffi_arity_check st m f tvs Hmin). exact H.
Qed.
Print Assumptions supported_call_end_to_end.

(* DESIGN.md section 7 #30, repaired: an integer-typed argument for a double parameter arrives as the
   double that IS that integer - for every |v| < 2^53 the pattern handed over denotes exactly v (sign,
   exponent and 53-bit significand decode to v; beyond 2^53 the model rounds to nearest-even like
   cvtsi2sd, tested only). *)
Theorem int_arg_to_double_param_exact :
  forall tv, int_typed tv -> Z.abs (tv_value tv) < 2 ^ 53 ->
  exact_val TDouble tv = CDouble (double_of_i64 (tv_value tv)) /\
  v_dbl (build_arg tv) = double_of_i64 (tv_value tv) /\
  0 <= double_of_i64 (tv_value tv) < 2 ^ 64 /\
  dbl_denotes_int (double_of_i64 (tv_value tv)) (tv_value tv).
Proof.
  intros tv Hi Hv. destruct (double_of_i64_exact (tv_value tv) Hv) as [Hb Hd].
  split; [|split; [|split; assumption]].
  - simpl. destruct Hi as (H1 & H2 & _). rewrite H1, H2. reflexivity.
  - rewrite (build_arg_int tv Hi). reflexivity.
Qed.
Print Assumptions int_arg_to_double_param_exact.

(* A call with the wrong number of arguments never reaches the native function. *)
Theorem arity_mismatch_is_no_call :
  forall native st m f args sig, lookup_fn (st_fns st) m f = Some sig ->
  length args <> length (cs_params sig) ->
  o_call (call_function native ffi_chain ffi_arity_check st m f args) = None.
Proof.
  intros native st m f args sig Hl Hn. unfold call_function.
  destruct (mem_nat m (st_loaded st)); [|reflexivity]. simpl.
  rewrite Hl. apply Nat.eqb_neq in Hn. rewrite Hn. reflexivity.
Qed.
Print Assumptions arity_mismatch_is_no_call.

(* In every history, for every set of library files, every native call enters a symbol that exists
   in a library that exists (a missing library or symbol never leads to a call), through exactly
   the pointer type registered by one of the declarations given for that function (decl_sig: the
   declared types, pointer parameters as TYPE_POINTER). *)
Theorem history_calls_sound :
  forall native e ops m f c,
  In (EvCall m f c) (run_history native ffi_chain ffi_arity_check e st_empty ops) ->
  (exists syms, e m = Some syms /\ In f syms) /\
  (exists s, declared ops m f s /\ k_cast c = s).
Proof.
  intros native e ops m f c H.
  exact (history_calls_sound_from native ffi_chain ffi_arity_check e ops ffi_casts_ok
           ops st_empty (incl_refl ops) (inv_empty e) (inv2_empty ops) m f c H).
Qed.
Print Assumptions history_calls_sound.

Theorem missing_library_reported :
  forall native e st m ds ops, inv e st -> e m = None ->
  run_history native ffi_chain ffi_arity_check e st (OUse m ds :: ops) =
    EvDiag (DLoadFailed m) :: run_history native ffi_chain ffi_arity_check e st ops.
Proof.
  intros native e st m ds ops I Em. simpl. rewrite (process_module_missing e st m ds I Em). reflexivity.
Qed.
Print Assumptions missing_library_reported.

Theorem missing_symbol_reported :
  forall native e st m ds ops syms d, e m = Some syms -> In d ds -> ~ In (fd_name d) syms ->
  In (EvDiag (DRegFailed m (fd_name d))) (run_history native ffi_chain ffi_arity_check e st (OUse m ds :: ops)).
Proof.
  intros native e st m ds ops syms d Em Hd Hn. simpl. unfold process_module. rewrite Em.
  set (st1 := if mem_nat m (st_loaded st) then st else mk_st (m :: st_loaded st) (st_fns st)).
  assert (Hm : mem_nat (fd_name d) syms = false).
  { destruct (mem_nat (fd_name d) syms) eqn:E; [apply mem_nat_In in E; contradiction | reflexivity]. }
  pose proof (register_all_diag m syms d ds st1 Hd Hm) as H.
  destruct (register_all st1 m syms ds) as [st' dg]. simpl in *.
  apply in_or_app. left. apply in_map. exact H.
Qed.
Print Assumptions missing_symbol_reported.

(* Non-vacuity: signatures inside and outside the table. *)
Example supported_examples :
  supported ffi_chain (mk_csig TInt [TInt; TInt]) = true /\ supported ffi_chain (mk_csig TLong [TInt]) = true /\
  supported ffi_chain (mk_csig TDouble [TDouble; TDouble; TDouble; TDouble]) = true /\
  supported ffi_chain (mk_csig TInt [TLong]) = false /\ supported ffi_chain (mk_csig TLong []) = false /\
  supported ffi_chain (mk_csig TFloat [TDouble]) = false /\ supported ffi_chain (mk_csig TVoid [TDouble]) = false.
Proof. repeat split. Qed.

(* f(2) for double f(double): the callee sees 0x4000000000000000 = 2.0 *)
Example int_two_arrives_as_two :
  forall native, snd (qualified_call native ffi_chain ffi_arity_check
                        (mk_st [0%nat] [(0%nat, 0%nat, mk_csig TDouble [TDouble])]) 0%nat 0%nat
                        [mk_tv TInt false false 2 0]) =
                 Some (mk_call (mk_csig TDouble [TDouble]) [CDouble 4611686018427387904]).
Proof. intro. vm_compute. reflexivity. Qed.

(* int f(int* p) called with an address: reported, never entered *)
Example pointer_declaration_history :
  forall native, run_history native ffi_chain ffi_arity_check (fun _ => Some [0%nat]) st_empty
                   [OUse 0%nat [mk_fdecl 0%nat TInt [(TInt, true)]];
                    OCall true 0%nat 0%nat [mk_tv TPointer false false 140737488355328 0]] =
                 [EvDiag (DCallFailed (EUnsupported TInt 1)); EvResult (SExit (EUnsupported TInt 1))].
Proof. intro. vm_compute. reflexivity. Qed.

(* one complete history against the echo library: declaration, qualified call long e(int) with -1 *)
Example history_example :
  run_history (fun _ _ => echo_native None) ffi_chain ffi_arity_check (fun _ => Some [7%nat]) st_empty
    [OUse 3%nat [mk_fdecl 7%nat TLong [(TInt, false)]; mk_fdecl 8%nat TInt []];
     OCall true 3%nat 7%nat [mk_tv TInt false false (-1) 0]] =
  [EvDiag (DRegFailed 3%nat 8%nat);
   EvCall 3%nat 7%nat (mk_call (mk_csig TLong [TInt]) [CInt (-1)]);
   EvResult (SValue false (-7046029254386353134))].
Proof. vm_compute. reflexivity. Qed.
