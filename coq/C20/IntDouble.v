(* C20 - static_cast<double>(int64_t) as modelled by Model.double_of_i64 is exact below 2^53:
   the bit pattern produced denotes exactly the integer (sign, exponent, 53-bit significand). *)
From Coq Require Import ZArith Lia.
From Cb Require Import C20.Model.
Local Open Scope Z_scope.

(* the IEEE-754 double with pattern b is the integer v:  (-1)^s * (2^52 + man) * 2^(exp - 1075) = v *)
Definition dbl_denotes_int (b v : Z) : Prop :=
  (v = 0 /\ b = 0) \/
  (v <> 0 /\ dbl_sign b = (if v <? 0 then 1 else 0) /\ 1023 <= dbl_exp b < 2047 /\
   (2 ^ 52 + dbl_man b) * 2 ^ (dbl_exp b - 1023) = Z.abs v * 2 ^ 52).

Lemma scaled_to_53_bits m : 0 < m -> m < 2 ^ 53 -> let e := Z.log2 m in
  0 <= e <= 52 /\ 2 ^ 52 <= m * 2 ^ (52 - e) < 2 ^ 53 /\ m * 2 ^ (52 - e) * 2 ^ e = m * 2 ^ 52.
Proof.
  intros Hm Hlt e.
  destruct (Z.log2_spec m Hm) as [Hlo Hhi]. fold e in Hlo, Hhi.
  assert (H0 : 0 <= e) by apply Z.log2_nonneg.
  assert (H52 : e <= 52).
  { assert (Z.log2 m < 53) by (apply Z.log2_lt_pow2; lia). lia. }
  assert (Hp : 0 < 2 ^ (52 - e)) by (apply Z.pow_pos_nonneg; lia).
  assert (E1 : 2 ^ e * 2 ^ (52 - e) = 2 ^ 52) by (rewrite <- Z.pow_add_r by lia; f_equal; lia).
  assert (E2 : 2 ^ Z.succ e * 2 ^ (52 - e) = 2 ^ 53) by (rewrite <- Z.pow_add_r by lia; f_equal; lia).
  split; [lia|]. split.
  - split.
    + rewrite <- E1. apply Z.mul_le_mono_nonneg_r; lia.
    + rewrite <- E2. apply Z.mul_lt_mono_pos_r; lia.
  - rewrite <- Z.mul_assoc. f_equal. rewrite Z.mul_comm. exact E1.
Qed.

(* a number written hi * 2^n + lo with 0 <= lo < 2^n is cut there by / and mod *)
Lemma split_at n hi lo : 0 <= lo < 2 ^ n ->
  (hi * 2 ^ n + lo) / 2 ^ n = hi /\ (hi * 2 ^ n + lo) mod 2 ^ n = lo.
Proof.
  intro H. rewrite Z.add_comm, Z.div_add, Z.mod_add by lia.
  rewrite Z.div_small, Z.mod_small by lia. split; reflexivity.
Qed.

Lemma fields (S e q : Z) : (S = 0 \/ S = 2 ^ 63) -> 0 <= e <= 52 -> 2 ^ 52 <= q < 2 ^ 53 ->
  let b := S + (e + 1023) * 2 ^ 52 + (q - 2 ^ 52) in
  0 <= b < 2 ^ 64 /\ dbl_man b = q - 2 ^ 52 /\ dbl_exp b = e + 1023 /\ dbl_sign b = S / 2 ^ 63.
Proof.
  intros HS He Hq b.
  assert (Hs : exists s, 0 <= s <= 1 /\ S = s * 2 ^ 63 /\ S / 2 ^ 63 = s)
    by (destruct HS as [-> | ->]; [exists 0 | exists 1]; repeat split; lia).
  destruct Hs as (s & Hs & ES & ->).
  (* b = (s * 2^11 + exponent) * 2^52 + mantissa: cut at bit 52, then at bit 11 of the upper part *)
  assert (Eb : b = (s * 2 ^ 11 + (e + 1023)) * 2 ^ 52 + (q - 2 ^ 52)) by (subst b S; ring).
  destruct (split_at 52 (s * 2 ^ 11 + (e + 1023)) (q - 2 ^ 52)) as [D52 M52]; [lia|].
  destruct (split_at 11 s (e + 1023)) as [D11 M11]; [lia|].
  rewrite <- Eb in D52, M52. unfold dbl_man, dbl_exp, dbl_sign.
  split; [lia|]. split; [exact M52|]. split; [rewrite D52; exact M11|].
  change (2 ^ 63) with (2 ^ 52 * 2 ^ 11). rewrite <- Z.div_div, D52, D11 by lia.
  apply Z.mod_small. lia.
Qed.

Theorem double_of_i64_exact v : Z.abs v < 2 ^ 53 ->
  0 <= double_of_i64 v < 2 ^ 64 /\ dbl_denotes_int (double_of_i64 v) v.
Proof.
  intro Hv. unfold double_of_i64.
  destruct (v =? 0) eqn:E0.
  - apply Z.eqb_eq in E0. subst. split; [lia|]. left. split; reflexivity.
  - apply Z.eqb_neq in E0.
    assert (Hm : 0 < Z.abs v) by lia.
    destruct (scaled_to_53_bits (Z.abs v) Hm Hv) as (He & Hq & Heq).
    set (e := Z.log2 (Z.abs v)) in *. set (q := Z.abs v * 2 ^ (52 - e)) in *.
    assert (L : (e <=? 52) = true) by (apply Z.leb_le; lia). rewrite L.
    assert (N : (q =? 2 ^ 53) = false) by (apply Z.eqb_neq; lia). rewrite N.
    cbv beta iota.
    assert (HS : (if v <? 0 then 2 ^ 63 else 0) = 0 \/ (if v <? 0 then 2 ^ 63 else 0) = 2 ^ 63)
      by (destruct (v <? 0); auto).
    destruct (fields _ e q HS He Hq) as (Hb & Fm & Fe & Fs).
    split; [exact Hb|]. right. split; [exact E0|].
    rewrite Fs, Fe, Fm. split; [|split].
    + destruct (v <? 0); reflexivity.
    + lia.
    + replace (2 ^ 52 + (q - 2 ^ 52)) with q by lia. replace (e + 1023 - 1023) with e by lia. exact Heq.
Qed.
