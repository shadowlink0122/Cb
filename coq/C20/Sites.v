(* C20 - proofs about FFIManager::callFunction as a whole, the two call sites of call_impl.cpp and
   whole histories (use foreign declarations followed by calls), for any table passing the checks of
   Lemmas.v and any native functions / any files on disk. *)
From Coq Require Import ZArith List Bool.
From Cb Require Import C20.Model C20.Lemmas.
Import ListNotations.
Local Open Scope Z_scope.

Lemma lookup_fn_In fns m f s : lookup_fn fns m f = Some s -> In (m, f, s) fns.
Proof.
  induction fns as [|[[m' f'] s'] fns IH]; simpl; [discriminate|].
  destruct (Nat.eqb m m' && Nat.eqb f f') eqn:E.
  - intro H; inversion H; subst. apply andb_true_iff in E. destruct E as [E1 E2].
    apply Nat.eqb_eq in E1. apply Nat.eqb_eq in E2. subst. now left.
  - intro H. right. now apply IH.
Qed.

Definition int_typed (tv : typed_value) : Prop :=
  tv_is_float tv = false /\ is_fp (tv_type tv) = false /\ tv_is_string tv = false.

Inductive wt : ty -> typed_value -> Prop :=
| wt_int tv : int_typed tv -> in_i32 (tv_value tv) -> wt TInt tv
| wt_long tv : int_typed tv -> wt TLong tv
| wt_dbl tv : tv_type tv = TDouble -> wt TDouble tv
| wt_dbl_int tv : int_typed tv -> wt TDouble tv.   (* integer expression for a double parameter: C conversion *)

(* the value the property demands the native function to see *)
Definition exact_val (t : ty) (tv : typed_value) : cval :=
  match t with
  | TInt => CInt (tv_value tv) | TLong => CLong (tv_value tv)
  | TDouble => CDouble (if tv_is_float tv || is_fp (tv_type tv) then tv_dbl tv else double_of_i64 (tv_value tv))
  | _ => CVoid
  end.
Fixpoint exact_vals (ps : list ty) (tvs : list typed_value) : list cval :=
  match ps, tvs with
  | t :: ps', tv :: tvs' => exact_val t tv :: exact_vals ps' tvs'
  | _, _ => []
  end.

Lemma build_arg_double tv : tv_type tv = TDouble ->
  build_arg tv = mk_var TDouble (trunc_i64 (tv_dbl tv)) (tv_dbl tv).
Proof. intro H. unfold build_arg. rewrite H. simpl. rewrite orb_true_r. reflexivity. Qed.

Lemma build_arg_int tv : int_typed tv ->
  build_arg tv = mk_var (tv_type tv) (tv_value tv) (double_of_i64 (tv_value tv)).
Proof. intros (H1 & H2 & H3). unfold build_arg. rewrite H1, H2, H3. reflexivity. Qed.

Lemma spec_args_wt ps tvs : Forall2 wt ps tvs -> spec_args ps (map build_arg tvs) = exact_vals ps tvs.
Proof.
  induction 1 as [|t tv ps tvs Hw _ IH]; [reflexivity|].
  simpl. f_equal; [|exact IH].
  destruct Hw as [tv Hi Hr | tv Hi | tv Hd | tv Hi]; simpl.
  - rewrite (build_arg_int tv Hi). simpl. now rewrite wrap32_id.
  - rewrite (build_arg_int tv Hi). reflexivity.
  - rewrite (build_arg_double tv Hd). simpl. rewrite Hd. simpl. rewrite orb_true_r. reflexivity.
  - rewrite (build_arg_int tv Hi). simpl. destruct Hi as (H1 & H2 & _). rewrite H1, H2. reflexivity.
Qed.

Lemma Forall2_length' {A B} (R : A -> B -> Prop) l1 l2 : Forall2 R l1 l2 -> length l1 = length l2.
Proof. induction 1; simpl; congruence. Qed.

Lemma spec_result_type ret r : in_scope ret = true -> v_type (spec_result ret r default_var) = ret.
Proof. destruct ret; simpl; intro H; try discriminate; reflexivity. Qed.

Section S.
  Variable native : nat -> nat -> csig -> list cval -> cval.
  Variable chain : list group.
  Variable ac : bool.

  Lemma call_function_dispatch st m f sig args :
    mem_nat m (st_loaded st) = true -> lookup_fn (st_fns st) m f = Some sig ->
    length args = length (cs_params sig) ->
    call_function native chain ac st m f args = dispatch (native m f) chain sig args.
  Proof.
    intros Hm Hl L. unfold call_function. rewrite Hm, Hl, L, Nat.eqb_refl, andb_false_r. reflexivity.
  Qed.

  Lemma call_function_call st m f args c :
    o_call (call_function native chain ac st m f args) = Some c ->
    exists sig, mem_nat m (st_loaded st) = true /\ lookup_fn (st_fns st) m f = Some sig /\
                o_call (dispatch (native m f) chain sig args) = Some c.
  Proof.
    unfold call_function. destruct (mem_nat m (st_loaded st)); simpl; [|discriminate].
    destruct (lookup_fn (st_fns st) m f) as [sig|]; [|simpl; discriminate].
    destruct (ac && negb (Nat.eqb (length args) (length (cs_params sig)))); [simpl; discriminate|].
    intro H. exists sig. auto.
  Qed.

  Lemma site_outcome_value out : in_scope (v_type (o_res out)) = true ->
    site_outcome out = (site_value (o_res out), o_call out).
  Proof. unfold site_outcome. destruct (v_type (o_res out)); reflexivity || discriminate. Qed.

  Lemma site_outcome_supported :
    casts_ok chain = true -> feeds_ok chain = true -> stores_ok chain = true ->
    forall st m f sig tvs,
      mem_nat m (st_loaded st) = true -> lookup_fn (st_fns st) m f = Some sig ->
      supported chain sig = true -> Forall2 wt (cs_params sig) tvs ->
      site_outcome (call_function native chain ac st m f (map build_arg tvs)) =
        (site_value (spec_result (cs_ret sig) (native m f sig (exact_vals (cs_params sig) tvs)) default_var),
         Some (mk_call sig (exact_vals (cs_params sig) tvs))).
  Proof.
    intros H1 H2 H3 st m f sig tvs Hm Hl Hsup Hw.
    destruct (supported_plain chain H1 H2 H3 sig Hsup) as [Hs _].
    assert (L : length (map build_arg tvs) = length (cs_params sig)).
    { rewrite map_length. symmetry. eapply Forall2_length'; eauto. }
    rewrite (call_function_dispatch st m f sig _ Hm Hl L).
    destruct (supported_calls (native m f) chain sig (map build_arg tvs) Hsup) as [c Hc].
    pose proof (dispatch_cast_sound _ _ H1 _ _ _ Hc) as Hcast.
    pose proof (dispatch_args_sound _ _ H1 H2 _ _ _ L Hc) as Hargs.
    destruct (dispatch_result_sound _ _ H1 H3 _ _ _ Hc) as [_ Hres].
    rewrite spec_args_wt in Hargs by exact Hw.
    rewrite site_outcome_value by (rewrite Hres, spec_result_type; assumption).
    rewrite Hres, Hc, Hargs. destruct c as [cc ca]; simpl in *; subst. reflexivity.
  Qed.

  Lemma site_outcome_unsupported :
    forall st m f sig tvs,
      mem_nat m (st_loaded st) = true -> lookup_fn (st_fns st) m f = Some sig ->
      length tvs = length (cs_params sig) ->
      tails_ok chain = true -> supported chain sig = false ->
      site_outcome (call_function native chain ac st m f (map build_arg tvs)) =
        (SExit (EUnsupported (cs_ret sig) (length (cs_params sig))), None).
  Proof.
    intros st m f sig tvs Hm Hl L Ht Hsup.
    rewrite (call_function_dispatch st m f sig _ Hm Hl) by now rewrite map_length.
    destruct (unsupported_diag (native m f) chain sig (map build_arg tvs) Ht Hsup) as [He Hty].
    unfold site_outcome. rewrite Hty, He, (unsupported_no_call _ _ _ _ Hsup). reflexivity.
  Qed.

  Lemma qualified_is_site st m f tvs : mem_nat m (st_loaded st) = true ->
    qualified_call native chain ac st m f tvs =
    site_outcome (call_function native chain ac st m f (map build_arg tvs)).
  Proof. intro H. unfold qualified_call. rewrite H. reflexivity. Qed.

  Lemma unqualified_is_site st m f tvs : min_module (st_fns st) f None = Some m ->
    unqualified_call native chain ac st f tvs =
    site_outcome (call_function native chain ac st m f (map build_arg tvs)).
  Proof. intro H. unfold unqualified_call. rewrite H. reflexivity. Qed.

  Definition inv (e : env) (st : ffi_state) : Prop :=
    (forall m, In m (st_loaded st) -> e m <> None) /\
    (forall m f s, In (m, f, s) (st_fns st) -> exists syms, e m = Some syms /\ In f syms).

  Definition declared (all : list op) (m f : nat) (s : csig) : Prop :=
    exists ds d, In (OUse m ds) all /\ In d ds /\ fd_name d = f /\ decl_sig d = s.

  Definition inv2 (all : list op) (st : ffi_state) : Prop :=
    forall m f s, In (m, f, s) (st_fns st) -> declared all m f s.

  Lemma inv_empty e : inv e st_empty.
  Proof. split; simpl; intros; contradiction. Qed.
  Lemma inv2_empty all : inv2 all st_empty.
  Proof. intros m f s H. simpl in H. contradiction. Qed.

  Lemma register_all_loaded m syms : forall ds st,
    st_loaded (fst (register_all st m syms ds)) = st_loaded st.
  Proof.
    induction ds as [|d ds IH]; intro st; simpl; [reflexivity|].
    destruct (mem_nat (fd_name d) syms).
    - rewrite IH. reflexivity.
    - specialize (IH st). destruct (register_all st m syms ds). simpl in *. exact IH.
  Qed.

  Lemma register_all_fns m syms : forall ds st x,
    In x (st_fns (fst (register_all st m syms ds))) ->
    In x (st_fns st) \/ exists d, In d ds /\ In (fd_name d) syms /\ x = (m, fd_name d, decl_sig d).
  Proof.
    induction ds as [|d ds IH]; intros st x H; simpl in H; [now left|].
    destruct (mem_nat (fd_name d) syms) eqn:E.
    - apply IH in H. simpl in H. destruct H as [[H|H]|(d' & H1 & H2 & H3)].
      + right. exists d. split; [now left|]. split; [now apply mem_nat_In | now symmetry].
      + now left.
      + right. exists d'. split; [now right | auto].
    - specialize (IH st x). destruct (register_all st m syms ds). simpl in *.
      destruct (IH H) as [H'|(d' & H1 & H2 & H3)]; [now left|].
      right. exists d'. split; [now right | auto].
  Qed.

  Lemma register_all_diag m syms d : forall ds st,
    In d ds -> mem_nat (fd_name d) syms = false ->
    In (DRegFailed m (fd_name d)) (snd (register_all st m syms ds)).
  Proof.
    induction ds as [|d0 ds IH]; intros st Hin Hm; [contradiction|].
    simpl. destruct Hin as [->|Hin].
    - rewrite Hm. destruct (register_all st m syms ds). simpl. now left.
    - destruct (mem_nat (fd_name d0) syms).
      + now apply IH.
      + specialize (IH st Hin Hm). destruct (register_all st m syms ds). simpl in *. now right.
  Qed.

  Lemma process_module_missing e st m ds :
    inv e st -> e m = None -> process_module e st m ds = (st, [DLoadFailed m]).
  Proof.
    intros [I1 _] Em. unfold process_module. rewrite Em.
    destruct (mem_nat m (st_loaded st)) eqn:El; [|reflexivity].
    apply mem_nat_In in El. exfalso. exact (I1 m El Em).
  Qed.

  Lemma process_module_inv e st m ds all :
    inv e st -> inv2 all st -> In (OUse m ds) all ->
    inv e (fst (process_module e st m ds)) /\ inv2 all (fst (process_module e st m ds)).
  Proof.
    intros I J Hall. destruct (e m) as [syms|] eqn:Em.
    - destruct I as [I1 I2]. unfold process_module. rewrite Em.
      set (st1 := if mem_nat m (st_loaded st) then st else mk_st (m :: st_loaded st) (st_fns st)).
      assert (F1 : st_fns st1 = st_fns st) by (unfold st1; destruct (mem_nat m (st_loaded st)); reflexivity).
      assert (L1 : forall x, In x (st_loaded st1) -> x = m \/ In x (st_loaded st)).
      { unfold st1. destruct (mem_nat m (st_loaded st)); simpl; intros x Hx; [now right|].
        destruct Hx; [left; now symmetry | now right]. }
      split; [split|].
      + intros x Hx. rewrite register_all_loaded in Hx. destruct (L1 x Hx) as [->|Hx']; [congruence | now apply I1].
      + intros m0 f s Hin. apply register_all_fns in Hin. rewrite F1 in Hin.
        destruct Hin as [Hin|(d & Hd & Hs & Heq)]; [now apply (I2 m0 f s)|].
        inversion Heq; subst. exists syms. split; assumption.
      + intros m0 f s Hin. apply register_all_fns in Hin. rewrite F1 in Hin.
        destruct Hin as [Hin|(d & Hd & Hs & Heq)]; [now apply J|].
        inversion Heq; subst. exists ds, d. auto.
    - rewrite (process_module_missing e st m ds I Em). split; assumption.
  Qed.

  Lemma min_module_some fns f : forall best m,
    min_module fns f best = Some m ->
    best = Some m \/ exists s, In (m, f, s) fns.
  Proof.
    induction fns as [|[[m' f'] s'] fns IH]; intros best m H; simpl in H; [now left|].
    apply IH in H. destruct H as [H|[s H]]; [|right; exists s; now right].
    destruct (Nat.eqb f f') eqn:E; [|now left].
    apply Nat.eqb_eq in E. subst f'.
    destruct best as [b|].
    - inversion H as [Hm]. destruct (Nat.min_spec b m') as [[_ Hb]|[_ Hb]]; rewrite Hb in *.
      + left. now subst.
      + right. exists s'. left. reflexivity.
    - inversion H; subst. right. exists s'. now left.
  Qed.

  Lemma site_outcome_call out : snd (site_outcome out) = o_call out.
  Proof. unfold site_outcome. destruct (v_type (o_res out)); reflexivity. Qed.

  Lemma call_events_call m' f' rc m f c :
    In (EvCall m f c) (call_events m' f' rc) -> m = m' /\ f = f' /\ snd rc = Some c.
  Proof.
    unfold call_events. intro H. apply in_app_or in H. destruct H as [H|H].
    - destruct (snd rc); [|contradiction]. destruct H as [H|[]]. now inversion H.
    - exfalso. apply in_app_or in H. destruct H as [H|[H|[]]]; [|discriminate].
      destruct (fst rc); simpl in H; try contradiction. destruct H as [H|[]]. discriminate.
  Qed.

  (* in every history, every native call enters an existing symbol of an existing library, through
     the pointer type registered by one of the declarations of that function; stated for any part
     `ops` of the whole history `all` and any state satisfying the invariants, as the induction needs *)
  Theorem history_calls_sound_from (e : env) (all : list op) :
    casts_ok chain = true ->
    forall ops st, incl ops all -> inv e st -> inv2 all st ->
    forall m f c, In (EvCall m f c) (run_history native chain ac e st ops) ->
      (exists syms, e m = Some syms /\ In f syms) /\
      (exists s, declared all m f s /\ k_cast c = s).
  Proof.
    intro H1. induction ops as [|o ops IH]; intros st Hincl I J m f c Hin; [contradiction|].
    assert (Hincl' : incl ops all) by (intros x Hx; apply Hincl; now right).
    destruct o as [m0 ds | q m0 f0 tvs]; simpl in Hin.
    - assert (Hall : In (OUse m0 ds) all) by (apply Hincl; now left).
      destruct (process_module_inv e st m0 ds all I J Hall) as [I' J'].
      destruct (process_module e st m0 ds) as [st' dg]. simpl in *.
      apply in_app_or in Hin. destruct Hin as [Hin|Hin].
      + apply in_map_iff in Hin. destruct Hin as (x & Hx & _). discriminate.
      + eapply IH; eauto.
    - apply in_app_or in Hin. destruct Hin as [Hin|Hin].
      + (* the call made by this operation went through callFunction for module m *)
        apply call_events_call in Hin. destruct Hin as (-> & -> & Hc).
        assert (Hcf : o_call (call_function native chain ac st
                        (if q then m0 else match min_module (st_fns st) f0 None with Some x => x | None => m0 end)
                        f0 (map build_arg tvs)) = Some c).
        { destruct q.
          - unfold qualified_call in Hc. destruct (negb (mem_nat m0 (st_loaded st))); [discriminate|].
            now rewrite site_outcome_call in Hc.
          - unfold unqualified_call in Hc. destruct (min_module (st_fns st) f0 None); [|discriminate].
            now rewrite site_outcome_call in Hc. }
        apply call_function_call in Hcf. destruct Hcf as (sig & _ & Hl & Hd).
        apply lookup_fn_In in Hl. split; [exact (proj2 I _ _ _ Hl)|].
        exists sig. split; [exact (J _ _ _ Hl) | exact (dispatch_cast_sound _ _ H1 _ _ _ Hd)].
      + destruct (is_exit _); [contradiction|]. eapply IH; eauto.
  Qed.
End S.

(* a declaration with a pointer parameter is registered with TYPE_POINTER at that position *)
Lemma decl_sig_params d : cs_params (decl_sig d) = map dty_ty (snd (decl_ctype d)).
Proof.
  unfold decl_sig, decl_ctype. simpl. rewrite map_map. apply map_ext. intros [t b]. destruct b; reflexivity.
Qed.

Lemma decl_sig_pointer d p : In p (fd_params d) -> snd p = true -> In TPointer (cs_params (decl_sig d)).
Proof.
  intros Hin Hp. unfold decl_sig. simpl. apply in_map_iff. exists p. rewrite Hp. auto.
Qed.

Lemma not_plain_unsupported chain : casts_ok chain = true -> feeds_ok chain = true -> stores_ok chain = true ->
  forall sig, (in_scope (cs_ret sig) = false \/ exists t, In t (cs_params sig) /\ ~ plain t) ->
  supported chain sig = false.
Proof.
  intros H1 H2 H3 sig H. destruct (supported chain sig) eqn:E; [|reflexivity]. exfalso.
  destruct (supported_plain chain H1 H2 H3 sig E) as [Hs Hp].
  destruct H as [H|(t & Ht & Hn)]; [congruence|].
  rewrite Forall_forall in Hp. exact (Hn (Hp t Ht)).
Qed.
