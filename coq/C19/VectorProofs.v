(* C19 - the pointer-level Vector model (doubly linked list, LinkedModel.v) refines a list:
   push/pop at both ends, at, find, delete_at, sort, clear; malloc/free log sound. *)
From Coq Require Import ZArith List Bool Lia Permutation.
From Cb Require Import C19.Model C19.LinkedModel C19.Log C19.QueueProofs C19.SortProofs.
Import ListNotations.
Local Open Scope Z_scope.

Definition nhd_or (e : option nat) (ns : nodes) : option nat :=
  match ns with [] => e | (m, _) :: _ => Some m end.
Definition nlast_or (p : option nat) (ns : nodes) : option nat :=
  match nlast ns with Some n => Some n | None => p end.

Lemma nhd_or_None : forall ns, nhd_or None ns = nhd ns.
Proof. destruct ns as [|[a y] ns]; reflexivity. Qed.
Lemma nlast_nonempty : forall ns : nodes, ns <> [] -> exists m, nlast ns = Some m.
Proof.
  induction ns as [|[a y] ns IH]; [congruence|]. intros _. cbn [nlast].
  destruct ns as [|p ns']; [eauto|]. apply IH. discriminate.
Qed.
Lemma nlast_or_cons : forall p n x tl, nlast_or p ((n, x) :: tl) = nlast_or (Some n) tl.
Proof.
  intros. unfold nlast_or. cbn [nlast]. destruct tl as [|q tl']; [reflexivity|].
  destruct (nlast_nonempty (q :: tl')) as (m & E); [discriminate|]. rewrite E. reflexivity.
Qed.
Lemma nlast_or_None : forall ns, nlast_or None ns = nlast ns.
Proof. intros. unfold nlast_or. destruct (nlast ns); reflexivity. Qed.
Lemma nhd_or_app : forall e a b, nhd_or e (a ++ b) = nhd_or (nhd_or e b) a.
Proof. destruct a as [|[n x] a]; reflexivity. Qed.

Fixpoint dseg (h : nat -> option vnode) (p : option nat) (ns : nodes) (e : option nat) : Prop :=
  match ns with
  | [] => True
  | (n, x) :: tl => h n = Some (mkv p (nhd_or e tl) x) /\ dseg h (Some n) tl e
  end.

Lemma dseg_app : forall h a b p e,
  dseg h p (a ++ b) e <-> dseg h p a (nhd_or e b) /\ dseg h (nlast_or p a) b e.
Proof.
  induction a as [|[n x] a IH]; intros b p e.
  - cbn [app dseg]. unfold nlast_or. cbn [nlast]. tauto.
  - cbn [app dseg]. rewrite nlast_or_cons, IH, nhd_or_app. tauto.
Qed.

Lemma dseg_lookup_first : forall h p f x tl e, dseg h p ((f, x) :: tl) e ->
  v_data h (Some f) = x /\ v_next h (Some f) = nhd_or e tl /\ v_prev h (Some f) = p.
Proof. intros h p f x tl e (Hf & _). unfold v_data, v_next, v_prev. rewrite Hf. auto. Qed.

(* A write to a block outside a segment leaves the segment as it is. *)
Lemma dseg_frame : forall h n x ns p e, ~ In n (nids ns) -> dseg h p ns e -> dseg (upd h n x) p ns e.
Proof.
  induction ns as [|[a y] ns IH]; cbn [dseg nids List.map In fst]; auto.
  intros p e Hn (Ha & Hc). split; [rewrite upd_other; auto|apply IH; auto].
Qed.
Lemma dseg_frame_next : forall h n x ns p e, ~ In n (nids ns) -> dseg h p ns e -> dseg (v_set_next h n x) p ns e.
Proof. intros. unfold v_set_next. destruct (h n); auto using dseg_frame. Qed.
Lemma dseg_frame_prev : forall h n x ns p e, ~ In n (nids ns) -> dseg h p ns e -> dseg (v_set_prev h n x) p ns e.
Proof. intros. unfold v_set_prev. destruct (h n); auto using dseg_frame. Qed.

Lemma nodup_app_inv : forall (a b : list nat), NoDup (a ++ b) ->
  NoDup a /\ NoDup b /\ (forall m, In m a -> ~ In m b).
Proof.
  induction a as [|q a IH]; intros b H; cbn [app] in H.
  - repeat split; auto. constructor.
  - inversion H as [|? ? Hq Hr]; subst. destruct (IH _ Hr) as (Ha & Hb & Hdis).
    repeat split; auto.
    + constructor; auto. intro Hqa. apply Hq, in_or_app. left. exact Hqa.
    + intros m [->|Hm]; [intro Hqb; apply Hq, in_or_app; right; exact Hqb|auto].
Qed.

(* The code bends the far end of a neighbouring segment, "if (back != nullptr) back->next = ..",
   "if (front != nullptr) front->prev = ..": the last node's next, the first node's prev, nothing for
   an empty segment.  The segment itself gets the new end; every disjoint segment is left alone. *)
Lemma dseg_set_end : forall h p a e e', dseg h p a e -> NoDup (nids a) ->
  dseg (match nlast a with Some r => v_set_next h r e' | None => h end) p a e'.
Proof.
  intros h p a e e' H D. destruct (snoc_cases a) as [->|(a0 & r & x & ->)]; [exact I|].
  rewrite nlast_snoc. rewrite nids_app in D. apply nodup_app_inv in D. destruct D as (_ & _ & D).
  apply dseg_app in H. destruct H as (Ha & Hr & _). cbn [nhd_or] in Ha.
  unfold v_set_next. rewrite Hr. cbn [vprev vdata]. apply dseg_app. split.
  - apply dseg_frame; [intro Hra; exact (D r Hra (or_introl eq_refl))|exact Ha].
  - split; [apply upd_same|exact I].
Qed.
Lemma dseg_set_start : forall h p b e p', dseg h p b e -> NoDup (nids b) ->
  dseg (match nhd b with Some f => v_set_prev h f p' | None => h end) p' b e.
Proof.
  intros h p [|[f x] tl] e p' H D; [exact I|]. destruct H as (Hf & Ht). inversion D; subst.
  cbn [nhd]. unfold v_set_prev. rewrite Hf. cbn [vnext vdata].
  split; [apply upd_same|apply dseg_frame; assumption].
Qed.
Lemma dseg_frame_end : forall h a x ns p e, (forall m, In m (nids a) -> ~ In m (nids ns)) ->
  dseg h p ns e -> dseg (match nlast a with Some r => v_set_next h r x | None => h end) p ns e.
Proof.
  intros h a x ns p e D H. destruct (snoc_cases a) as [->|(a0 & r & y & ->)]; [exact H|].
  rewrite nlast_snoc. apply dseg_frame_next; [apply D; rewrite nids_app; apply in_elt|exact H].
Qed.
Lemma dseg_frame_start : forall h b x ns p e, (forall m, In m (nids b) -> ~ In m (nids ns)) ->
  dseg h p ns e -> dseg (match nhd b with Some f => v_set_prev h f x | None => h end) p ns e.
Proof.
  intros h [|[f y] tl] x ns p e D H; [exact H|].
  apply dseg_frame_prev; [apply D; left; reflexivity|exact H].
Qed.

Definition vrep (s : vector) (ns : nodes) : Prop :=
  dseg (vh s) None ns None /\ vfront s = nhd ns /\ vback s = nlast ns /\
  vlength s = Z.of_nat (length ns) /\ NoDup (nids ns) /\
  Forall (fun n => (n < vnxt s)%nat) (nids ns) /\ (length ns <= vnxt s)%nat.

Lemma vrep_intro : forall s ns,
  dseg (vh s) None ns None -> vfront s = nhd ns -> vback s = nlast ns -> vlength s = Z.of_nat (length ns) ->
  alloc_ok (vnxt s) ns -> vrep s ns.
Proof. intros s ns Hc Hf Hb Hl Hok. exact (conj Hc (conj Hf (conj Hb (conj Hl Hok)))). Qed.

Lemma vrep_init : vrep vector_init [].
Proof. apply vrep_intro; [exact I|reflexivity|reflexivity|reflexivity|apply alloc_ok_nil]. Qed.

(* the fresh block lies in no segment of the list as it is before the push *)
Lemma vrep_push_back : forall s ns v, vrep s ns -> vrep (v_push_back s v) (ns ++ [(vnxt s, v)]).
Proof.
  intros s ns v (Hc & Hf & Hb & Hl & Hok).
  pose proof (alloc_ok_next_unused _ _ Hok) as Hfresh. pose proof Hok as (Hd & _).
  unfold v_push_back. rewrite Hb, Hf.
  apply vrep_intro; cbn [vh vfront vback vlength vnxt]; auto using alloc_ok_snoc.
  - apply dseg_app. cbn [nhd_or]. split.
    + apply dseg_set_end with (e := None); [apply dseg_frame; assumption|exact Hd].
    + apply dseg_frame_end; [intros m Hm [<-|[]]; exact (Hfresh Hm)|].
      rewrite nlast_or_None. split; [apply upd_same|exact I].
  - destruct ns as [|[f x] tl]; reflexivity.
  - rewrite nlast_snoc. reflexivity.
  - rewrite Hl, app_length. cbn [length]. lia.
Qed.

Lemma vrep_push_front : forall s ns v, vrep s ns -> vrep (v_push_front s v) ((vnxt s, v) :: ns).
Proof.
  intros s ns v (Hc & Hf & Hb & Hl & Hok).
  pose proof (alloc_ok_next_unused _ _ Hok) as Hfresh. pose proof Hok as (Hd & _).
  unfold v_push_front. rewrite Hb, Hf.
  apply vrep_intro; cbn [vh vfront vback vlength vnxt]; auto using alloc_ok_cons.
  - change ((vnxt s, v) :: ns) with ([(vnxt s, v)] ++ ns). apply dseg_app. split.
    + apply dseg_frame_start; [intros m Hm [<-|[]]; exact (Hfresh Hm)|].
      split; [apply upd_same|exact I].
    + apply dseg_set_start with (p := None); [apply dseg_frame; assumption|exact Hd].
  - symmetry. rewrite <- (nlast_or_None (_ :: ns)). apply nlast_or_cons.
  - rewrite Hl. cbn [length]. lia.
Qed.

Lemma walk_dseg : forall h ns p e i, dseg h p ns e -> (i <= length ns)%nat ->
  v_walk h (nhd_or e ns) i = nhd_or e (skipn i ns).
Proof.
  induction ns as [|[n x] tl IH]; intros p e i H Hi.
  - cbn [length] in Hi. assert (i = O) by lia. subst. reflexivity.
  - destruct i as [|j]; [reflexivity|].
    cbn [nhd_or v_walk skipn]. destruct (dseg_lookup_first _ _ _ _ _ _ H) as (_ & Hn & _). rewrite Hn.
    destruct H as (_ & Ht). apply (IH _ _ _ Ht). cbn [length] in Hi. lia.
Qed.

(* The loops that follow next pointers from the front visit the blocks of the list in order:
   [v_collect] is that traversal, find and the destructor are functions of it. *)
Lemma collect_dseg : forall ns h p fuel, dseg h p ns None -> (length ns <= fuel)%nat ->
  v_collect fuel h (nhd ns) = nids ns.
Proof.
  induction ns as [|[n x] tl IH]; intros h p fuel H Hf.
  - destruct fuel; reflexivity.
  - destruct fuel as [|fu]; [cbn in Hf; lia|].
    cbn [nhd v_collect nids List.map fst].
    destruct (dseg_lookup_first _ _ _ _ _ _ H) as (_ & Hn & _). rewrite Hn, nhd_or_None.
    destruct H as (_ & Ht). f_equal. apply (IH _ _ _ Ht). cbn [length] in Hf. lia.
Qed.

Fixpoint find_from (l : list Z) (idx v : Z) : Z :=
  match l with [] => -1 | x :: tl => if x =? v then idx else find_from tl (idx + 1) v end.

Lemma find_loop_collect : forall fuel h cur idx v,
  v_find_loop fuel h cur idx v =
  find_from (List.map (fun n => v_data h (Some n)) (v_collect fuel h cur)) idx v.
Proof.
  induction fuel as [|fu IH]; intros h [n|] idx v; cbn [v_find_loop v_collect List.map find_from]; auto.
  rewrite IH. reflexivity.
Qed.

Lemma dtor_loop_collect : forall fuel h cur, v_dtor_loop fuel h cur = List.map Free (v_collect fuel h cur).
Proof.
  induction fuel as [|fu IH]; intros h [n|]; cbn [v_dtor_loop v_collect List.map]; auto.
  rewrite IH. reflexivity.
Qed.

Lemma split_at : forall (ns : nodes) k, (k < length ns)%nat ->
  exists a c x b, ns = a ++ (c, x) :: b /\ length a = k.
Proof.
  induction ns as [|[n y] tl IH]; intros k Hk; [cbn in Hk; lia|].
  destruct k as [|k].
  - exists [], n, y, tl. split; reflexivity.
  - destruct (IH k) as (a & c & x & b & E & L); [cbn [length] in Hk; lia|].
    exists ((n, y) :: a), c, x, b. subst. split; reflexivity.
Qed.

Lemma skipn_length_app : forall A (a l : list A), skipn (length a) (a ++ l) = l.
Proof. induction a; intros; cbn; auto. Qed.
Lemma firstn_length_app : forall A (a l : list A), firstn (length a) (a ++ l) = a.
Proof. induction a; intros; cbn; auto. f_equal. auto. Qed.
Lemma nth_length_app : forall A (a : list A) x l d, nth (length a) (a ++ x :: l) d = x.
Proof. induction a; intros; cbn; auto. Qed.

Lemma nlast_app : forall (a b : nodes), b <> [] -> nlast (a ++ b) = nlast b.
Proof.
  induction a as [|[n x] a IH]; intros b Hb; auto.
  cbn [app nlast]. destruct (a ++ b) eqn:E.
  - destruct a; destruct b; try discriminate; congruence.
  - rewrite <- E. apply IH, Hb.
Qed.

Lemma nvals_length : forall ns, length (nvals ns) = length ns.
Proof. intros. unfold nvals. apply map_length. Qed.

(* the node at index |a|: the walk from the front reaches it, and its record is known *)
Lemma vrep_node : forall s a c x b, vrep s (a ++ (c, x) :: b) ->
  v_walk (vh s) (vfront s) (length a) = Some c /\ vh s c = Some (mkv (nlast a) (nhd b) x).
Proof.
  intros s a c x b (Hc & Hf & _). split.
  - rewrite Hf, <- nhd_or_None, (walk_dseg _ _ _ _ _ Hc) by (rewrite app_length; lia).
    rewrite skipn_length_app. reflexivity.
  - apply dseg_app in Hc. destruct Hc as (_ & Hc & _). rewrite nlast_or_None in Hc. exact Hc.
Qed.

Lemma vrep_at : forall s ns i, vrep s ns ->
  v_at s i = if (i <? 0) || (i >=? Z.of_nat (length ns)) then 0 else nth (Z.to_nat i) (nvals ns) 0.
Proof.
  intros s ns i R. pose proof R as (_ & Hf & _ & Hl & _). unfold v_at. rewrite Hl.
  destruct (Z.ltb_spec i 0); cbn [orb]; auto.
  rewrite Z.geb_leb. destruct (Z.leb_spec (Z.of_nat (length ns)) i); auto.
  destruct (split_at ns (Z.to_nat i)) as (a & c & x & b & -> & <-); [lia|].
  destruct (vrep_node s a c x b R) as (Hw & Hr).
  rewrite Hw, Hf. unfold v_data. rewrite Hr, nvals_app. change (nvals ((c, x) :: b)) with (x :: nvals b).
  rewrite <- (nvals_length a), nth_length_app.
  destruct a as [|[n y] a']; reflexivity.
Qed.

(* Unlinking a node
   pop_front, pop_back and the general path of delete_at do the same thing to the heap: the
   predecessor's next and the successor's prev (where they exist) are bent around the node, then the
   node is freed. *)
Definition v_unlink (h : nat -> option vnode) (pv : option nat) (c : nat) (nx : option nat) : nat -> option vnode :=
  let h1 := match pv with Some pl => v_set_next h pl nx | None => h end in
  let h2 := match nx with Some g => v_set_prev h1 g pv | None => h1 end in
  upd h2 c None.

Lemma dseg_unlink : forall h a c x b,
  dseg h None (a ++ (c, x) :: b) None -> NoDup (nids (a ++ (c, x) :: b)) ->
  dseg (v_unlink h (nlast a) c (nhd b)) None (a ++ b) None.
Proof.
  intros h a c x b H D.
  apply dseg_app in H. destruct H as (Ha & _ & Hb).
  rewrite nids_app in D. destruct (nodup_app_inv _ _ D) as (Da & Dcb & Dab).
  change (nids ((c, x) :: b)) with (c :: nids b) in Dcb, Dab. inversion Dcb as [|? ? Dc Db]; subst.
  unfold v_unlink. apply dseg_app. rewrite nlast_or_None. split.
  - apply dseg_frame; [intro Hca; exact (Dab c Hca (or_introl eq_refl))|].
    apply dseg_frame_start; [intros m Hmb Hma; exact (Dab m Hma (or_intror Hmb))|].
    apply (dseg_set_end _ _ _ _ _ Ha Da).
  - apply dseg_frame; [exact Dc|].
    apply dseg_set_start with (p := Some c); [|exact Db].
    apply dseg_frame_end; [intros m Hma Hmb; exact (Dab m Hma (or_intror Hmb))|exact Hb].
Qed.

Lemma vrep_unlink : forall s a c x b fr bk,
  vrep s (a ++ (c, x) :: b) -> fr = nhd (a ++ b) -> bk = nlast (a ++ b) ->
  vrep (mkvector (v_unlink (vh s) (nlast a) c (nhd b)) fr bk (vlength s - 1) (vnxt s)) (a ++ b).
Proof.
  intros s a c x b fr bk (Hc & Hf & Hb & Hl & Hok) -> ->.
  destruct (alloc_ok_remove _ _ _ _ _ Hok) as (Hok' & _).
  apply vrep_intro; cbn [vh vfront vback vlength vnxt]; auto.
  - apply (dseg_unlink _ _ _ x); [exact Hc|apply Hok].
  - rewrite Hl, !app_length. cbn [length]. lia.
Qed.

Lemma vrep_pop_front : forall s f x tl, vrep s ((f, x) :: tl) -> vrep (v_pop_front s) tl.
Proof.
  intros s f x tl R. destruct (vrep_node s [] f x tl R) as (_ & Hr). pose proof R as (_ & Hf & Hb & _).
  unfold v_pop_front, v_next. rewrite Hf. cbn [nhd]. rewrite Hr. cbn [vnext].
  destruct tl as [|[g y] tl']; cbn [nhd].
  - exact (vrep_unlink s [] f x [] None None R eq_refl eq_refl).
  - exact (vrep_unlink s [] f x ((g, y) :: tl') _ _ R eq_refl Hb).
Qed.

Lemma vrep_pop_back : forall s a r x, vrep s (a ++ [(r, x)]) -> vrep (v_pop_back s) a.
Proof.
  intros s a r x R. destruct (vrep_node s a r x [] R) as (_ & Hr). pose proof R as (_ & Hf & Hb & _).
  rewrite nlast_snoc in Hb. unfold v_pop_back, v_prev. rewrite Hb, Hr. cbn [vprev].
  pose proof (vrep_unlink s a r x []) as U. rewrite app_nil_r in U.
  destruct (snoc_cases a) as [->|(a0 & p & y & ->)].
  - exact (U None None R eq_refl eq_refl).
  - rewrite nlast_snoc in *. apply (U _ _ R); [|reflexivity].
    rewrite Hf. apply nhd_snoc. destruct a0; discriminate.
Qed.

(* delete_at at any valid index k: ns = a ++ (c,x) :: b with |a| = k *)
Lemma vrep_delete_at : forall s a c x b, vrep s (a ++ (c, x) :: b) ->
  vrep (v_delete_at s (Z.of_nat (length a))) (a ++ b) /\
  v_delete_log s (Z.of_nat (length a)) = [Free c].
Proof.
  intros s a c x b R. pose proof R as (_ & Hf & Hb & Hl & _).
  destruct (vrep_node s a c x b R) as (Hw & Hr).
  rewrite app_length in Hl. cbn [length] in Hl.
  unfold v_delete_at, v_delete_log.
  destruct (Z.ltb_spec (Z.of_nat (length a)) 0); [lia|]. cbn [orb].
  rewrite Z.geb_leb. destruct (Z.leb_spec (vlength s) (Z.of_nat (length a))); [lia|].
  destruct (Z.eqb_spec (Z.of_nat (length a)) 0) as [E0|E0].
  { (* index 0: pop_front *)
    destruct a; [|cbn [length] in E0; lia].
    split; [apply (vrep_pop_front s c x b R)|]. rewrite Hf. reflexivity. }
  destruct (Z.eqb_spec (Z.of_nat (length a)) (vlength s - 1)) as [E1|E1].
  { (* last index: pop_back *)
    destruct b; [|cbn [length] in Hl; lia]. rewrite app_nil_r.
    split; [apply (vrep_pop_back s a c x R)|]. rewrite Hb, nlast_snoc. reflexivity. }
  (* in between: the general path is [v_unlink] as it stands; front and back stay *)
  rewrite Nat2Z.id, Hw. unfold v_prev, v_next. rewrite Hr. cbn [vprev vnext].
  split; [|reflexivity]. apply (vrep_unlink s a c x b _ _ R).
  - rewrite Hf. destruct a; [cbn [length] in E0; lia|reflexivity].
  - rewrite Hb. destruct b; [cbn [length] in Hl; lia|]. rewrite !nlast_app by discriminate. reflexivity.
Qed.

Lemma nvals_firstn_skipn : forall a c x b,
  firstn (length a) (nvals (a ++ (c, x) :: b)) ++ skipn (S (length a)) (nvals (a ++ (c, x) :: b)) = nvals (a ++ b).
Proof.
  induction a as [|[n y] a IH]; intros; cbn [app length nvals List.map snd firstn skipn]; auto.
  f_equal. apply IH.
Qed.

Lemma keys_dseg : forall ns h p e, dseg h p ns e ->
  List.map (fun n => v_data h (Some n)) (nids ns) = nvals ns.
Proof.
  induction ns as [|[n x] tl IH]; intros h p e H; [reflexivity|].
  cbn [nids nvals List.map fst snd].
  destruct (dseg_lookup_first _ _ _ _ _ _ H) as (Hd & _). rewrite Hd. f_equal.
  destruct H as (_ & Ht). apply (IH _ _ _ Ht).
Qed.

Lemma set_links_other : forall h n p nx m, m <> n -> v_set_links h n p nx m = h m.
Proof. intros. unfold v_set_links. destruct (h n); auto. apply upd_other; auto. Qed.
Lemma set_links_data : forall h n p nx m, v_data (v_set_links h n p nx) (Some m) = v_data h (Some m).
Proof.
  intros. unfold v_set_links, v_data. destruct (h n) eqn:E; auto.
  unfold upd. destruct (Nat.eqb_spec m n); auto. subst. rewrite E. reflexivity.
Qed.
Lemma relink_other : forall arr h p m, ~ In m arr -> v_relink h p arr m = h m.
Proof.
  induction arr as [|n tl IH]; intros h p m Hm; [reflexivity|].
  cbn [v_relink]. rewrite IH by (intro; apply Hm; right; auto).
  apply set_links_other. intro; subst. apply Hm. left. reflexivity.
Qed.
Lemma relink_data : forall arr h p m, v_data (v_relink h p arr) (Some m) = v_data h (Some m).
Proof.
  induction arr as [|n tl IH]; intros h p m; [reflexivity|].
  cbn [v_relink]. rewrite IH. apply set_links_data.
Qed.

Lemma hd_ptr_map : forall (tl : list nat) (k : nat -> Z),
  nhd_or None (List.map (fun n => (n, k n)) tl) = hd_ptr tl.
Proof. destruct tl; reflexivity. Qed.

(* [k] gives the data of the blocks of [arr]; relinking reads it and leaves it alone *)
Lemma relink_dseg : forall arr h p k, NoDup arr ->
  (forall n, In n arr -> exists pv nx, h n = Some (mkv pv nx (k n))) ->
  dseg (v_relink h p arr) p (List.map (fun n => (n, k n)) arr) None.
Proof.
  induction arr as [|n tl IH]; intros h p k Hd Hin; [exact I|].
  inversion Hd as [|? ? Hn Hd']; subst.
  cbn [v_relink List.map dseg]. split.
  - rewrite relink_other by exact Hn. rewrite hd_ptr_map. unfold v_set_links.
    destruct (Hin n (or_introl eq_refl)) as (pv & nx & E). rewrite E. apply upd_same.
  - apply IH; [exact Hd'|]. intros m Hm.
    rewrite set_links_other by (intro; subst; auto). apply Hin. right. exact Hm.
Qed.

Lemma find_back_dseg : forall tl h p n x fuel, dseg h p ((n, x) :: tl) None -> (length tl < fuel)%nat ->
  v_find_back fuel h n = nlast ((n, x) :: tl).
Proof.
  induction tl as [|[g y] tl IH]; intros h p n x fuel H Hf; (destruct fuel as [|fu]; [lia|]).
  - cbn [v_find_back]. destruct (dseg_lookup_first _ _ _ _ _ _ H) as (_ & Hn & _). rewrite Hn. reflexivity.
  - cbn [v_find_back]. destruct (dseg_lookup_first _ _ _ _ _ _ H) as (_ & Hn & _). rewrite Hn.
    cbn [nhd_or]. destruct H as (_ & Ht). rewrite (IH _ _ _ _ _ Ht) by (cbn [length] in Hf; lia).
    reflexivity.
Qed.

Lemma dseg_present : forall ns h p e n, dseg h p ns e -> In n (nids ns) ->
  exists pv nx, h n = Some (mkv pv nx (v_data h (Some n))).
Proof.
  induction ns as [|[a y] tl IH]; intros h p e n H Hin; [destruct Hin|].
  destruct H as (Ha & Ht). destruct Hin as [<-|Hin]; [|eapply IH; eauto].
  cbn [fst]. unfold v_data. rewrite Ha. eauto.
Qed.

Lemma nids_map_pair : forall (l : list nat) (k : nat -> Z), nids (List.map (fun n => (n, k n)) l) = l.
Proof. induction l; intros; cbn; auto. f_equal. apply IHl. Qed.
Lemma nvals_map_pair : forall (l : list nat) (k : nat -> Z), nvals (List.map (fun n => (n, k n)) l) = List.map k l.
Proof. induction l; intros; cbn; auto. f_equal. apply IHl. Qed.

Lemma vrep_sort : forall s ns le, (forall x y, le x y = false -> le y x = true) -> vrep s ns ->
  exists ns', vrep (v_sort s le) ns' /\ nvals ns' = s_sort le (nvals ns) /\ Permutation (nids ns') (nids ns).
Proof.
  intros s ns le Htot R. pose proof R as (Hc & Hf & Hb & Hl & Hok). pose proof Hok as (Hd & _).
  unfold v_sort. destruct (Z.leb_spec (vlength s) 1) as [Hsmall|Hbig].
  - exists ns. split; [exact R|]. split; [|reflexivity].
    symmetry. apply s_sort_short. unfold nvals. rewrite map_length. lia.
  - rewrite Hl, Nat2Z.id, Hf, (collect_dseg _ _ _ _ Hc (le_n _)).
    set (key := fun n => v_data (vh s) (Some n)).
    set (arr := v_sort_ids le key (nids ns)).
    assert (Permutation arr (nids ns)) as Hp by (apply sort_perm).
    assert (NoDup arr) as Hda by (eapply Permutation_NoDup; [symmetry; exact Hp|exact Hd]).
    assert (forall n, In n arr -> exists pv nx, vh s n = Some (mkv pv nx (key n))) as Hpres.
    { intros n Hn. eapply dseg_present; [exact Hc|]. eapply Permutation_in; [exact Hp|exact Hn]. }
    pose proof (relink_dseg arr (vh s) None key Hda Hpres) as Hseg.
    set (ns' := List.map (fun n => (n, key n)) arr) in *.
    assert (length arr = length ns) as Hlen.
    { rewrite (Permutation_length Hp). unfold nids. apply map_length. }
    destruct arr as [|hd tl] eqn:Earr; [cbn [length] in Hlen; lia|].
    cbn [hd_ptr]. exists ns'. split; [|split].
    + apply vrep_intro; cbn [vh vfront vback vlength vnxt].
      * exact Hseg.
      * reflexivity.
      * unfold ns' in *. cbn [List.map] in *.
        rewrite (find_back_dseg _ _ _ _ _ _ Hseg) by (rewrite map_length; cbn [length]; lia).
        destruct (nlast_nonempty ((hd, key hd) :: List.map (fun n => (n, key n)) tl)) as (m & E); [discriminate|].
        unfold key in *. rewrite E. reflexivity.
      * unfold ns'. rewrite map_length, Hlen. reflexivity.
      * apply (alloc_ok_perm (vnxt s) _ ns _ Hok); [unfold ns'; rewrite nids_map_pair; exact Hp|lia].
    + unfold ns'. rewrite nvals_map_pair, <- Earr, <- (keys_dseg _ _ _ _ Hc).
      apply (sort_map le (fun x => x) key).
    + unfold ns'. rewrite nids_map_pair. exact Hp.
Qed.

Lemma clear_loop_vrep : forall ns s fuel, vrep s ns -> (length ns <= fuel)%nat ->
  exists s', v_clear_loop fuel s = (s', List.map Free (nids ns)) /\ vrep s' [] /\ vnxt s' = vnxt s.
Proof.
  induction ns as [|[f x] tl IH]; intros s fuel R Hfuel.
  - destruct R as (Hc & Hf & Hrest). exists s. split; [|split; [repeat split; tauto|reflexivity]].
    destruct fuel; cbn [v_clear_loop]; auto. rewrite Hf. reflexivity.
  - destruct fuel as [|fu]; [cbn in Hfuel; lia|].
    pose proof (vrep_pop_front s f x tl R) as R'.
    destruct (IH (v_pop_front s) fu R') as (s' & E & R'' & Hn); [cbn [length] in Hfuel; lia|].
    destruct R as (_ & Hf & _). cbn [nhd] in Hf.
    cbn [v_clear_loop]. rewrite Hf, E. exists s'. split; [reflexivity|]. split; auto.
    rewrite Hn. unfold v_pop_front. rewrite Hf. destruct (v_next (vh s) (Some f)); reflexivity.
Qed.

Definition vs_step (l : list Z) (o : vop) : list Z :=
  match o with
  | VPushBack v => l ++ [v]
  | VPushFront v => v :: l
  | VPopBack => removelast l
  | VPopFront => tl l
  | VDeleteAt i => if (i <? 0) || (i >=? Z.of_nat (length l)) then l
                   else firstn (Z.to_nat i) l ++ skipn (S (Z.to_nat i)) l
  | VSort | VSmaller => s_sort z_le l
  | VGreater => s_sort z_ge l
  | VClear => []
  | _ => l
  end.
Definition vs_res (l : list Z) (o : vop) : res :=
  match o with
  | VAt i => RInt (if (i <? 0) || (i >=? Z.of_nat (length l)) then 0 else nth (Z.to_nat i) l 0)
  | VFind v => RInt (find_from l 0 v)
  | VLength => RInt (Z.of_nat (length l))
  | VIsEmpty => RBool (match l with [] => true | _ => false end)
  | _ => RUnit
  end.
Fixpoint vs_run (ops : list vop) (l : list Z) : list Z :=
  match ops with [] => l | o :: r => vs_run r (vs_step l o) end.
Fixpoint vs_run_res (ops : list vop) (l : list Z) : list res :=
  match ops with [] => [] | o :: r => vs_res l o :: vs_run_res r (vs_step l o) end.

Lemma nvals_removelast : forall a r x, removelast (nvals (a ++ [(r, x)])) = nvals a.
Proof. intros. rewrite nvals_app. cbn [nvals List.map snd]. apply removelast_last. Qed.

Lemma replay_sort_log : forall live n, ~ In n live -> ~ In (S n) live ->
  replay live [Malloc n; Malloc (S n); Free (S n); Free n] = Some live.
Proof.
  intros live n H1 H2. apply mem_notIn in H1, H2.
  assert (Nat.eqb (S n) n = false) as E by (apply Nat.eqb_neq; lia).
  cbn [replay mem remove1]. rewrite H1, E, H2, !Nat.eqb_refl. cbn [orb remove1 mem].
  rewrite !Nat.eqb_refl. reflexivity.
Qed.

(* sort / smaller / greater: the node array and the temporary array come and go *)
Lemma sort_refines : forall s ns le live, (forall x y, le x y = false -> le y x = true) ->
  vrep s ns -> Permutation live (nids ns) ->
  exists ns', vrep (v_sort s le) ns' /\ nvals ns' = s_sort le (nvals ns) /\
              replay live (v_sort_log s) = Some live /\ Permutation live (nids ns').
Proof.
  intros s ns le live Htot R P. destruct (vrep_sort s ns le Htot R) as (ns' & R' & V & Pn).
  exists ns'. split; [exact R'|]. split; [exact V|]. split; [|rewrite P; symmetry; exact Pn].
  destruct R as (_ & _ & _ & _ & Hok).
  unfold v_sort_log. destruct (vlength s <=? 1); [reflexivity|].
  apply replay_sort_log; apply (alloc_ok_fresh _ _ _ _ Hok P); lia.
Qed.

Lemma v_step_refines : forall s ns o live, vrep s ns -> Permutation live (nids ns) ->
  exists ns' live',
    vrep (v_step s o) ns' /\ nvals ns' = vs_step (nvals ns) o /\ v_res s o = vs_res (nvals ns) o /\
    replay live (v_log s o) = Some live' /\ Permutation live' (nids ns').
Proof.
  intros s ns o live R P.
  pose proof R as (Hc & Hf & Hb & Hl & Hok). pose proof Hok as (_ & _ & Hle).
  pose proof (alloc_ok_fresh _ _ _ (vnxt s) Hok P (le_n _)) as Hfresh.
  destruct o; cbn [v_step v_res v_log vs_step vs_res].
  - (* push_back *)
    exists (ns ++ [(vnxt s, v)]), (vnxt s :: live). split; [apply vrep_push_back; exact R|].
    split; [apply nvals_app|]. split; [reflexivity|]. split.
    + apply replay_malloc, Hfresh.
    + rewrite nids_app. cbn [nids List.map fst]. rewrite P. apply Permutation_cons_append.
  - (* push_front *)
    exists ((vnxt s, v) :: ns), (vnxt s :: live). split; [apply vrep_push_front; exact R|].
    split; [reflexivity|]. split; [reflexivity|]. split.
    + apply replay_malloc, Hfresh.
    + cbn [nids List.map fst]. constructor. exact P.
  - (* pop_back *)
    destruct (snoc_cases ns) as [->|(a & r & x & ->)].
    + cbn [nlast] in Hb. unfold v_pop_back. rewrite Hb. exists [], live.
      split; [exact R|]. repeat split; auto.
    + rewrite Hb, nlast_snoc.
      destruct (replay_free r live (nids a)) as (l1 & E1 & P1).
      { rewrite P, nids_app. cbn [nids List.map fst]. symmetry. apply Permutation_cons_append. }
      exists a, l1. split; [apply (vrep_pop_back s a r x R)|].
      split; [symmetry; apply nvals_removelast|]. split; [reflexivity|]. split; [exact E1|exact P1].
  - (* pop_front *)
    destruct ns as [|[f x] tl].
    + cbn [nhd] in Hf. unfold v_pop_front. rewrite Hf. exists [], live.
      split; [exact R|]. repeat split; auto.
    + rewrite Hf. cbn [nhd].
      destruct (replay_free f live (nids tl)) as (l1 & E1 & P1); [exact P|].
      exists tl, l1. split; [apply (vrep_pop_front s f x tl R)|].
      split; [reflexivity|]. split; [reflexivity|]. split; [exact E1|exact P1].
  - (* delete_at *)
    rewrite nvals_length.
    destruct ((i <? 0) || (i >=? Z.of_nat (length ns))) eqn:G.
    + exists ns, live. unfold v_delete_at, v_delete_log. rewrite Hl, G.
      split; [exact R|]. repeat split; auto.
    + apply orb_false_iff in G. destruct G as (G1 & G2).
      apply Z.ltb_ge in G1. rewrite Z.geb_leb in G2. apply Z.leb_gt in G2.
      assert (Z.to_nat i < length ns)%nat as Hk by lia.
      destruct (split_at ns _ Hk) as (a & c & x & b & E & L). subst ns.
      destruct (vrep_delete_at s a c x b R) as (R' & Lg).
      rewrite L, Z2Nat.id in R', Lg by lia. rewrite Lg.
      destruct (replay_free c live (nids (a ++ b))) as (l1 & E1 & P1).
      { rewrite P, !nids_app. cbn [nids List.map fst]. symmetry. apply Permutation_middle. }
      exists (a ++ b), l1. split; [exact R'|].
      split; [rewrite <- L; symmetry; apply nvals_firstn_skipn|].
      split; [reflexivity|]. split; [exact E1|exact P1].
  - (* at *)
    exists ns, live. split; [exact R|]. split; [reflexivity|]. split.
    + rewrite (vrep_at s ns i R), nvals_length. reflexivity.
    + split; [reflexivity|exact P].
  - (* find *)
    exists ns, live. split; [exact R|]. split; [reflexivity|]. split.
    + rewrite find_loop_collect, Hf, (collect_dseg _ _ _ _ Hc Hle), (keys_dseg _ _ _ _ Hc). reflexivity.
    + split; [reflexivity|exact P].
  - (* sort *)
    destruct (sort_refines s ns z_le live z_le_total R P) as (ns' & R' & V & E & P').
    exists ns', live. split; [exact R'|]. repeat split; auto.
  - (* smaller *)
    destruct (sort_refines s ns z_le live z_le_total R P) as (ns' & R' & V & E & P').
    exists ns', live. split; [exact R'|]. repeat split; auto.
  - (* greater *)
    destruct (sort_refines s ns z_ge live z_ge_total R P) as (ns' & R' & V & E & P').
    exists ns', live. split; [exact R'|]. repeat split; auto.
  - (* get_length *)
    exists ns, live. split; [exact R|]. repeat split; auto. rewrite Hl, nvals_length. reflexivity.
  - (* is_empty *)
    exists ns, live. split; [exact R|]. repeat split; auto. rewrite Hl. f_equal. apply length_zero_bool.
  - (* clear *)
    destruct (clear_loop_vrep ns s (vnxt s) R Hle) as (s' & E & R' & Hn).
    rewrite E. cbn [fst snd].
    exists [], []. split; [exact R'|]. repeat split; auto using replay_free_all.
Qed.

Lemma v_run_refines : forall ops s ns live, vrep s ns -> Permutation live (nids ns) ->
  exists ns' live',
    vrep (v_run ops s) ns' /\ nvals ns' = vs_run ops (nvals ns) /\
    v_run_res ops s = vs_run_res ops (nvals ns) /\
    replay live (v_run_log ops s) = Some live' /\ Permutation live' (nids ns').
Proof.
  induction ops as [|o ops IH]; intros s ns live R P; cbn [v_run vs_run v_run_res vs_run_res v_run_log].
  - exists ns, live. split; [exact R|]. repeat split; auto.
  - destruct (v_step_refines s ns o live R P) as (ns1 & l1 & R1 & V1 & Rs1 & E1 & P1).
    destruct (IH _ _ _ R1 P1) as (ns2 & l2 & R2 & V2 & Rs2 & E2 & P2).
    exists ns2, l2. rewrite V1 in *. split; [exact R2|]. split; [exact V2|].
    split; [rewrite Rs1, Rs2; reflexivity|]. split; [rewrite replay_app, E1; exact E2|exact P2].
Qed.
