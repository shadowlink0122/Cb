(* C19 - the pointer-level Queue model (LinkedModel.v) refines a FIFO list; its malloc/free log is sound. *)
From Coq Require Import ZArith List Lia Permutation.
From Cb Require Import C19.Model C19.LinkedModel C19.Log.
Import ListNotations.
Local Open Scope Z_scope.

Definition nodes := list (nat * Z).
Definition nhd (ns : nodes) : option nat := match ns with [] => None | (n, _) :: _ => Some n end.
Fixpoint nlast (ns : nodes) : option nat :=
  match ns with [] => None | (n, _) :: tl => match tl with [] => Some n | _ => nlast tl end end.
Definition nids (ns : nodes) : list nat := List.map fst ns.
Definition nvals (ns : nodes) : list Z := List.map snd ns.

Lemma upd_same : forall A (h : nat -> option A) n x, upd h n x n = x.
Proof. intros. unfold upd. rewrite Nat.eqb_refl. reflexivity. Qed.
Lemma upd_other : forall A (h : nat -> option A) n x m, m <> n -> upd h n x m = h m.
Proof. intros. unfold upd. destruct (Nat.eqb_spec m n); congruence. Qed.

Lemma nlast_snoc : forall ns n x, nlast (ns ++ [(n, x)]) = Some n.
Proof.
  induction ns as [|[a y] ns IH]; intros; cbn [app nlast]; auto.
  destruct (ns ++ [(n, x)]) eqn:E; [destruct ns; discriminate|]. rewrite <- E. apply IH.
Qed.
Lemma nhd_snoc : forall ns p, ns <> [] -> nhd (ns ++ [p]) = nhd ns.
Proof. destruct ns; intros; [congruence|reflexivity]. Qed.
Lemma snoc_cases : forall (ns : nodes), ns = [] \/ exists ns0 r x, ns = ns0 ++ [(r, x)].
Proof.
  induction ns as [|[a y] ns IH]; [left; auto|right].
  destruct IH as [->|(ns0 & r & x & ->)].
  - exists [], a, y. reflexivity.
  - exists ((a, y) :: ns0), r, x. reflexivity.
Qed.

(* The allocator hands out block [nxt] next: the nodes of a container are distinct blocks below it.
   These are the last three clauses of [qrep] and of [vrep]. *)
Definition alloc_ok (nxt : nat) (ns : nodes) : Prop :=
  NoDup (nids ns) /\ Forall (fun n => (n < nxt)%nat) (nids ns) /\ (length ns <= nxt)%nat.

Lemma nids_app : forall a b, nids (a ++ b) = nids a ++ nids b.
Proof. intros. unfold nids. apply map_app. Qed.

Lemma alloc_ok_nil : forall nxt, alloc_ok nxt [].
Proof. intros. repeat split; [constructor|constructor|apply Nat.le_0_l]. Qed.

Lemma alloc_ok_fresh : forall nxt ns live k, alloc_ok nxt ns -> Permutation live (nids ns) ->
  (nxt <= k)%nat -> ~ In k live.
Proof.
  intros nxt ns live k (_ & F & _) P Hk Hin. rewrite Forall_forall in F.
  specialize (F k (Permutation_in _ P Hin)). lia.
Qed.

Lemma alloc_ok_next_unused : forall nxt ns, alloc_ok nxt ns -> ~ In nxt (nids ns).
Proof. intros nxt ns Hok. exact (alloc_ok_fresh _ _ _ _ Hok (Permutation_refl _) (le_n _)). Qed.

Lemma alloc_ok_cons : forall nxt v ns, alloc_ok nxt ns -> alloc_ok (S nxt) ((nxt, v) :: ns).
Proof.
  intros nxt v ns Hok. pose proof (alloc_ok_next_unused _ _ Hok) as Hfresh.
  destruct Hok as (D & F & L).
  repeat split; cbn [nids List.map fst length].
  - constructor; assumption.
  - constructor; [lia|]. eapply Forall_impl; [|exact F]. cbn. intros; lia.
  - lia.
Qed.

Lemma alloc_ok_perm : forall nxt nxt' ns ns', alloc_ok nxt ns ->
  Permutation (nids ns') (nids ns) -> (nxt <= nxt')%nat -> alloc_ok nxt' ns'.
Proof.
  intros nxt nxt' ns ns' (D & F & L) P Hn. repeat split.
  - eapply Permutation_NoDup; [symmetry; exact P|exact D].
  - rewrite Forall_forall in *. intros x Hx. specialize (F x (Permutation_in _ P Hx)). lia.
  - apply Permutation_length in P. unfold nids in P. rewrite !map_length in P. lia.
Qed.

Lemma alloc_ok_snoc : forall nxt v ns, alloc_ok nxt ns -> alloc_ok (S nxt) (ns ++ [(nxt, v)]).
Proof.
  intros nxt v ns Hok. apply (alloc_ok_perm _ _ _ _ (alloc_ok_cons nxt v ns Hok)); [|lia].
  rewrite nids_app. symmetry. apply Permutation_cons_append.
Qed.

Lemma alloc_ok_remove : forall nxt a c x b, alloc_ok nxt (a ++ (c, x) :: b) ->
  alloc_ok nxt (a ++ b) /\ ~ In c (nids (a ++ b)).
Proof.
  intros nxt a c x b (D & F & L). unfold alloc_ok. rewrite !nids_app in *. cbn [nids List.map fst] in D, F. fold (nids b) in *.
  apply NoDup_remove in D. destruct D as (D & Hc).
  apply Forall_app in F. destruct F as (Fa & Fb). inversion Fb; subst.
  rewrite app_length in *. cbn [length] in L.
  repeat split; auto; [apply Forall_app; split; assumption|lia].
Qed.

Fixpoint qchain (h : nat -> option qnode) (ns : nodes) : Prop :=
  match ns with
  | [] => True
  | (n, x) :: tl => h n = Some (mkq x (nhd tl)) /\ qchain h tl
  end.

Lemma qchain_frame : forall h n x ns, ~ In n (nids ns) -> qchain h ns -> qchain (upd h n x) ns.
Proof.
  induction ns as [|[a y] ns IH]; cbn [qchain nids List.map In fst]; auto.
  intros Hn (Ha & Hc). split; [rewrite upd_other; auto|apply IH; auto].
Qed.

Lemma qchain_last : forall h ns r x, qchain h (ns ++ [(r, x)]) -> h r = Some (mkq x None).
Proof.
  induction ns as [|[a y] ns IH]; cbn [app qchain]; intros r x H.
  - destruct H. auto.
  - destruct H. eauto.
Qed.

Lemma qchain_snoc : forall h ns r x n v,
  qchain h (ns ++ [(r, x)]) -> NoDup (nids (ns ++ [(r, x)])) -> ~ In n (nids (ns ++ [(r, x)])) ->
  qchain (upd (upd h n (Some (mkq v None))) r (Some (mkq x (Some n)))) ((ns ++ [(r, x)]) ++ [(n, v)]).
Proof.
  induction ns as [|[a y] ns IH]; intros r x n v Hc Hd Hn.
  - cbn [app qchain nhd] in *. cbn [nids List.map fst In] in Hn.
    split; [apply upd_same|]. split; auto.
    rewrite upd_other by (intro; subst; tauto). apply upd_same.
  - cbn [app qchain] in *. destruct Hc as (Ha & Hc).
    cbn [nids List.map fst] in Hd, Hn. inversion Hd as [|? ? Hna Hd']; subst.
    cbn [In] in Hn.
    split.
    + rewrite upd_other.
      * rewrite upd_other by (intro; subst; tauto). rewrite Ha. f_equal. f_equal.
        symmetry. apply nhd_snoc. destruct ns; discriminate.
      * intro; subst. apply Hna. unfold nids. rewrite map_app. apply in_or_app. right. left. reflexivity.
    + apply IH; auto.
Qed.

Definition qrep (q : queue) (ns : nodes) : Prop :=
  qchain (qh q) ns /\ qfront q = nhd ns /\ qrear q = nlast ns /\
  qlength q = Z.of_nat (length ns) /\ NoDup (nids ns) /\
  Forall (fun n => (n < qnxt q)%nat) (nids ns) /\ (length ns <= qnxt q)%nat.

Lemma qrep_intro : forall q ns,
  qchain (qh q) ns -> qfront q = nhd ns -> qrear q = nlast ns -> qlength q = Z.of_nat (length ns) ->
  alloc_ok (qnxt q) ns -> qrep q ns.
Proof. intros q ns Hc Hf Hr Hl Hok. exact (conj Hc (conj Hf (conj Hr (conj Hl Hok)))). Qed.

Lemma qrep_init : qrep queue_init [].
Proof. apply qrep_intro; [exact I|reflexivity|reflexivity|reflexivity|apply alloc_ok_nil]. Qed.

Lemma qrep_push : forall q ns v, qrep q ns -> qrep (q_push q v) (ns ++ [(qnxt q, v)]).
Proof.
  intros q ns v (Hc & Hf & Hr & Hl & Hok).
  pose proof (alloc_ok_next_unused _ _ Hok) as Hfresh. pose proof Hok as (Hd & _).
  assert (qlength q + 1 = Z.of_nat (length (ns ++ [(qnxt q, v)]))) as Hl'.
  { rewrite app_length. cbn [length]. lia. }
  unfold q_push. destruct (snoc_cases ns) as [->|(ns0 & r & x & ->)].
  - cbn [nlast] in Hr. rewrite Hr.
    apply qrep_intro; cbn [qh qfront qrear qlength qnxt]; auto using alloc_ok_snoc.
    split; [apply upd_same|exact I].
  - rewrite nlast_snoc in Hr. rewrite Hr.
    assert (r <> qnxt q) as Hne.
    { intro; subst. apply Hfresh. rewrite nids_app. apply in_or_app. right. left. reflexivity. }
    unfold q_set_next. rewrite upd_other by auto. rewrite (qchain_last _ _ _ _ Hc). cbn [qdata].
    apply qrep_intro; cbn [qh qfront qrear qlength qnxt]; auto using alloc_ok_snoc.
    + apply qchain_snoc; auto.
    + rewrite Hf. symmetry. apply nhd_snoc. destruct ns0; discriminate.
    + rewrite nlast_snoc. reflexivity.
Qed.

Lemma qrep_pop_cons : forall q f x tl, qrep q ((f, x) :: tl) ->
  q_pop_guard q = Some f /\ q_pop_res q = x /\ qrep (q_pop q) tl.
Proof.
  intros q f x tl (Hc & Hf & Hr & Hl & Hok).
  cbn [qchain] in Hc. destruct Hc as (Hn & Hc).
  assert (q_pop_guard q = Some f) as G.
  { unfold q_pop_guard. rewrite Hl, Hf. cbn [length nhd].
    destruct (Z.leb_spec (Z.of_nat (S (length tl))) 0); [lia|reflexivity]. }
  split; auto. split.
  - unfold q_pop_res. rewrite G. unfold q_data. rewrite Hn. reflexivity.
  - unfold q_pop. rewrite G. unfold q_next. rewrite Hn. cbn [qnext].
    destruct (alloc_ok_remove _ [] f x tl Hok) as (Hok' & Hft).
    apply qrep_intro; cbn [qh qfront qrear qlength qnxt]; auto.
    + apply qchain_frame; auto.
    + destruct tl as [|[a y] tl']; cbn [nhd]; auto.
    + rewrite Hl. cbn [length]. lia.
Qed.

Lemma qrep_pop_nil : forall q, qrep q [] -> q_pop_guard q = None.
Proof.
  intros q (Hc & Hf & Hr & Hl & _). unfold q_pop_guard. rewrite Hl. reflexivity.
Qed.

(* the free loop of clear / ~self(): frees every node once, front to rear *)
Lemma q_free_loop_chain : forall ns fuel h, (length ns <= fuel)%nat -> qchain h ns -> NoDup (nids ns) ->
  exists h', q_free_loop fuel h (nhd ns) = (h', None, List.map Free (nids ns)).
Proof.
  induction ns as [|[f x] tl IH]; intros fuel h Hfuel Hc Hd.
  - destruct fuel; cbn; eauto.
  - destruct fuel; [cbn in Hfuel; lia|].
    cbn [qchain] in Hc. destruct Hc as (Hn & Hc).
    cbn [nids List.map fst] in Hd. inversion Hd; subst.
    cbn [nhd q_free_loop]. unfold q_next at 1. rewrite Hn. cbn [qnext].
    destruct (IH fuel (upd h f None)) as (h' & E).
    + cbn [length] in Hfuel. lia.
    + apply qchain_frame; auto.
    + auto.
    + rewrite E. eexists. reflexivity.
Qed.

Definition qs_step (l : list Z) (o : qop) : list Z :=
  match o with QPush v => l ++ [v] | QPop => tl l | QClear => [] | _ => l end.
Definition qs_res (l : list Z) (o : qop) : res :=
  match o with
  | QPop | QTop => RInt (hd 0 l)
  | QEmpty | QIsEmpty => RBool (match l with [] => true | _ => false end)
  | QSize => RInt (Z.of_nat (length l))
  | _ => RUnit
  end.
Fixpoint qs_run (ops : list qop) (l : list Z) : list Z :=
  match ops with [] => l | o :: r => qs_run r (qs_step l o) end.
Fixpoint qs_run_res (ops : list qop) (l : list Z) : list res :=
  match ops with [] => [] | o :: r => qs_res l o :: qs_run_res r (qs_step l o) end.

Lemma nvals_app : forall a b, nvals (a ++ b) = nvals a ++ nvals b.
Proof. intros. unfold nvals. apply map_app. Qed.

Lemma length_zero_bool : forall ns : nodes,
  (Z.of_nat (length ns) =? 0) = match nvals ns with [] => true | _ => false end.
Proof. destruct ns; reflexivity. Qed.

Lemma q_step_refines : forall q ns o live, qrep q ns -> Permutation live (nids ns) ->
  exists ns' live',
    qrep (q_step q o) ns' /\ nvals ns' = qs_step (nvals ns) o /\ q_res q o = qs_res (nvals ns) o /\
    replay live (q_log q o) = Some live' /\ Permutation live' (nids ns').
Proof.
  intros q ns o live R P.
  pose proof R as (Hc & Hf & Hr & Hl & Hok). pose proof Hok as (Hd & _ & Hle).
  destruct o; cbn [q_step q_res q_log qs_step qs_res].
  - (* push *)
    exists (ns ++ [(qnxt q, v)]), (qnxt q :: live). split; [apply qrep_push; auto|].
    split; [apply nvals_app|]. split; auto. split.
    + apply replay_malloc, (alloc_ok_fresh _ _ _ _ Hok P), le_n.
    + rewrite nids_app, P. apply Permutation_cons_append.
  - (* pop *)
    destruct ns as [|[f x] tl].
    + rewrite (qrep_pop_nil q R). exists [], live. unfold q_pop, q_pop_res. rewrite (qrep_pop_nil q R).
      split; [exact R|]. repeat split; auto.
    + destruct (qrep_pop_cons q f x tl R) as (G & Rs & R').
      rewrite G. destruct (replay_free f live (nids tl)) as (l1 & E1 & P1); [exact P|].
      exists tl, l1. split; [exact R'|]. split; [reflexivity|]. split; [rewrite Rs; reflexivity|].
      split; [exact E1|exact P1].
  - (* top *)
    exists ns, live. split; [exact R|]. repeat split; auto.
    destruct ns as [|[f x] tl].
    + unfold q_pop_res. rewrite (qrep_pop_nil q R). reflexivity.
    + destruct (qrep_pop_cons q f x tl R) as (G & Rs & R'). rewrite Rs. reflexivity.
  - (* empty *)
    exists ns, live. split; [exact R|]. repeat split; auto. rewrite Hl. f_equal. apply length_zero_bool.
  - (* size *)
    exists ns, live. split; [exact R|]. repeat split; auto. rewrite Hl. unfold nvals. rewrite map_length. reflexivity.
  - (* clear *)
    destruct (q_free_loop_chain ns (qnxt q) (qh q) Hle Hc Hd) as (h' & E).
    rewrite <- Hf in E. rewrite E. cbn [snd].
    exists [], []. split; [|repeat split; auto using replay_free_all].
    apply qrep_intro; [exact I|reflexivity|reflexivity|reflexivity|apply alloc_ok_nil].
  - (* is_empty *)
    exists ns, live. split; [exact R|]. repeat split; auto. rewrite Hl. f_equal. apply length_zero_bool.
Qed.

Lemma q_run_refines : forall ops q ns live, qrep q ns -> Permutation live (nids ns) ->
  exists ns' live',
    qrep (q_run ops q) ns' /\ nvals ns' = qs_run ops (nvals ns) /\
    q_run_res ops q = qs_run_res ops (nvals ns) /\
    replay live (q_run_log ops q) = Some live' /\ Permutation live' (nids ns').
Proof.
  induction ops as [|o ops IH]; intros q ns live R P; cbn [q_run qs_run q_run_res qs_run_res q_run_log].
  - exists ns, live. split; [exact R|]. repeat split; auto.
  - destruct (q_step_refines q ns o live R P) as (ns1 & l1 & R1 & V1 & Rs1 & E1 & P1).
    destruct (IH _ _ _ R1 P1) as (ns2 & l2 & R2 & V2 & Rs2 & E2 & P2).
    exists ns2, l2. rewrite V1 in *. split; [exact R2|]. split; [exact V2|]. split; [rewrite Rs1, Rs2; reflexivity|].
    split; [rewrite replay_app, E1; exact E2|exact P2].
Qed.
