(* C19 - AVL invariant of the Map model: stored height = real height, |balance| <= 1, has_value set,
   preserved by rotate/rebalance/insert_to_node/remove_from_node; in-order contents unchanged by
   rotations; height bound fib (h+2) <= n+1. *)
From Coq Require Import ZArith List Lia.
From Cb Require Import C19.Model.
Import ListNotations.
Local Open Scope Z_scope.

Fixpoint elements (t : tree) : list (Z * Z) :=
  match t with Leaf => [] | Node l k v _ _ r _ => elements l ++ (k, v) :: elements r end.
Fixpoint ids (t : tree) : list nat :=
  match t with Leaf => [] | Node l _ _ _ _ r id => ids l ++ id :: ids r end.
Fixpoint size (t : tree) : nat :=
  match t with Leaf => O | Node l _ _ _ _ r _ => S (size l + size r) end.
Fixpoint rheight (t : tree) : nat :=
  match t with Leaf => O | Node l _ _ _ _ r _ => S (Nat.max (rheight l) (rheight r)) end.

(* the AVL invariant on STORED heights *)
Fixpoint avl (t : tree) : Prop :=
  match t with
  | Leaf => True
  | Node l _ _ hv h r _ =>
      avl l /\ avl r /\ h = 1 + Z.max (get_height l) (get_height r) /\
      -1 <= get_height l - get_height r <= 1 /\ hv = true
  end.

Lemma maxh_eq : forall a b, (if b >? a then b else a) = Z.max a b.
Proof. intros. destruct (Z.gtb_spec b a); lia. Qed.

Lemma avl_height_nonneg : forall t, avl t -> 0 <= get_height t.
Proof. induction t; cbn [avl get_height]; intros; [lia|]. destruct H as (Hl & Hr & Hh & _). specialize (IHt1 Hl). specialize (IHt2 Hr). lia. Qed.

Lemma avl_node_pos : forall l k v hv h r id, avl (Node l k v hv h r id) -> 1 <= h.
Proof. intros. cbn [avl] in H. destruct H as (Hl & Hr & Hh & _). apply avl_height_nonneg in Hl. apply avl_height_nonneg in Hr. lia. Qed.

Lemma height0_leaf : forall t, avl t -> get_height t = 0 -> t = Leaf.
Proof. destruct t; auto. intros H E. apply avl_node_pos in H. simpl in E. lia. Qed.

Lemma stored_height_is_real : forall t, avl t -> get_height t = Z.of_nat (rheight t).
Proof.
  induction t; cbn [avl get_height rheight]; intros; auto. destruct H as (Hl & Hr & Hh & _).
  rewrite Hh, (IHt1 Hl), (IHt2 Hr). lia.
Qed.

Lemma elements_update_height : forall t, elements (update_height t) = elements t.
Proof. destruct t; reflexivity. Qed.
Lemma ids_update_height : forall t, ids (update_height t) = ids t.
Proof. destruct t; reflexivity. Qed.
Lemma size_update_height : forall t, size (update_height t) = size t.
Proof. destruct t; reflexivity. Qed.

Lemma size_rotate_right : forall t, size (rotate_right t) = size t.
Proof.
  destruct t as [|x k v hv h r id]; auto. destruct x; auto. simpl. lia.
Qed.
Lemma size_rotate_left : forall t, size (rotate_left t) = size t.
Proof.
  destruct t as [|l k v hv h y id]; auto. destruct y; auto. simpl. lia.
Qed.

Lemma update_height_node : forall l k v hv h r id,
  update_height (Node l k v hv h r id) = Node l k v hv (Z.max (get_height l) (get_height r) + 1) r id.
Proof. intros. cbn [update_height]. rewrite maxh_eq. reflexivity. Qed.

Lemma rotate_right_node : forall xl xk xv xhv xh t2 xid k v hv h r id,
  rotate_right (Node (Node xl xk xv xhv xh t2 xid) k v hv h r id) =
  update_height (Node xl xk xv xhv xh (update_height (Node t2 k v hv h r id)) xid).
Proof. reflexivity. Qed.
Lemma rotate_left_node : forall l k v hv h t2 yk yv yhv yh yr yid id,
  rotate_left (Node l k v hv h (Node t2 yk yv yhv yh yr yid) id) =
  update_height (Node (update_height (Node l k v hv h t2 id)) yk yv yhv yh yr yid).
Proof. reflexivity. Qed.

Lemma rebalance_unfold : forall l k v hv h r id,
  rebalance (Node l k v hv h r id) =
  let h' := Z.max (get_height l) (get_height r) + 1 in
  if get_height l - get_height r >? 1 then
    match l with
    | Leaf => Node l k v hv h' r id
    | Node _ _ _ _ _ _ _ =>
        rotate_right (Node (if get_balance l <? 0 then rotate_left l else l) k v hv h' r id)
    end
  else if get_height l - get_height r <? -1 then
    match r with
    | Leaf => Node l k v hv h' r id
    | Node _ _ _ _ _ _ _ =>
        rotate_left (Node l k v hv h' (if get_balance r >? 0 then rotate_right r else r) id)
    end
  else Node l k v hv h' r id.
Proof. intros. unfold rebalance. cbn [update_height]. rewrite maxh_eq. reflexivity. Qed.

Lemma rotate_right_is_node : forall l k v hv h r id, exists l' k' v' hv' h' r' id',
  rotate_right (Node l k v hv h r id) = Node l' k' v' hv' h' r' id'.
Proof.
  intros. destruct l; [repeat eexists|]. rewrite rotate_right_node, update_height_node. repeat eexists.
Qed.
Lemma rotate_left_is_node : forall l k v hv h r id, exists l' k' v' hv' h' r' id',
  rotate_left (Node l k v hv h r id) = Node l' k' v' hv' h' r' id'.
Proof.
  intros. destruct r; [repeat eexists|]. rewrite rotate_left_node, update_height_node. repeat eexists.
Qed.

Lemma rebalance_node : forall l k v hv h r id, exists l' k' v' hv' h' r' id',
  rebalance (Node l k v hv h r id) = Node l' k' v' hv' h' r' id'.
Proof.
  intros. rewrite rebalance_unfold. cbv zeta.
  destruct (get_height l - get_height r >? 1).
  - destruct l; [repeat eexists|apply rotate_right_is_node].
  - destruct (get_height l - get_height r <? -1); [|repeat eexists].
    destruct r; [repeat eexists|apply rotate_left_is_node].
Qed.

(* Rotations keep every in-order observation: [elements] and [ids] are the two instances. *)
Section InOrder.
  Variables (A : Type) (f : tree -> list A) (g : Z -> Z -> nat -> A).
  Hypothesis f_node : forall l k v hv h r id, f (Node l k v hv h r id) = f l ++ g k v id :: f r.

  Lemma inorder_rotate_right : forall t, f (rotate_right t) = f t.
  Proof.
    destruct t as [|x k v hv h r id]; auto. destruct x; auto.
    cbn [rotate_right update_height]. rewrite !f_node, <- app_assoc. reflexivity.
  Qed.
  Lemma inorder_rotate_left : forall t, f (rotate_left t) = f t.
  Proof.
    destruct t as [|l k v hv h y id]; auto. destruct y; auto.
    cbn [rotate_left update_height]. rewrite !f_node, <- app_assoc. reflexivity.
  Qed.

  Lemma inorder_rebalance : forall t, f (rebalance t) = f t.
  Proof.
    destruct t as [|l k v hv h r id]; auto.
    rewrite rebalance_unfold. cbv zeta.
    destruct (get_height l - get_height r >? 1).
    - destruct l as [|ll lk lv lhv lh lr lid]; [rewrite !f_node; reflexivity|].
      rewrite inorder_rotate_right, !(f_node _ k). destruct (get_balance _ <? 0); auto.
      rewrite inorder_rotate_left. reflexivity.
    - destruct (get_height l - get_height r <? -1); [|rewrite !f_node; reflexivity].
      destruct r as [|rl rk rv rhv rh rr rid]; [rewrite !f_node; reflexivity|].
      rewrite inorder_rotate_left, !(f_node _ k). destruct (get_balance _ >? 0); auto.
      rewrite inorder_rotate_right. reflexivity.
  Qed.
End InOrder.

Lemma elements_rebalance : forall t, elements (rebalance t) = elements t.
Proof. apply (inorder_rebalance _ _ (fun k v _ => (k, v))). reflexivity. Qed.
Lemma ids_rebalance : forall t, ids (rebalance t) = ids t.
Proof. apply (inorder_rebalance _ _ (fun _ _ id => id)). reflexivity. Qed.
Lemma size_elements : forall t, size t = length (elements t).
Proof. induction t; simpl; auto. rewrite app_length. simpl. lia. Qed.
Lemma size_ids : forall t, size t = length (ids t).
Proof. induction t; simpl; auto. rewrite app_length. simpl. lia. Qed.

Lemma height_update_height : forall l k v hv h r id,
  get_height (update_height (Node l k v hv h r id)) = Z.max (get_height l) (get_height r) + 1.
Proof. intros. rewrite update_height_node. reflexivity. Qed.

Lemma avl_update_height : forall l k v hv h r id,
  avl l -> avl r -> hv = true -> -1 <= get_height l - get_height r <= 1 ->
  avl (update_height (Node l k v hv h r id)).
Proof. intros. rewrite update_height_node. cbn [avl]. repeat split; auto; lia. Qed.

Lemma rebalance_avl : forall l k v hv h r id,
  avl l -> avl r -> hv = true -> -2 <= get_height l - get_height r <= 2 ->
  let t' := rebalance (Node l k v hv h r id) in
  let m := Z.max (get_height l) (get_height r) in
  avl t' /\ m <= get_height t' <= m + 1 /\
  (-1 <= get_height l - get_height r <= 1 -> get_height t' = m + 1).
Proof.
  intros l k v hv h r id Hl Hr Hhv Hd. cbv zeta.
  pose proof (avl_height_nonneg _ Hl) as Pl. pose proof (avl_height_nonneg _ Hr) as Pr.
  rewrite rebalance_unfold. cbv zeta.
  destruct (Z.gtb_spec (get_height l - get_height r) 1) as [B1|B1].
  - destruct l as [|ll lk lv lhv lh lr lid]; [cbn [get_height] in *; lia|].
    cbn [avl] in Hl. destruct Hl as (Hll & Hlr & Hlh & Hlb & Hlhv).
    pose proof (avl_height_nonneg _ Hll) as Pll.
    cbn [get_height] in *. cbn [get_balance get_height].
    destruct (Z.ltb_spec (get_height ll - get_height lr) 0) as [B2|B2].
    + destruct lr as [|lrl lrk lrv lrhv lrh lrr lrid]; [cbn [get_height] in *; lia|].
      cbn [avl] in Hlr. destruct Hlr as (Hlrl & Hlrr & Hlrh & Hlrb & Hlrhv).
      cbn [get_height] in *.
      (* In a double rotation the order of the two heights under every max but the one of [lr] is
         known; resolving them first keeps the case analysis of lia small (each max doubles it). *)
      rewrite Z.max_r in Hlh by lia. rewrite (Z.max_l lh) by lia.
      assert (get_height lrl <= get_height ll /\ get_height lrr <= get_height r) as (O1 & O2) by lia.
      rewrite rotate_left_node, (update_height_node (update_height _)), rotate_right_node.
      rewrite !height_update_height, (Z.max_l _ _ O1), (Z.max_r _ _ O2).
      split; [|lia].
      apply avl_update_height; [apply avl_update_height; auto; lia | apply avl_update_height; auto; lia | auto |].
      rewrite !height_update_height, (Z.max_l _ _ O1), (Z.max_r _ _ O2). lia.
    + rewrite rotate_right_node. split; [|rewrite !height_update_height; lia].
      apply avl_update_height; [auto | apply avl_update_height; auto; lia | auto |].
      rewrite height_update_height; lia.
  - destruct (Z.ltb_spec (get_height l - get_height r) (-1)) as [B3|B3].
    + destruct r as [|rl rk rv rhv rh rr rid]; [cbn [get_height] in *; lia|].
      cbn [avl] in Hr. destruct Hr as (Hrl & Hrr & Hrh & Hrb & Hrhv).
      pose proof (avl_height_nonneg _ Hrr) as Prr.
      cbn [get_height] in *. cbn [get_balance get_height].
      destruct (Z.gtb_spec (get_height rl - get_height rr) 0) as [B4|B4].
      * destruct rl as [|rll rlk rlv rlhv rlh rlr rlid]; [cbn [get_height] in *; lia|].
        cbn [avl] in Hrl. destruct Hrl as (Hrll & Hrlr & Hrlh & Hrlb & Hrlhv).
        cbn [get_height] in *.
        rewrite Z.max_l in Hrh by lia. rewrite (Z.max_r _ rh) by lia.
        assert (get_height rll <= get_height l /\ get_height rlr <= get_height rr) as (O1 & O2) by lia.
        rewrite rotate_right_node, (update_height_node _ _ _ _ _ (update_height _)), rotate_left_node.
        rewrite !height_update_height, (Z.max_l _ _ O1), (Z.max_r _ _ O2).
        split; [|lia].
        apply avl_update_height; [apply avl_update_height; auto; lia | apply avl_update_height; auto; lia | auto |].
        rewrite !height_update_height, (Z.max_l _ _ O1), (Z.max_r _ _ O2). lia.
      * rewrite rotate_left_node. split; [|rewrite !height_update_height; lia].
        apply avl_update_height; [apply avl_update_height; auto; lia | auto | auto |].
        rewrite height_update_height; lia.
    + cbn [avl get_height]. repeat split; auto; lia.
Qed.

Lemma insert_avl : forall nid key value t, avl t ->
  avl (insert_to_node nid t key value) /\
  get_height t <= get_height (insert_to_node nid t key value) <= get_height t + 1.
Proof.
  intros nid key value. induction t as [|l IHl k v hv h r IHr id]; intros Ht.
  - cbn [insert_to_node avl get_height]. repeat split; auto; lia.
  - cbn [avl] in Ht. destruct Ht as (Hl & Hr & Hh & Hb & Hhv).
    cbn [insert_to_node].
    destruct (key =? k).
    { cbn [avl get_height]. repeat split; auto; lia. }
    destruct (key <? k).
    + destruct (IHl Hl) as (Al & Hgt).
      pose proof (rebalance_avl (insert_to_node nid l key value) k v hv h r id Al Hr Hhv) as R.
      cbv zeta in R. destruct R as (Ra & R1 & R2); [lia|].
      split; auto. cbn [get_height]. lia.
    + destruct (IHr Hr) as (Ar & Hgt).
      pose proof (rebalance_avl l k v hv h (insert_to_node nid r key value) id Hl Ar Hhv) as R.
      cbv zeta in R. destruct R as (Ra & R1 & R2); [lia|].
      split; auto. cbn [get_height]. lia.
Qed.

Lemma min_node_hv : forall t dk dv dhv, avl t -> dhv = true ->
  snd (min_node t dk dv dhv) = true.
Proof.
  induction t as [|l IHl k v hv h r IHr id]; intros; cbn [min_node]; auto.
  cbn [avl] in H. destruct H as (Hl & _ & _ & _ & Hhv). apply IHl; auto.
Qed.

Lemma remove_avl : forall t key, avl t ->
  avl (remove_from_node t key) /\
  get_height t - 1 <= get_height (remove_from_node t key) <= get_height t.
Proof.
  induction t as [|l IHl k v hv h r IHr id]; intros key Ht.
  - cbn [remove_from_node avl get_height]. repeat split; auto; lia.
  - pose proof Ht as Ht0. cbn [avl] in Ht. destruct Ht as (Hl & Hr & Hh & Hb & Hhv).
    pose proof (avl_height_nonneg _ Hl) as Pl. pose proof (avl_height_nonneg _ Hr) as Pr.
    cbn [remove_from_node].
    destruct (key <? k).
    { destruct (IHl key Hl) as (Al & Hgt).
      pose proof (rebalance_avl (remove_from_node l key) k v hv h r id Al Hr Hhv) as R.
      cbv zeta in R. destruct R as (Ra & R1 & R2); [lia|].
      split; auto. cbn [get_height]. lia. }
    destruct (key >? k).
    { destruct (IHr key Hr) as (Ar & Hgt).
      pose proof (rebalance_avl l k v hv h (remove_from_node r key) id Hl Ar Hhv) as R.
      cbv zeta in R. destruct R as (Ra & R1 & R2); [lia|].
      split; auto. cbn [get_height]. lia. }
    destruct l as [|ll lk lv lhv lh lr lid].
    { split; auto. cbn [get_height] in *. lia. }
    destruct r as [|rl rk rv rhv rh rr rid].
    { split; auto. pose proof (avl_node_pos _ _ _ _ _ _ _ Hl). cbn [get_height] in *. lia. }
    remember (Node ll lk lv lhv lh lr lid) as l.
    remember (Node rl rk rv rhv rh rr rid) as r.
    pose proof (min_node_hv r k v hv Hr Hhv) as Hm.
    destruct (min_node r k v hv) as [[sk sv] shv]. cbn [snd] in Hm.
    destruct (IHr sk Hr) as (Ar & Hgt).
    pose proof (rebalance_avl l sk sv shv h (remove_from_node r sk) id Hl Ar Hm) as R.
    cbv zeta in R. destruct R as (Ra & R1 & R2); [lia|].
    split; auto. cbn [get_height]. lia.
Qed.

Fixpoint fib (n : nat) : nat :=
  match n with
  | O => O
  | S m => match m with O => 1%nat | S p => (fib m + fib p)%nat end
  end.

Lemma fib_SS : forall n, fib (S (S n)) = (fib (S n) + fib n)%nat.
Proof. reflexivity. Qed.

Lemma fib_mono_S : forall n, (fib n <= fib (S n))%nat.
Proof.
  induction n; [simpl; lia|]. rewrite fib_SS. lia.
Qed.
Lemma fib_mono : forall a b, (a <= b)%nat -> (fib a <= fib b)%nat.
Proof.
  induction 1; auto. etransitivity; [eassumption|apply fib_mono_S].
Qed.

(* balance on REAL heights *)
Fixpoint rbalanced (t : tree) : Prop :=
  match t with
  | Leaf => True
  | Node l _ _ _ _ r _ =>
      rbalanced l /\ rbalanced r /\
      (rheight l <= S (rheight r))%nat /\ (rheight r <= S (rheight l))%nat
  end.

Lemma avl_rbalanced : forall t, avl t -> rbalanced t.
Proof.
  induction t as [|l IHl k v hv h r IHr id]; cbn [avl rbalanced]; auto.
  intros (Hl & Hr & Hh & Hb & _).
  rewrite (stored_height_is_real _ Hl), (stored_height_is_real _ Hr) in Hb.
  repeat split; auto; lia.
Qed.

Lemma rbalanced_fib : forall t, rbalanced t -> (fib (rheight t + 2) <= size t + 1)%nat.
Proof.
  induction t as [|l IHl k v hv h r IHr id]; cbn [rbalanced rheight size]; intros.
  - simpl. lia.
  - destruct H as (Hl & Hr & B1 & B2). specialize (IHl Hl). specialize (IHr Hr).
    destruct (Nat.le_ge_cases (rheight l) (rheight r)) as [C|C].
    + rewrite (Nat.max_r _ _ C).
      replace (S (rheight r) + 2)%nat with (S (S (rheight r + 1))) by lia.
      rewrite fib_SS. replace (S (rheight r + 1)) with (rheight r + 2)%nat by lia.
      assert (fib (rheight r + 1) <= fib (rheight l + 2))%nat by (apply fib_mono; lia).
      lia.
    + rewrite (Nat.max_l _ _ C).
      replace (S (rheight l) + 2)%nat with (S (S (rheight l + 1))) by lia.
      rewrite fib_SS. replace (S (rheight l + 1)) with (rheight l + 2)%nat by lia.
      assert (fib (rheight l + 1) <= fib (rheight r + 2))%nat by (apply fib_mono; lia).
      lia.
Qed.

Lemma avl_height_fib_l : forall t, avl t ->
  (fib (Z.to_nat (get_height t) + 2) <= size t + 1)%nat.
Proof.
  intros. rewrite (stored_height_is_real _ H), Nat2Z.id.
  apply rbalanced_fib, avl_rbalanced, H.
Qed.
