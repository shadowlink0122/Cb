(* C19 - the malloc/free event-log checker [replay]: lemmas shared by Map, Queue and Vector, then the
   event log of the Map model: the blocks named in the tree are exactly the live blocks of the log; no
   double free, no free of a block that is not live, nothing leaks after ~self(). *)
From Coq Require Import ZArith List Bool Lia Permutation.
From Cb Require Import C19.Model C19.AvlInv.
Import ListNotations.

Lemma mem_In : forall x l, mem x l = true <-> In x l.
Proof.
  induction l as [|y l IH]; cbn [mem In]; [split; [discriminate|tauto]|].
  rewrite orb_true_iff, IH, Nat.eqb_eq. split; intros [H|H]; auto.
Qed.
Lemma mem_notIn : forall x l, mem x l = false <-> ~ In x l.
Proof.
  intros. rewrite <- mem_In. destruct (mem x l); split; intros H; try congruence; try (intro; congruence).
Qed.

Lemma remove1_perm : forall x l, In x l -> Permutation (x :: remove1 x l) l.
Proof.
  induction l as [|y l IH]; cbn [In remove1]; [tauto|].
  intros H. destruct (Nat.eqb_spec x y).
  - subst. reflexivity.
  - destruct H as [H|H]; [congruence|]. rewrite perm_swap. constructor. apply IH, H.
Qed.

Lemma replay_app : forall a b live,
  replay live (a ++ b) = match replay live a with Some l' => replay l' b | None => None end.
Proof.
  induction a as [|e a IH]; intros; cbn [app replay]; auto.
  destruct e; destruct (mem n live); auto.
Qed.

Lemma replay_free : forall x live rest, Permutation live (x :: rest) ->
  exists live', replay live [Free x] = Some live' /\ Permutation live' rest.
Proof.
  intros x live rest P. cbn [replay].
  assert (In x live) as Hin by (eapply Permutation_in; [symmetry; exact P|left; auto]).
  rewrite (proj2 (mem_In x live) Hin). eexists. split; [reflexivity|].
  apply Permutation_cons_inv with (a := x). rewrite remove1_perm; auto.
Qed.

Lemma replay_malloc : forall x live, ~ In x live -> replay live [Malloc x] = Some (x :: live).
Proof. intros. cbn [replay]. rewrite (proj2 (mem_notIn x live) H). reflexivity. Qed.

Lemma replay_free_all : forall xs live, Permutation live xs -> replay live (List.map Free xs) = Some [].
Proof.
  induction xs as [|x xs IH]; intros live P; cbn [List.map].
  - rewrite (Permutation_nil (Permutation_sym P)). reflexivity.
  - change (Free x :: List.map Free xs) with ([Free x] ++ List.map Free xs).
    rewrite replay_app. destruct (replay_free x live xs P) as (l1 & E1 & P1).
    rewrite E1. apply IH, P1.
Qed.

Lemma perm_mid2 : forall (a : list nat) b x c, Permutation (a ++ b :: x :: c) (x :: a ++ b :: c).
Proof.
  intros. transitivity (a ++ x :: b :: c).
  - apply Permutation_app_head. apply perm_swap.
  - symmetry. apply Permutation_middle.
Qed.

Lemma insert_ids : forall nid key value t,
  (insert_log nid t key = [] /\ ids (insert_to_node nid t key value) = ids t) \/
  (insert_log nid t key = [Malloc nid] /\ Permutation (ids (insert_to_node nid t key value)) (nid :: ids t)).
Proof.
  intros nid key value. induction t as [|l IHl k v hv h r IHr id].
  - right. split; reflexivity.
  - cbn [insert_log insert_to_node]. destruct (key =? k)%Z; [left; split; reflexivity|].
    destruct (key <? k)%Z; rewrite ids_rebalance; cbn [ids].
    + destruct IHl as [(E & I)|(E & P)]; [left|right]; split; auto; [rewrite I; auto|].
      rewrite P. reflexivity.
    + destruct IHr as [(E & I)|(E & P)]; [left|right]; split; auto; [rewrite I; auto|].
      rewrite P. apply perm_mid2.
Qed.

Lemma remove_ids : forall t key,
  (remove_log t key = [] /\ ids (remove_from_node t key) = ids t) \/
  (exists x, remove_log t key = [Free x] /\ Permutation (ids t) (x :: ids (remove_from_node t key))).
Proof.
  induction t as [|l IHl k v hv h r IHr id]; intros key.
  - left. split; reflexivity.
  - cbn [remove_log remove_from_node].
    destruct (key <? k)%Z.
    { rewrite ids_rebalance; cbn [ids].
      destruct (IHl key) as [(E & I)|(x & E & P)]; [left|right].
      - split; auto. rewrite I; auto.
      - exists x. split; auto. rewrite P. reflexivity. }
    destruct (key >? k)%Z.
    { rewrite ids_rebalance; cbn [ids].
      destruct (IHr key) as [(E & I)|(x & E & P)]; [left|right].
      - split; auto. rewrite I; auto.
      - exists x. split; auto. rewrite P. apply perm_mid2. }
    destruct l as [|ll lk lv lhv lh lr lid].
    { right. exists id. split; reflexivity. }
    remember (Node ll lk lv lhv lh lr lid) as l.
    destruct r as [|rl rk rv rhv rh rr rid].
    { right. exists id. split; auto. cbn [ids].
      symmetry. apply Permutation_cons_append. }
    remember (Node rl rk rv rhv rh rr rid) as r.
    destruct (min_node r k v hv) as [[sk sv] shv].
    rewrite ids_rebalance; cbn [ids].
    destruct (IHr sk) as [(E & I)|(x & E & P)]; [left|right].
    + split; auto. rewrite I; auto.
    + exists x. split; auto. rewrite P. apply perm_mid2.
Qed.

Lemma free_all_nodes_replay : forall t live rest, Permutation live (ids t ++ rest) ->
  exists live', replay live (free_all_nodes t) = Some live' /\ Permutation live' rest.
Proof.
  induction t as [|l IHl k v hv h r IHr id]; intros live rest P.
  - exists live. split; auto.
  - cbn [free_all_nodes ids] in *. rewrite <- app_assoc in P. cbn [app] in P.
    destruct (IHl live (id :: ids r ++ rest) P) as (l1 & E1 & P1).
    rewrite replay_app, E1.
    assert (Permutation l1 (ids r ++ id :: rest)) as P1'.
    { rewrite P1. apply Permutation_cons_app. reflexivity. }
    destruct (IHr l1 (id :: rest) P1') as (l2 & E2 & P2).
    rewrite replay_app, E2. apply replay_free, P2.
Qed.

(* invariant tying a Map state to the live set of the log so far *)
Definition log_inv (m : map) (live : list nat) : Prop :=
  Permutation live (ids (root m)) /\ Forall (fun x => x < mnext m)%nat live.

Lemma log_inv_insert : forall m k v live, log_inv m live ->
  exists live', replay live (insert_log (mnext m) (root m) k) = Some live' /\ log_inv (m_insert m k v) live'.
Proof.
  intros m k v live (P & F). unfold m_insert, log_inv. cbn [root mnext].
  assert (Forall (fun x => x < S (mnext m))%nat live) as F' by (eapply Forall_impl; [|exact F]; cbn; intros; lia).
  destruct (insert_ids (mnext m) k v (root m)) as [(E & I)|(E & Pm)]; rewrite E.
  - exists live. split; [reflexivity|]. rewrite I. split; auto.
  - rewrite replay_malloc.
    + eexists. split; [reflexivity|]. split; [rewrite Pm; constructor; exact P|constructor; [lia|exact F']].
    + intros Hin. rewrite Forall_forall in F. specialize (F _ Hin). lia.
Qed.

(* [remove] and [try_remove]: same state change, same log *)
Lemma log_inv_remove : forall m k live, log_inv m live ->
  exists live', replay live (if contains_loop (root m) k then remove_log (root m) k else []) = Some live' /\
                log_inv (m_remove m k) live'.
Proof.
  intros m k live (P & F). unfold m_remove. destruct (contains_loop (root m) k).
  2:{ exists live; split; [reflexivity|split; assumption]. }
  unfold log_inv. cbn [root mnext].
  destruct (remove_ids (root m) k) as [(E & I)|(x & E & Pm)]; rewrite E.
  - exists live. split; [reflexivity|]. rewrite I. split; auto.
  - destruct (replay_free x live (ids (remove_from_node (root m) k))) as (l1 & E1 & P1).
    { rewrite P. exact Pm. }
    exists l1. split; auto. split; auto.
    rewrite Forall_forall in *. intros y Hy. apply F.
    eapply Permutation_in; [symmetry; exact P|]. eapply Permutation_in; [symmetry; exact Pm|].
    right. eapply Permutation_in; [exact P1|exact Hy].
Qed.

Lemma log_inv_step : forall m o live, log_inv m live ->
  exists live', replay live (m_log m o) = Some live' /\ log_inv (m_step m o) live'.
Proof.
  intros m o live I.
  destruct o; cbn [m_log m_step]; auto using log_inv_insert, log_inv_remove;
    try (exists live; split; [reflexivity|exact I]).
  (* clear *)
  destruct I as (P & F).
  destruct (free_all_nodes_replay (root m) live []) as (l1 & E1 & P1).
  { rewrite app_nil_r. exact P. }
  exists l1. split; auto. unfold log_inv. cbn [root mnext ids].
  symmetry in P1. apply Permutation_nil in P1. subst l1. split; auto.
Qed.

Lemma log_inv_run : forall ops m live, log_inv m live ->
  exists live', replay live (m_run_log ops m) = Some live' /\ log_inv (m_run ops m) live'.
Proof.
  induction ops as [|o ops IH]; intros m live I; cbn [m_run_log m_run].
  - exists live. split; auto.
  - destruct (log_inv_step m o live I) as (l1 & E1 & I1).
    destruct (IH _ _ I1) as (l2 & E2 & I2).
    exists l2. split; auto. rewrite replay_app, E1. exact E2.
Qed.
