(* C19 - "a read returns the latest write": the meaning of a Map history stated without the finite-map
   spec, as the last write to the key in the history (insert / remove / try_remove / clear), and the
   lemmas by which Properties_C19_lastwrite.v shows that get / contains of the AVL implementation model
   return exactly that. *)
From Coq Require Import ZArith List Bool.
From Cb Require Import C19.Model C19.AvlRefine.
Import ListNotations.
Local Open Scope Z_scope.

(* what the history says about key k: [acc] is what was known before the history *)
Fixpoint last_write (k : Z) (ops : list mop) (acc : option Z) : option Z :=
  match ops with
  | [] => acc
  | MInsert k' v :: r => last_write k r (if k =? k' then Some v else acc)
  | MRemove k' :: r | MTryRemove k' :: r => last_write k r (if k =? k' then None else acc)
  | MClear :: r => last_write k r None
  | _ :: r => last_write k r acc
  end.

Lemma sorted_fm_step s o : sorted s -> sorted (fm_step s o).
Proof.
  intro S; destruct o; cbn [fm_step]; auto using sorted_ins_list, sorted_del_list.
  exact I.
Qed.

Lemma assoc_fm_run k : forall ops s, sorted s -> assoc k (fm_run ops s) = last_write k ops (assoc k s).
Proof.
  induction ops as [|o ops IH]; intros s S; cbn [fm_run last_write]; [reflexivity|].
  rewrite (IH _ (sorted_fm_step s o S)).
  destruct o; cbn [fm_step]; try reflexivity.
  - now rewrite assoc_ins_list.
  - now rewrite assoc_del_list.
  - now rewrite assoc_del_list.
Qed.

Lemma last_write_app k a b acc : last_write k (a ++ b) acc = last_write k b (last_write k a acc).
Proof.
  revert acc; induction a as [|o a IH]; intro acc; cbn [app last_write]; [reflexivity|].
  destruct o; apply IH.
Qed.

(* reads do not write *)
Definition is_read (o : mop) : bool :=
  match o with MGet _ _ | MContains _ | MSize | MIsEmpty | MHeight => true | _ => false end.

(* reads and writes to OTHER keys *)
Definition other_key (k : Z) (o : mop) : bool :=
  match o with
  | MInsert k' _ | MRemove k' | MTryRemove k' => negb (k =? k')
  | MClear => false
  | _ => true
  end.

Lemma last_write_other k ops acc : forallb (other_key k) ops = true -> last_write k ops acc = acc.
Proof.
  revert acc; induction ops as [|o ops IH]; intros acc H; cbn [last_write]; [reflexivity|].
  cbn [forallb] in H; apply andb_prop in H; destruct H as [Ho H].
  destruct o; cbn [other_key] in Ho; try discriminate Ho;
    try (apply negb_true_iff in Ho; rewrite Ho); apply IH, H.
Qed.
