(* C19 - the Map model refines a finite map: the in-order contents of the tree are a strictly
   sorted association list on which insert_to_node / remove_from_node act as ordered insertion /
   deletion; get / contains are association-list lookup; count = number of entries. *)
From Coq Require Import ZArith List Lia.
From Cb Require Import C19.Model C19.AvlInv.
Import ListNotations.
Local Open Scope Z_scope.

Definition fmap := list (Z * Z).
Definition keys_lt (a : Z) (l : fmap) : Prop := Forall (fun p => fst p < a) l.
Definition keys_gt (a : Z) (l : fmap) : Prop := Forall (fun p => a < fst p) l.
Fixpoint sorted (l : fmap) : Prop :=
  match l with [] => True | p :: tl => keys_gt (fst p) tl /\ sorted tl end.

Fixpoint assoc (k : Z) (l : fmap) : option Z :=
  match l with [] => None | (a, b) :: tl => if k =? a then Some b else assoc k tl end.
Fixpoint ins_list (k v : Z) (l : fmap) : fmap :=
  match l with
  | [] => [(k, v)]
  | (a, b) :: tl => if k =? a then (k, v) :: tl else if k <? a then (k, v) :: l else (a, b) :: ins_list k v tl
  end.
Fixpoint del_list (k : Z) (l : fmap) : fmap :=
  match l with [] => [] | (a, b) :: tl => if k =? a then tl else (a, b) :: del_list k tl end.

Definition is_some {A} (o : option A) : bool := match o with Some _ => true | None => false end.

Lemma keys_gt_weaken : forall a b l, a <= b -> keys_gt b l -> keys_gt a l.
Proof. intros a b l Hab H. unfold keys_gt in *. eapply Forall_impl; [|exact H]. simpl. intros; lia. Qed.
Lemma keys_lt_weaken : forall a b l, b <= a -> keys_lt b l -> keys_lt a l.
Proof. intros a b l Hab H. unfold keys_lt in *. eapply Forall_impl; [|exact H]. simpl. intros; lia. Qed.

Lemma sorted_app : forall xs a b ys, sorted (xs ++ (a, b) :: ys) ->
  sorted xs /\ keys_lt a xs /\ keys_gt a ys /\ sorted ys.
Proof.
  induction xs as [|[c d] xs IH]; intros a b ys H.
  - cbn in H. destruct H. repeat split; auto. constructor.
  - cbn [app sorted fst] in H. destruct H as (G & S).
    destruct (IH _ _ _ S) as (S1 & L & G2 & S2).
    unfold keys_gt in G. apply Forall_app in G. destruct G as (G1 & G3).
    inversion G3; subst. cbn [fst] in *.
    repeat split; auto. constructor; auto.
Qed.

Lemma sorted_app_intro : forall xs a b ys,
  sorted xs -> keys_lt a xs -> keys_gt a ys -> sorted ys -> sorted (xs ++ (a, b) :: ys).
Proof.
  induction xs as [|[c d] xs IH]; intros a b ys S1 L G S2.
  - cbn. auto.
  - cbn [app sorted fst] in *. destruct S1 as (G1 & S1). inversion L; subst. cbn [fst] in *.
    split; [|apply IH; auto].
    unfold keys_gt. apply Forall_app. split; auto. constructor; auto.
    eapply keys_gt_weaken; [|exact G]. lia.
Qed.

Lemma assoc_none_gt : forall k a l, k <= a -> keys_gt a l -> assoc k l = None.
Proof.
  induction l as [|[c d] l IH]; intros; auto. inversion H0; subst. cbn [fst] in *.
  cbn [assoc]. destruct (Z.eqb_spec k c); [lia|]. auto.
Qed.
Lemma assoc_none_lt : forall k a l, a <= k -> keys_lt a l -> assoc k l = None.
Proof.
  induction l as [|[c d] l IH]; intros; auto. inversion H0; subst. cbn [fst] in *.
  cbn [assoc]. destruct (Z.eqb_spec k c); [lia|]. auto.
Qed.
(* A sorted list split at a pivot (a, b): each operation goes to the side where the key is. The
   tests come in the order in which the tree code makes them. *)
Lemma assoc_app : forall k xs a b ys, keys_lt a xs -> keys_gt a ys ->
  assoc k (xs ++ (a, b) :: ys) =
  if k =? a then Some b else if k <? a then assoc k xs else assoc k ys.
Proof.
  induction xs as [|[c d] xs IH]; intros a b ys L G.
  - cbn [app assoc]. destruct (Z.eqb_spec k a); auto. destruct (Z.ltb_spec k a); auto.
    eapply assoc_none_gt; [|exact G]. lia.
  - inversion L; subst. cbn [fst] in *. cbn [app assoc]. rewrite IH by assumption.
    destruct (Z.eqb_spec k c); [|reflexivity].
    destruct (Z.eqb_spec k a); [lia|]. destruct (Z.ltb_spec k a); [reflexivity|lia].
Qed.

Lemma ins_list_app : forall k v xs a b ys, keys_lt a xs ->
  ins_list k v (xs ++ (a, b) :: ys) =
  if k =? a then xs ++ (a, v) :: ys
  else if k <? a then ins_list k v xs ++ (a, b) :: ys else xs ++ (a, b) :: ins_list k v ys.
Proof.
  induction xs as [|[c d] xs IH]; intros a b ys L.
  - cbn [app ins_list]. destruct (Z.eqb_spec k a); [subst; reflexivity|]. destruct (k <? a); reflexivity.
  - inversion L; subst. cbn [fst] in *. cbn [app ins_list]. rewrite IH by assumption.
    destruct (Z.eqb_spec k a).
    + subst. destruct (Z.eqb_spec a c); [lia|]. destruct (Z.ltb_spec a c); [lia|reflexivity].
    + destruct (Z.ltb_spec k a).
      * destruct (k =? c); [reflexivity|]. destruct (k <? c); reflexivity.
      * destruct (Z.eqb_spec k c); [lia|]. destruct (Z.ltb_spec k c); [lia|reflexivity].
Qed.

Lemma del_list_absent : forall k l, assoc k l = None -> del_list k l = l.
Proof.
  induction l as [|[c d] l IH]; cbn [assoc del_list]; auto.
  destruct (k =? c); [discriminate|]. intros. rewrite IH; auto.
Qed.
Lemma del_list_none_gt : forall k a l, k <= a -> keys_gt a l -> del_list k l = l.
Proof. intros k a l Hk G. apply del_list_absent, (assoc_none_gt k a l Hk G). Qed.
Lemma del_list_app : forall k xs a b ys, keys_lt a xs -> keys_gt a ys ->
  del_list k (xs ++ (a, b) :: ys) =
  if k =? a then xs ++ ys
  else if k <? a then del_list k xs ++ (a, b) :: ys else xs ++ (a, b) :: del_list k ys.
Proof.
  induction xs as [|[c d] xs IH]; intros a b ys L G.
  - cbn [app del_list]. destruct (Z.eqb_spec k a); auto. destruct (Z.ltb_spec k a); auto.
    rewrite (del_list_none_gt k a); auto. lia.
  - inversion L; subst. cbn [fst] in *. cbn [app del_list]. rewrite IH by assumption.
    destruct (Z.eqb_spec k a).
    + destruct (Z.eqb_spec k c); [lia|reflexivity].
    + destruct (Z.ltb_spec k a).
      * destruct (k =? c); reflexivity.
      * destruct (Z.eqb_spec k c); [lia|reflexivity].
Qed.

Lemma keys_gt_ins : forall a k v l, a < k -> keys_gt a l -> keys_gt a (ins_list k v l).
Proof.
  induction l as [|[c d] l IH]; intros Hk G; cbn [ins_list].
  - constructor; auto.
  - inversion G; subst. cbn [fst] in *.
    destruct (k =? c); [constructor; auto|]. destruct (k <? c); [constructor; auto|].
    constructor; auto. apply IH; auto.
Qed.
Lemma sorted_ins_list : forall k v l, sorted l -> sorted (ins_list k v l).
Proof.
  induction l as [|[c d] l IH]; intros S; cbn [ins_list].
  - cbn. split; auto. constructor.
  - cbn [sorted fst] in S. destruct S as (G & S).
    destruct (Z.eqb_spec k c); [subst; cbn [sorted fst]; auto|].
    destruct (Z.ltb_spec k c).
    + cbn [sorted fst]. repeat split; auto. constructor; auto.
      eapply keys_gt_weaken; [|exact G]. lia.
    + cbn [sorted fst]. split; auto. apply keys_gt_ins; auto. lia.
Qed.
Lemma keys_gt_del : forall a k l, keys_gt a l -> keys_gt a (del_list k l).
Proof.
  induction l as [|[c d] l IH]; intros G; cbn [del_list]; auto.
  inversion G; subst. destruct (k =? c); auto. constructor; auto. apply IH; auto.
Qed.
Lemma sorted_del_list : forall k l, sorted l -> sorted (del_list k l).
Proof.
  induction l as [|[c d] l IH]; intros S; cbn [del_list]; auto.
  cbn [sorted fst] in S. destruct S as (G & S).
  destruct (k =? c); auto. cbn [sorted fst]. split; auto. apply keys_gt_del; auto.
Qed.

Lemma assoc_ins_list : forall k' k v l,
  assoc k' (ins_list k v l) = if k' =? k then Some v else assoc k' l.
Proof.
  induction l as [|[c d] l IH]; cbn [ins_list assoc].
  - destruct (k' =? k); auto.
  - destruct (Z.eqb_spec k c).
    + subst. cbn [assoc]. destruct (k' =? c); auto.
    + destruct (k <? c).
      * cbn [assoc]. destruct (k' =? k); auto.
      * cbn [assoc]. rewrite IH. destruct (Z.eqb_spec k' c); auto.
        destruct (Z.eqb_spec k' k); auto. lia.
Qed.
Lemma assoc_del_list : forall k' k l, sorted l ->
  assoc k' (del_list k l) = if k' =? k then None else assoc k' l.
Proof.
  induction l as [|[c d] l IH]; intros S; cbn [del_list assoc].
  - destruct (k' =? k); auto.
  - cbn [sorted fst] in S. destruct S as (G & S).
    destruct (Z.eqb_spec k c).
    + subst. destruct (Z.eqb_spec k' c); auto. subst. eapply assoc_none_gt; [|exact G]. lia.
    + cbn [assoc]. rewrite IH; auto. destruct (Z.eqb_spec k' c); auto.
      destruct (Z.eqb_spec k' k); auto. lia.
Qed.
Lemma length_ins_list : forall k v l, sorted l ->
  length (ins_list k v l) = if is_some (assoc k l) then length l else S (length l).
Proof.
  induction l as [|[c d] l IH]; intros S; cbn [ins_list assoc]; auto.
  cbn [sorted fst] in S. destruct S as (G & S).
  destruct (Z.eqb_spec k c); [reflexivity|].
  destruct (Z.ltb_spec k c).
  - rewrite (assoc_none_gt k c l) by (auto; lia). reflexivity.
  - cbn [length]. rewrite IH; auto. destruct (is_some (assoc k l)); auto.
Qed.
Lemma length_del_list : forall k l, sorted l ->
  length (del_list k l) = if is_some (assoc k l) then pred (length l) else length l.
Proof.
  induction l as [|[c d] l IH]; intros S; cbn [del_list assoc]; auto.
  cbn [sorted fst] in S. destruct S as (G & S).
  destruct (Z.eqb_spec k c); [reflexivity|].
  cbn [length]. rewrite IH; auto. destruct (assoc k l) eqn:E; cbn [is_some]; auto.
  destruct l; [discriminate|reflexivity].
Qed.
Lemma sorted_NoDup_keys : forall l, sorted l -> NoDup (List.map fst l).
Proof.
  induction l as [|[c d] l IH]; intros S; cbn [List.map]; constructor.
  - cbn [sorted fst] in S. destruct S as (G & _). intros Hin.
    apply in_map_iff in Hin. destruct Hin as (p & E & Hin).
    unfold keys_gt in G. rewrite Forall_forall in G. specialize (G _ Hin). cbn [fst] in *. lia.
  - apply IH. cbn [sorted] in S. tauto.
Qed.

Definition bst (t : tree) : Prop := sorted (elements t).

Lemma bst_node : forall l k v hv h r id, bst (Node l k v hv h r id) ->
  bst l /\ keys_lt k (elements l) /\ keys_gt k (elements r) /\ bst r.
Proof. intros. unfold bst in *. cbn [elements] in H. apply sorted_app in H. tauto. Qed.

Lemma elements_insert : forall nid key value t, bst t ->
  elements (insert_to_node nid t key value) = ins_list key value (elements t).
Proof.
  intros nid key value. induction t as [|l IHl k v hv h r IHr id]; intros B; auto.
  apply bst_node in B. destruct B as (Bl & L & G & Br).
  cbn [insert_to_node elements]. rewrite ins_list_app by assumption.
  destruct (key =? k); [reflexivity|].
  destruct (key <? k); rewrite elements_rebalance; cbn [elements]; [rewrite IHl|rewrite IHr]; auto.
Qed.

Lemma min_node_elements : forall t dk dv dhv, t <> Leaf ->
  exists tl, elements t = fst (min_node t dk dv dhv) :: tl.
Proof.
  induction t as [|l IHl k v hv h r IHr id]; intros dk dv dhv Hne; [congruence|].
  cbn [min_node elements]. destruct l as [|ll lk lv lhv lh lr lid].
  - cbn. eexists. reflexivity.
  - destruct (IHl k v hv) as (tl & E); [congruence|]. rewrite E. cbn [app]. eexists. reflexivity.
Qed.

Lemma elements_remove : forall t key, bst t ->
  elements (remove_from_node t key) = del_list key (elements t).
Proof.
  induction t as [|l IHl k v hv h r IHr id]; intros key B; auto.
  apply bst_node in B. destruct B as (Bl & L & G & Br).
  cbn [remove_from_node elements]. rewrite del_list_app by assumption.
  destruct (Z.ltb_spec key k).
  { destruct (Z.eqb_spec key k); [lia|]. rewrite elements_rebalance. cbn [elements]. rewrite IHl; auto. }
  destruct (Z.gtb_spec key k).
  { destruct (Z.eqb_spec key k); [lia|]. rewrite elements_rebalance. cbn [elements]. rewrite IHr; auto. }
  destruct (Z.eqb_spec key k); [subst key|lia].
  destruct l as [|ll lk lv lhv lh lr lid]; [reflexivity|].
  destruct r as [|rl rk rv rhv rh rr rid]; [symmetry; apply app_nil_r|].
  remember (Node ll lk lv lhv lh lr lid) as l.
  remember (Node rl rk rv rhv rh rr rid) as r.
  destruct (min_node_elements r k v hv) as (tl & E); [subst r; congruence|].
  destruct (min_node r k v hv) as [[sk sv] shv]. cbn [fst] in E.
  rewrite elements_rebalance. cbn [elements]. rewrite IHr; auto.
  rewrite E. cbn [del_list]. rewrite Z.eqb_refl. reflexivity.
Qed.

(* the two descents, get and contains, find what the association list holds *)
Lemma lookup_assoc : forall t key d, bst t -> avl t ->
  get_loop t key d = match assoc key (elements t) with Some x => x | None => d end /\
  contains_loop t key = is_some (assoc key (elements t)).
Proof.
  induction t as [|l IHl k v hv h r IHr id]; intros key d B A; [split; reflexivity|].
  apply bst_node in B. destruct B as (Bl & L & G & Br).
  cbn [avl] in A. destruct A as (Al & Ar & _ & _ & Hhv).
  cbn [get_loop contains_loop elements]. rewrite assoc_app by assumption.
  destruct (key =? k); [subst; auto|]. destruct (key <? k); auto.
Qed.
Lemma get_assoc : forall t key d, bst t -> avl t ->
  get_loop t key d = match assoc key (elements t) with Some x => x | None => d end.
Proof. intros. apply lookup_assoc; assumption. Qed.
Lemma contains_assoc : forall t key, bst t -> avl t ->
  contains_loop t key = is_some (assoc key (elements t)).
Proof. intros. apply (lookup_assoc t key 0); assumption. Qed.

Definition map_inv (m : map) : Prop :=
  avl (root m) /\ bst (root m) /\ count m = Z.of_nat (length (elements (root m))).

(* Spec state: the sorted association list; Spec step and result *)
Definition fm_step (s : fmap) (o : mop) : fmap :=
  match o with
  | MInsert k v => ins_list k v s
  | MRemove k | MTryRemove k => del_list k s
  | MClear => []
  | _ => s
  end.
(* what the property demands of a result; the height is not part of the finite map: it must obey the
   AVL bound fib (h+2) <= n+1 (equivalent to h <= 1.44 log2 (n+2)) *)
Definition fm_res_ok (s : fmap) (o : mop) (r : res) : Prop :=
  match o with
  | MGet k d => r = RInt (match assoc k s with Some x => x | None => d end)
  | MContains k => r = RBool (is_some (assoc k s))
  | MTryRemove k => r = RBool (is_some (assoc k s))
  | MSize => r = RInt (Z.of_nat (length s))
  | MIsEmpty => r = RBool (match s with [] => true | _ => false end)
  | MHeight => exists h, r = RInt h /\ 0 <= h /\ (fib (Z.to_nat h + 2) <= length s + 1)%nat
  | _ => r = RUnit
  end.
Fixpoint fm_run (ops : list mop) (s : fmap) : fmap :=
  match ops with [] => s | o :: r => fm_run r (fm_step s o) end.
Fixpoint fm_all_ok (ops : list mop) (s : fmap) (rs : list res) : Prop :=
  match ops, rs with
  | [], [] => True
  | o :: ops', r :: rs' => fm_res_ok s o r /\ fm_all_ok ops' (fm_step s o) rs'
  | _, _ => False
  end.

Lemma map_inv_init : map_inv map_init.
Proof. cbv. auto. Qed.

Lemma map_inv_insert : forall m k v, map_inv m -> map_inv (m_insert m k v).
Proof.
  intros m k v (A & B & C). unfold m_insert, map_inv, bst. cbn [root count].
  rewrite elements_insert, length_ins_list, contains_assoc by assumption.
  split; [apply insert_avl, A|]. split; [apply sorted_ins_list, B|].
  destruct (is_some _); lia.
Qed.

(* [remove] and [try_remove] are the same state change *)
Lemma map_inv_remove : forall m k, map_inv m -> map_inv (m_remove m k).
Proof.
  intros m k (A & B & C). unfold m_remove.
  destruct (contains_loop (root m) k) eqn:E; [|repeat split; assumption].
  rewrite contains_assoc in E by assumption.
  unfold map_inv, bst. cbn [root count].
  rewrite elements_remove, length_del_list, E by assumption.
  split; [apply remove_avl, A|]. split; [apply sorted_del_list, B|].
  destruct (elements (root m)); [discriminate|].
  cbn [length pred] in *. destruct (Z.gtb_spec (count m) 0); lia.
Qed.

Lemma map_inv_step : forall m o, map_inv m -> map_inv (m_step m o).
Proof.
  intros m o I. destruct o; cbn [m_step]; auto using map_inv_insert, map_inv_remove.
  repeat split; exact I.
Qed.

Lemma map_inv_run : forall ops m, map_inv m -> map_inv (m_run ops m).
Proof. induction ops; cbn [m_run]; auto. intros. apply IHops, map_inv_step, H. Qed.

Lemma elements_m_remove : forall m k, map_inv m ->
  elements (root (m_remove m k)) = del_list k (elements (root m)).
Proof.
  intros m k (A & B & C). unfold m_remove. destruct (contains_loop (root m) k) eqn:E.
  - apply elements_remove, B.
  - rewrite contains_assoc in E by assumption. symmetry. apply del_list_absent.
    destruct (assoc k (elements (root m))); [discriminate|reflexivity].
Qed.

Lemma step_refines : forall m o, map_inv m ->
  elements (root (m_step m o)) = fm_step (elements (root m)) o /\
  fm_res_ok (elements (root m)) o (m_res m o).
Proof.
  intros m o I. pose proof I as (A & B & C).
  destruct o; cbn [m_step m_res fm_step fm_res_ok]; split; auto using elements_m_remove.
  - apply elements_insert, B.
  - rewrite get_assoc; auto.
  - rewrite contains_assoc; auto.
  - rewrite contains_assoc; auto.
  - rewrite C. reflexivity.
  - rewrite C. destruct (elements (root m)); reflexivity.
  - exists (get_height (root m)). split; auto. split; [apply avl_height_nonneg, A|].
    rewrite <- size_elements. apply avl_height_fib_l, A.
Qed.

Lemma run_refines : forall ops m, map_inv m ->
  elements (root (m_run ops m)) = fm_run ops (elements (root m)) /\
  fm_all_ok ops (elements (root m)) (m_run_res ops m).
Proof.
  induction ops as [|o ops IH]; intros m I; cbn [m_run fm_run m_run_res fm_all_ok]; auto.
  destruct (step_refines m o I) as (E & R).
  destruct (IH _ (map_inv_step m o I)) as (E2 & R2).
  rewrite E in E2, R2. auto.
Qed.
