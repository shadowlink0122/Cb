(* C19 - the property theorems.  Statements are about the Mech models of stdlib/std/map.cb
   (Model.v), queue.cb and vector.cb (LinkedModel.v); the invariants and step lemmas are in the lemma files. *)
From Coq Require Import ZArith List Bool Permutation Sorted.
From Cb Require Import C19.Model C19.LinkedModel C19.AvlInv C19.AvlRefine C19.Log
  C19.QueueProofs C19.SortProofs C19.VectorProofs C19.World.
Import ListNotations.
Local Open Scope Z_scope.

(* ---------------------------------------------------------------- Map<K,V> *)

(* The AVL invariant - stored height = 1 + max of the children's stored heights (hence = real height),
   |balance| <= 1, has_value set - and the BST order (in-order keys strictly increasing) hold in the
   empty map and are preserved by every operation, hence after every history. *)
Theorem avl_inv_preserved : forall ops,
  let m := m_run ops map_init in
  avl (root m) /\ bst (root m) /\ get_height (root m) = Z.of_nat (rheight (root m)).
Proof.
  intros ops m. destruct (map_inv_run ops map_init map_inv_init) as (A & B & _).
  repeat split; auto. apply stored_height_is_real, A.
Qed.
Print Assumptions avl_inv_preserved.

(* one step, any state satisfying the invariant (insert and remove in particular) *)
Theorem avl_inv_step : forall m o, map_inv m -> map_inv (m_step m o).
Proof. exact map_inv_step. Qed.
Print Assumptions avl_inv_step.

(* Refinement: after any history the in-order contents are exactly what the finite-map Spec (sorted
   association list with ordered insertion / deletion) holds, and every result the Mech produced
   (get, contains, try_remove, size, is_empty) is the Spec's; get_tree_height obeys the AVL bound. *)
Theorem avl_refines_fmap : forall ops,
  elements (root (m_run ops map_init)) = fm_run ops [] /\
  fm_all_ok ops [] (m_run_res ops map_init).
Proof. intros. exact (run_refines ops map_init map_inv_init). Qed.
Print Assumptions avl_refines_fmap.

(* the Spec really is a finite map: lookup after insert / remove, keys unique *)
Theorem fmap_spec_laws : forall (s : fmap), sorted s -> forall k v k',
  assoc k' (ins_list k v s) = (if k' =? k then Some v else assoc k' s) /\
  assoc k' (del_list k s) = (if k' =? k then None else assoc k' s) /\
  sorted (ins_list k v s) /\ sorted (del_list k s) /\ NoDup (List.map fst s).
Proof.
  intros s S k v k'. repeat split.
  - apply assoc_ins_list.
  - apply assoc_del_list, S.
  - apply sorted_ins_list, S.
  - apply sorted_del_list, S.
  - apply sorted_NoDup_keys, S.
Qed.
Print Assumptions fmap_spec_laws.

(* size() = number of live entries = number of nodes, after any history *)
Theorem count_is_cardinal : forall ops,
  let m := m_run ops map_init in
  count m = Z.of_nat (length (elements (root m))) /\
  length (elements (root m)) = size (root m) /\
  NoDup (List.map fst (elements (root m))).
Proof.
  intros ops m. destruct (map_inv_run ops map_init map_inv_init) as (A & B & C).
  repeat split; auto. - symmetry. apply size_elements. - apply sorted_NoDup_keys, B.
Qed.
Print Assumptions count_is_cardinal.

(* height bound: an AVL tree of (stored) height h has at least fib(h+2)-1 nodes, i.e.
   h <= log_phi(n+2) - 1.33 < 1.4405 log2(n+2) *)
Theorem avl_height_fib : forall t, avl t ->
  (fib (Z.to_nat (get_height t) + 2) <= size t + 1)%nat.
Proof. exact avl_height_fib_l. Qed.
Print Assumptions avl_height_fib.

Theorem avl_height_fib_any_history : forall ops,
  let m := m_run ops map_init in
  (fib (Z.to_nat (get_height (root m)) + 2) <= Z.to_nat (count m) + 1)%nat.
Proof.
  intros ops m. destruct (map_inv_run ops map_init map_inv_init) as (A & B & C).
  subst m. rewrite C, Nat2Z.id, <- size_elements. apply avl_height_fib_l, A.
Qed.
Print Assumptions avl_height_fib_any_history.

(* release: the log of any history never frees a block that is not live (no double free, no invalid
   free), the live blocks are exactly the nodes of the tree, and after ~self() nothing is live *)
Theorem map_each_node_freed_once : forall ops,
  (exists live, replay [] (m_run_log ops map_init) = Some live /\
                Permutation live (ids (root (m_run ops map_init)))) /\
  replay [] (m_run_log ops map_init ++ m_dtor_log (m_run ops map_init)) = Some [].
Proof.
  intros ops.
  assert (log_inv map_init []) as I0 by (split; [reflexivity|constructor]).
  destruct (log_inv_run ops map_init [] I0) as (live & E & (P & F)).
  split; [exists live; split; auto|].
  rewrite replay_app, E. unfold m_dtor_log.
  destruct (free_all_nodes_replay (root (m_run ops map_init)) live []) as (l1 & E1 & P1).
  { rewrite app_nil_r. exact P. }
  rewrite E1. symmetry in P1. apply Permutation_nil in P1. subst. reflexivity.
Qed.
Print Assumptions map_each_node_freed_once.

(* non-vacuity: a concrete history with a double rotation, a two-child removal and rebalancing *)
Example map_example :
  let ops := [MInsert 3 30; MInsert 1 10; MInsert 2 20; MInsert 5 50; MInsert 4 40; MRemove 2; MGet 4 0; MHeight; MSize] in
  m_run_res ops map_init = [RUnit; RUnit; RUnit; RUnit; RUnit; RUnit; RInt 40; RInt 3; RInt 4] /\
  elements (root (m_run ops map_init)) = [(1, 10); (3, 30); (4, 40); (5, 50)].
Proof. vm_compute. split; reflexivity. Qed.

(* ---------------------------------------------------------------- Queue<T> *)

(* Refinement: the pointer-level queue (heap of nodes, front/rear/length) returns, for every history,
   exactly what a FIFO list returns; the heap always represents that list (chain from front, rear =
   last node) and length = number of live elements. *)
Theorem queue_refines_fifo : forall ops,
  q_run_res ops queue_init = qs_run_res ops [] /\
  exists ns, qrep (q_run ops queue_init) ns /\ nvals ns = qs_run ops [] /\
             qlength (q_run ops queue_init) = Z.of_nat (length (qs_run ops [])).
Proof.
  intros. destruct (q_run_refines ops queue_init [] [] qrep_init (Permutation_refl _))
    as (ns & live & R & V & Rs & _ & _).
  change (nvals []) with (@nil Z) in *.
  split; auto. exists ns. split; [exact R|]. split; [exact V|].
  destruct R as (_ & _ & _ & Hl & _). rewrite Hl, <- V. unfold nvals. rewrite map_length. reflexivity.
Qed.
Print Assumptions queue_refines_fifo.

Theorem queue_each_node_freed_once : forall ops,
  replay [] (q_run_log ops queue_init ++ q_dtor_log (q_run ops queue_init)) = Some [].
Proof.
  intros. destruct (q_run_refines ops queue_init [] [] qrep_init (Permutation_refl _))
    as (ns & live & R & _ & _ & E & P).
  rewrite replay_app, E. destruct R as (Hc & Hf & _ & _ & Hd & _ & Hle).
  unfold q_dtor_log.
  destruct (q_free_loop_chain ns _ _ Hle Hc Hd) as (h' & E2). rewrite <- Hf in E2. rewrite E2. cbn [snd].
  apply replay_free_all, P.
Qed.
Print Assumptions queue_each_node_freed_once.

(* ---------------------------------------------------------------- Vector<T> *)

(* Refinement: the doubly linked list with front/back/length (push/pop at both ends, at, find,
   delete_at, sort/smaller/greater, clear) returns, for every history, what the list Spec returns; the
   heap always represents that list in both directions; length = number of live elements. *)
Theorem dlist_refines_list : forall ops,
  v_run_res ops vector_init = vs_run_res ops [] /\
  exists ns, vrep (v_run ops vector_init) ns /\ nvals ns = vs_run ops [] /\
             vlength (v_run ops vector_init) = Z.of_nat (length (vs_run ops [])).
Proof.
  intros. destruct (v_run_refines ops vector_init [] [] vrep_init (Permutation_refl _))
    as (ns & live & R & V & Rs & _ & _).
  change (nvals []) with (@nil Z) in *.
  split; auto. exists ns. split; [exact R|]. split; [exact V|].
  destruct R as (_ & _ & _ & Hl & _). rewrite Hl, <- V, nvals_length. reflexivity.
Qed.
Print Assumptions dlist_refines_list.

(* the Spec's sort (the same bottom-up merge as the code, on values) yields the sorted permutation *)
Theorem sort_is_sorted_permutation : forall l,
  (Sorted (fun x y => x <= y) (s_sort z_le l) /\ Permutation (s_sort z_le l) l) /\
  (Sorted (fun x y => x >= y) (s_sort z_ge l) /\ Permutation (s_sort z_ge l) l).
Proof.
  intros. split; apply s_sort_sorted_perm.
  - exact z_le_total.
  - intros x y. apply Z.leb_le.
  - exact z_ge_total.
  - intros x y H. apply Z.le_ge, Z.leb_le. rewrite <- Z.geb_leb. exact H.
Qed.
Print Assumptions sort_is_sorted_permutation.

(* one sort step at pointer level: same nodes, relinked; values = sorted values *)
Theorem vector_sort_relinks_same_nodes : forall s ns, vrep s ns ->
  exists ns', vrep (v_sort s z_le) ns' /\ nvals ns' = s_sort z_le (nvals ns) /\
              Permutation (nids ns') (nids ns).
Proof. intros. apply vrep_sort; [exact z_le_total|assumption]. Qed.
Print Assumptions vector_sort_relinks_same_nodes.

Theorem vector_each_node_freed_once : forall ops,
  replay [] (v_run_log ops vector_init ++ v_dtor_log (v_run ops vector_init)) = Some [].
Proof.
  intros. destruct (v_run_refines ops vector_init [] [] vrep_init (Permutation_refl _))
    as (ns & live & R & _ & _ & E & P).
  rewrite replay_app, E. destruct R as (Hc & Hf & _ & _ & Hd & _ & Hle).
  unfold v_dtor_log. rewrite dtor_loop_collect, Hf, (collect_dseg _ _ _ _ Hc Hle).
  apply replay_free_all, P.
Qed.
Print Assumptions vector_each_node_freed_once.

(* ---------------------------------------------------------------- several containers *)

(* In a program that interleaves operations on several containers (of any kinds), the state and the
   results of container i are those of running the operations addressed to i alone. *)
Theorem containers_independent : forall ops w i c, nth_error w i = Some c ->
  nth_error (w_run ops w) i = Some (c_run (proj_ops i ops) c) /\
  proj_res i (w_run_res ops w) = c_run_res (proj_ops i ops) c.
Proof.
  induction ops as [|[j o] ops IH]; intros w i c H.
  - cbn. auto.
  - cbn [w_run w_run_res proj_ops proj_res filter fst List.map].
    pose proof (nth_w_step w j o i) as N. rewrite H in N.
    destruct (Nat.eqb_spec j i) as [->|Hne].
    + cbn [option_map] in N. destruct (IH _ _ _ N) as (A & B).
      cbn [List.map snd c_run c_run_res]. split; [exact A|].
      unfold w_res. rewrite H. f_equal. exact B.
    + destruct (IH _ _ _ N) as (A & B). split; [exact A|exact B].
Qed.
Print Assumptions containers_independent.

Example vector_example :
  let ops := [VPushBack 5; VPushFront 4; VPushBack 1; VPushBack 4; VSort; VAt 0; VAt 3; VDeleteAt 1; VFind 5; VGreater; VAt 0; VLength] in
  v_run_res ops vector_init =
  [RUnit; RUnit; RUnit; RUnit; RUnit; RInt 1; RInt 5; RUnit; RInt 2; RUnit; RInt 5; RInt 3].
Proof. vm_compute. reflexivity. Qed.
Example queue_example :
  q_run_res [QPush 7; QPush 8; QPop; QTop; QSize; QPop; QPop; QEmpty] queue_init =
  [RUnit; RUnit; RInt 7; RInt 8; RInt 1; RInt 8; RInt 0; RBool true].
Proof. vm_compute. reflexivity. Qed.
