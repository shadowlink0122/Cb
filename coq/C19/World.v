(* C19 - several containers in one program: the world is a list of container states, an operation
   addresses one of them.  In the model a container's results depend only on the operations addressed
   to it (the interleaving with other containers is irrelevant); the correspondence runs check that
   the interpreter agrees with this on programs that interleave containers of several types. *)
From Coq Require Import ZArith List Bool Arith.
From Cb Require Import C19.Model C19.LinkedModel.
Import ListNotations.

Inductive cont := CMap (m : map) | CQue (q : queue) | CVec (v : vector).
Inductive cop := OMap (o : mop) | OQue (o : qop) | OVec (o : vop).

Definition c_step (c : cont) (o : cop) : cont :=
  match c, o with
  | CMap m, OMap o => CMap (m_step m o)
  | CQue q, OQue o => CQue (q_step q o)
  | CVec v, OVec o => CVec (v_step v o)
  | _, _ => c
  end.
Definition c_res (c : cont) (o : cop) : res :=
  match c, o with
  | CMap m, OMap o => m_res m o
  | CQue q, OQue o => q_res q o
  | CVec v, OVec o => v_res v o
  | _, _ => RUnit
  end.
Fixpoint c_run (ops : list cop) (c : cont) : cont :=
  match ops with [] => c | o :: r => c_run r (c_step c o) end.
Fixpoint c_run_res (ops : list cop) (c : cont) : list res :=
  match ops with [] => [] | o :: r => c_res c o :: c_run_res r (c_step c o) end.

Definition world := list cont.
Fixpoint w_step (w : world) (i : nat) (o : cop) : world :=
  match w with
  | [] => []
  | c :: r => match i with O => c_step c o :: r | S j => c :: w_step r j o end
  end.
Definition w_res (w : world) (i : nat) (o : cop) : res :=
  match nth_error w i with Some c => c_res c o | None => RUnit end.
Fixpoint w_run (ops : list (nat * cop)) (w : world) : world :=
  match ops with [] => w | (i, o) :: r => w_run r (w_step w i o) end.
Fixpoint w_run_res (ops : list (nat * cop)) (w : world) : list (nat * res) :=
  match ops with [] => [] | (i, o) :: r => (i, w_res w i o) :: w_run_res r (w_step w i o) end.

(* the operations addressed to container i, and the results reported for it *)
Definition proj_ops (i : nat) (ops : list (nat * cop)) : list cop :=
  List.map snd (filter (fun p => Nat.eqb (fst p) i) ops).
Definition proj_res (i : nat) (rs : list (nat * res)) : list res :=
  List.map snd (filter (fun p => Nat.eqb (fst p) i) rs).

Lemma nth_w_step : forall w j o i,
  nth_error (w_step w j o) i =
  if Nat.eqb j i then option_map (fun c => c_step c o) (nth_error w i) else nth_error w i.
Proof.
  induction w as [|c r IH]; intros j o i.
  - cbn [w_step]. destruct i; destruct (Nat.eqb j _); reflexivity.
  - cbn [w_step]. destruct j as [|j]; destruct i as [|i]; cbn [nth_error Nat.eqb option_map]; auto.
Qed.
