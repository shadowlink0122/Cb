(* C19 - the bottom-up merge sort of vector.cb (v_merge / v_merge_pairs / v_merge_all / v_sort_ids of
   LinkedModel.v): the result is a permutation of the input, sorted by key, for every total [le];
   the fuel (= length) always suffices; sorting commutes with maps (so that sorting node pointers by
   their data and sorting the data values give the same value sequence). *)
From Coq Require Import ZArith List Lia Permutation Sorted.
From Cb Require Import C19.LinkedModel.
Import ListNotations.

Section Sort.
  Context {A : Type} (le : Z -> Z -> bool) (key : A -> Z).
  Hypothesis le_total : forall x y, le x y = false -> le y x = true.

  Definition lek (x y : A) : Prop := le (key x) (key y) = true.

  Lemma merge_nil_r : forall a, v_merge le key a [] = a.
  Proof. destruct a; reflexivity. Qed.

  Lemma merge_perm : forall a b, Permutation (v_merge le key a b) (a ++ b).
  Proof.
    induction a as [|x a IHa]; intros b; [destruct b; reflexivity|].
    induction b as [|y b IHb]; [rewrite merge_nil_r, app_nil_r; reflexivity|].
    cbn [v_merge]. destruct (le (key x) (key y)).
    - cbn [app]. constructor. apply IHa.
    - etransitivity; [constructor; exact IHb|]. cbn [app].
      rewrite perm_swap. constructor. apply Permutation_middle.
  Qed.

  Lemma merge_hdrel : forall z a b, HdRel lek z a -> HdRel lek z b -> HdRel lek z (v_merge le key a b).
  Proof.
    intros z a b Ha Hb. destruct a as [|x a]; [destruct b; auto|].
    destruct b as [|y b]; [rewrite merge_nil_r; auto|].
    cbn [v_merge]. inversion Ha; inversion Hb; subst.
    destruct (le (key x) (key y)); constructor; auto.
  Qed.

  Lemma merge_sorted : forall a b, Sorted lek a -> Sorted lek b -> Sorted lek (v_merge le key a b).
  Proof.
    induction a as [|x a IHa]; intros b Sa Sb; [destruct b; auto|].
    induction b as [|y b IHb]; [rewrite merge_nil_r; auto|].
    cbn [v_merge]. inversion Sa as [|? ? Sa' Ha]; inversion Sb as [|? ? Sb' Hb]; subst.
    destruct (le (key x) (key y)) eqn:E.
    - constructor; [apply IHa; auto|]. apply merge_hdrel; auto; try (constructor; exact E).
    - constructor; [apply IHb; auto|].
      change (HdRel lek y (v_merge le key (x :: a) b)).
      apply merge_hdrel; auto; try (constructor; apply le_total, E).
  Qed.

  Lemma pairs_sorted : forall runs, Forall (Sorted lek) runs -> Forall (Sorted lek) (v_merge_pairs le key runs).
  Proof.
    fix IH 1. intros [|a [|b rest]] F; cbn [v_merge_pairs]; auto.
    inversion F as [|? ? Sa F']; inversion F' as [|? ? Sb F'']; subst.
    constructor; [apply merge_sorted; auto|apply IH; auto].
  Qed.
  Lemma pairs_perm : forall runs, Permutation (concat (v_merge_pairs le key runs)) (concat runs).
  Proof.
    fix IH 1. intros [|a [|b rest]]; cbn [v_merge_pairs concat]; auto.
    rewrite app_assoc. apply Permutation_app; [apply merge_perm|apply IH].
  Qed.
  Lemma pairs_length : forall runs, (length (v_merge_pairs le key runs) <= length runs)%nat.
  Proof.
    fix IH 1. intros [|a [|b rest]]; cbn [v_merge_pairs length]; auto.
    specialize (IH rest). lia.
  Qed.

  Lemma all_sorted : forall fuel runs, Forall (Sorted lek) runs -> Forall (Sorted lek) (v_merge_all fuel le key runs).
  Proof.
    induction fuel as [|f IH]; intros runs F; cbn [v_merge_all]; auto.
    destruct runs as [|a [|b rest]]; auto. apply IH, pairs_sorted, F.
  Qed.
  Lemma all_perm : forall fuel runs, Permutation (concat (v_merge_all fuel le key runs)) (concat runs).
  Proof.
    induction fuel as [|f IH]; intros runs; cbn [v_merge_all]; auto.
    destruct runs as [|a [|b rest]]; auto. rewrite IH. apply pairs_perm.
  Qed.
  (* the fuel suffices: at most one run is left *)
  Lemma all_single : forall fuel runs, (length runs <= S fuel)%nat ->
    (length (v_merge_all fuel le key runs) <= 1)%nat.
  Proof.
    induction fuel as [|f IH]; intros runs L; cbn [v_merge_all]; auto.
    destruct runs as [|a [|b rest]]; cbn [length]; try lia.
    apply IH. cbn [v_merge_pairs length] in *. pose proof (pairs_length rest). lia.
  Qed.

  Lemma concat_singletons : forall l : list A, concat (List.map (fun n => [n]) l) = l.
  Proof. induction l; cbn; congruence. Qed.

  Lemma sort_perm : forall arr, Permutation (v_sort_ids le key arr) arr.
  Proof.
    intros. unfold v_sort_ids. rewrite all_perm. rewrite concat_singletons. reflexivity.
  Qed.
  Lemma sort_sorted : forall arr, Sorted lek (v_sort_ids le key arr).
  Proof.
    intros. unfold v_sort_ids.
    set (runs := List.map (fun n => [n]) arr).
    assert (Forall (Sorted lek) runs) as F.
    { unfold runs. clear. induction arr; cbn; constructor; auto. }
    assert (length runs <= S (length arr))%nat as L by (unfold runs; rewrite map_length; lia).
    pose proof (all_sorted (length arr) runs F) as F'.
    pose proof (all_single (length arr) runs L) as L'.
    destruct (v_merge_all (length arr) le key runs) as [|r [|r2 rest]]; cbn [concat length] in *.
    - constructor.
    - rewrite app_nil_r. inversion F'; auto.
    - lia.
  Qed.
End Sort.

(* The sort is natural in the element type: it commutes with any map [f], the keys being read
   through [f] before the map and directly after it. *)
Section SortMap.
  Context {A B : Type} (le : Z -> Z -> bool) (key : B -> Z) (f : A -> B).

  Lemma merge_map : forall a b,
    List.map f (v_merge le (fun x => key (f x)) a b) = v_merge le key (List.map f a) (List.map f b).
  Proof.
    induction a as [|x a IHa]; intros b; [destruct b; reflexivity|].
    induction b as [|y b IHb]; [cbn [List.map]; rewrite !merge_nil_r; reflexivity|].
    cbn [v_merge List.map]. destruct (le (key (f x)) (key (f y))); cbn [List.map]; f_equal.
    - apply IHa.
    - exact IHb.
  Qed.

  Lemma pairs_map : forall runs,
    List.map (List.map f) (v_merge_pairs le (fun x => key (f x)) runs) = v_merge_pairs le key (List.map (List.map f) runs).
  Proof.
    fix IH 1. intros [|a [|b rest]]; cbn [v_merge_pairs List.map]; auto.
    f_equal; [apply merge_map|apply IH].
  Qed.

  Lemma all_map : forall fuel runs,
    List.map (List.map f) (v_merge_all fuel le (fun x => key (f x)) runs) = v_merge_all fuel le key (List.map (List.map f) runs).
  Proof.
    induction fuel as [|fu IH]; intros runs; cbn [v_merge_all]; auto.
    destruct runs as [|a [|b rest]]; auto.
    cbn [List.map]. rewrite IH, pairs_map. reflexivity.
  Qed.

  Lemma sort_map : forall arr, List.map f (v_sort_ids le (fun x => key (f x)) arr) = v_sort_ids le key (List.map f arr).
  Proof.
    intros arr. unfold v_sort_ids. rewrite concat_map, all_map, map_length, !map_map. reflexivity.
  Qed.
End SortMap.

(* the two orders used by vector.cb *)
Lemma z_le_total : forall x y, z_le x y = false -> z_le y x = true.
Proof. unfold z_le. intros. apply Z.leb_le. apply Z.leb_gt in H. lia. Qed.
Lemma z_ge_total : forall x y, z_ge x y = false -> z_ge y x = true.
Proof.
  unfold z_ge. intros. rewrite Z.geb_leb in *. apply Z.leb_le. apply Z.leb_gt in H. lia.
Qed.

(* Spec-level sort on values: the same function with the identity key *)
Definition s_sort (le : Z -> Z -> bool) (l : list Z) : list Z := v_sort_ids le (fun x => x) l.

Lemma s_sort_short : forall le l, (length l <= 1)%nat -> s_sort le l = l.
Proof.
  intros le [|x [|y l]] H; try reflexivity. cbn [length] in H. lia.
Qed.

(* the result is sorted for every relation that [le] decides or under-approximates: ascending for
   sort()/smaller(), descending for greater() *)
Lemma s_sort_sorted_perm : forall le (R : Z -> Z -> Prop),
  (forall x y, le x y = false -> le y x = true) -> (forall x y, le x y = true -> R x y) ->
  forall l, Sorted R (s_sort le l) /\ Permutation (s_sort le l) l.
Proof.
  intros le R Htot Hle l. split; [|apply sort_perm].
  pose proof (sort_sorted le (fun x : Z => x) Htot l) as S.
  unfold s_sort. induction S; constructor; auto. destruct H; constructor. apply Hle, H.
Qed.
