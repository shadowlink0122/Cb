(* C19 - property theorems: a Map read returns the latest write, for every history of operations
   (no bound on length, keys or tree shape). Statements are about the Mech model of stdlib/std/map.cb
   (Model.v: the AVL insert / remove with rotations, get / contains loops). *)
From Coq Require Import ZArith List Bool.
From Cb Require Import C19.Model C19.AvlInv C19.AvlRefine C19.LastWrite.
Import ListNotations.
Local Open Scope Z_scope.

(* get(k, d) / contains(k) after ANY history return exactly what the last write to k in that history
   says (insert k v -> v; remove / try_remove k or clear -> absent), whatever rotations happened *)
Theorem map_read_returns_latest_write : forall ops k d,
  let m := m_run ops map_init in
  get_loop (root m) k d = (match last_write k ops None with Some v => v | None => d end) /\
  contains_loop (root m) k = is_some (last_write k ops None).
Proof.
  intros ops k d. cbv zeta.
  destruct (map_inv_run ops map_init map_inv_init) as (A & B & _).
  destruct (run_refines ops map_init map_inv_init) as (E & _).
  rewrite get_assoc, contains_assoc by assumption.
  rewrite E. cbn [map_init root elements].
  rewrite (assoc_fm_run k ops [] I). cbn [assoc]. split; reflexivity.
Qed.
Print Assumptions map_read_returns_latest_write.

(* what is read after [h ++ o :: mid], where [mid] neither writes to k nor clears, is what [o] left *)
Lemma read_after_write : forall h o mid k d, forallb (other_key k) mid = true ->
  let m := m_run (h ++ o :: mid) map_init in
  let w := last_write k [o] (last_write k h None) in
  get_loop (root m) k d = (match w with Some v => v | None => d end) /\
  contains_loop (root m) k = is_some w.
Proof.
  intros h o mid k d H. cbv zeta.
  destruct (map_read_returns_latest_write (h ++ o :: mid) k d) as [G C]. cbv zeta in G, C.
  rewrite G, C, last_write_app. change (o :: mid) with ([o] ++ mid).
  rewrite last_write_app, (last_write_other k mid) by exact H. split; reflexivity.
Qed.

(* after any history h: insert k v, then any reads and any writes to other keys, then get k = v *)
Theorem map_insert_then_get : forall h k v mid d, forallb (other_key k) mid = true ->
  let m := m_run (h ++ MInsert k v :: mid) map_init in
  get_loop (root m) k d = v /\ contains_loop (root m) k = true.
Proof.
  intros h k v mid d H. pose proof (read_after_write h (MInsert k v) mid k d H) as R.
  cbn [last_write] in R. rewrite Z.eqb_refl in R. exact R.
Qed.
Print Assumptions map_insert_then_get.

Theorem map_remove_then_get : forall h k mid d, forallb (other_key k) mid = true ->
  let m := m_run (h ++ MRemove k :: mid) map_init in
  get_loop (root m) k d = d /\ contains_loop (root m) k = false.
Proof.
  intros h k mid d H. pose proof (read_after_write h (MRemove k) mid k d H) as R.
  cbn [last_write] in R. rewrite Z.eqb_refl in R. exact R.
Qed.
Print Assumptions map_remove_then_get.

Theorem map_clear_then_get : forall h k mid d, forallb (other_key k) mid = true ->
  let m := m_run (h ++ MClear :: mid) map_init in
  get_loop (root m) k d = d /\ contains_loop (root m) k = false.
Proof. intros h k mid d H. exact (read_after_write h MClear mid k d H). Qed.
Print Assumptions map_clear_then_get.

(* reads leave what the history says about every key unchanged *)
Theorem map_reads_do_not_write : forall k ops acc, forallb is_read ops = true -> last_write k ops acc = acc.
Proof.
  intros k ops acc H. apply last_write_other. rewrite forallb_forall in *.
  intros o Ho. specialize (H o Ho). destruct o; try discriminate H; reflexivity.
Qed.
Print Assumptions map_reads_do_not_write.

(* non-vacuity: a history with rotations (ascending inserts), an overwrite, a removal, a clear *)
Example latest_write_somewhere :
  let h := [MInsert 1 10; MInsert 2 20; MInsert 3 30; MInsert 4 40; MInsert 5 50; MInsert 3 31; MRemove 2] in
  forallb (other_key 3) [MGet 1 0; MInsert 6 60; MRemove 1] = true /\
  get_loop (root (m_run h map_init)) 3 (-1) = 31 /\
  get_loop (root (m_run h map_init)) 2 (-1) = -1 /\
  get_loop (root (m_run (h ++ [MClear; MInsert 7 70]) map_init)) 3 (-1) = -1 /\
  get_height (root (m_run h map_init)) = 3.
Proof. vm_compute. repeat split; reflexivity. Qed.
