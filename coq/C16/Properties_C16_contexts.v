(* C16 - property theorems about code positions (Contexts.v): a rendering is the same wherever it stands.
   The lemmas about the execution of token lists are in ContextsProofs.v. *)
From Coq Require Import List Ascii String ZArith.
From Cb Require Import C16.Model C16.Nested C16.NestedProofs C16.Contexts C16.ContextsProofs.
Import ListNotations.
Local Open Scope char_scope.

(* the call instances of Nested.v, run by the model with scopes that is extracted and compared with /repo's binary
   ([run_main_c]), give exactly [run_main]: every theorem of Properties_C16 speaks about [run_main_c] too *)
Theorem contexts_model_conservative : forall c, run_main_c (embed c) = run_main c.
Proof. intros c. unfold run_main_c, run_main. rewrite embed_parses_l, embed_run_l. reflexivity. Qed.
Print Assumptions contexts_model_conservative.

(* a scope (block, body of if / else / for / while, switch case, match arm) whose body prints, declares, calls and
   defers: it writes what its statements write, in order, then what its deferred statements write, the last
   registered first, each evaluated in the environment the scope has at its end; afterwards the environment, the
   deferred statements still pending outside and the enclosing scopes are what they were *)
Theorem scope_output_then_deferred_in_reverse : forall e ds stk al body ob e1 od, forallb flat_tok body = true ->
  exec_m (alias_env e al ++ e) (bases body) = inl (ob, Some e1) ->
  run_defers e1 (rev (defers body)) = inl (od, Some tt) ->
  exec_c (e, ds, stk) (scope al body) = inl (ob ++ od, Some (e, ds, stk)).
Proof.
  intros e ds stk al body ob e1 od Hf Hb Hd. rewrite (scope_runs_l _ _ _ _ _ Hf). unfold scope_result.
  rewrite (mbind_ok _ _ _ _ _ _ Hb Hd). cbn. rewrite app_nil_r. reflexivity.
Qed.
Print Assumptions scope_output_then_deferred_in_reverse.

Theorem deferred_last_registered_first : forall e d1 d2 o1 o2 e1 e2,
  stmt_m e d2 = inl (o2, Some e2) -> stmt_m e d1 = inl (o1, Some e1) ->
  run_defers e (rev [d1; d2]) = inl (o2 ++ o1, Some tt).
Proof.
  intros e d1 d2 o1 o2 e1 e2 H2 H1. cbn [rev app run_defers]. rewrite H2. cbn. rewrite H1. cbn.
  rewrite app_nil_r. reflexivity.
Qed.
Print Assumptions deferred_last_registered_first.

(* an error inside a scope: everything written before it is on stdout, the deferred statements do not run,
   nothing after the scope runs *)
Theorem scope_error_ends_run : forall e ds stk al body rest ob, forallb flat_tok body = true ->
  exec_m (alias_env e al ++ e) (bases body) = inl (ob, None) ->
  exec_c (e, ds, stk) (scope al body ++ rest) = inl (ob, None).
Proof.
  intros e ds stk al body rest ob Hf Hb. rewrite exec_c_app, (scope_runs_l _ _ _ _ _ Hf). unfold scope_result.
  rewrite (mbind_fail _ _ _ Hb). reflexivity.
Qed.
Print Assumptions scope_error_ends_run.

(* a loop: the output is the concatenation of the iterations' outputs, each of which is [scope_result] of the
   enclosing environment and the meanings the iteration gives to its expression texts - nothing else *)
Theorem loop_output_is_concatenation_of_iterations : forall e ds stk its outs,
  Forall (fun it => forallb flat_tok (snd it) = true) its ->
  Forall2 (fun it o => scope_result e (fst it) (snd it) = inl (o, Some tt)) its outs ->
  exec_c (e, ds, stk) (scopes its) = inl (List.concat outs, Some (e, ds, stk)).
Proof.
  intros e ds stk its outs Hf H. induction H as [|it o its outs Hit _ IH]; [ reflexivity | ].
  inversion Hf as [|? ? Hf1 Hf2]; subst. unfold scopes. cbn [map List.concat].
  rewrite exec_c_app, (scope_runs_l _ _ _ _ _ Hf1), Hit. cbn [mbind mret].
  fold (scopes its). rewrite (IH Hf2), app_nil_r. reflexivity.
Qed.
Print Assumptions loop_output_is_concatenation_of_iterations.

(* the n-th evaluation of a body renders like the first *)
Theorem loop_nth_iteration_like_first : forall e ds stk al body o n, forallb flat_tok body = true ->
  scope_result e al body = inl (o, Some tt) ->
  exec_c (e, ds, stk) (scopes (repeat_l (al, body) n)) = inl (List.concat (repeat_l o n), Some (e, ds, stk)).
Proof.
  intros e ds stk al body o n Hf H.
  apply loop_output_is_concatenation_of_iterations; induction n; cbn [repeat_l]; constructor; auto.
Qed.
Print Assumptions loop_nth_iteration_like_first.

(* a statement inside a scope that rebinds nothing writes exactly what it writes outside (its own declarations
   end with the scope) *)
Theorem statement_same_inside_scope : forall e ds stk s,
  exec_c (e, ds, stk) (scope [] [CBase s]) = mbind (stmt_m e s) (fun _ => mret (e, ds, stk)).
Proof.
  intros e ds stk s. rewrite scope_runs_l by reflexivity. unfold scope_result.
  cbn [alias_env map app bases defers rev exec_m run_defers].
  rewrite !mbind_assoc. apply mbind_ext. intros e'. rewrite !mbind_mret_l. reflexivity.
Qed.
Print Assumptions statement_same_inside_scope.

(* the loop variable / match binding / changed expression: inside the scope the text means what its key means *)
Theorem scope_binding : forall e x k al, mlookup (alias_env e ((x, k) :: al) ++ e) x = mlookup e k.
Proof. intros e x k al. cbn [alias_env map app fst snd mlookup]. rewrite beq_refl_l. reflexivity. Qed.
Print Assumptions scope_binding.

(* the end of a function body: its statements, its deferred statements in reverse, then the return expression *)
Theorem call_body_then_deferred_then_return : forall ps ls body r, forallb flat_tok body = true ->
  call_c ps ls body r =
  mbind (seq_params ps) (fun bound =>
  mbind (exec_m (bound ++ ls) (bases body)) (fun e1 =>
  mbind (run_defers e1 (rev (defers body))) (fun _ =>
  match r with None => mret (VInt 0) | Some a => eval_arg_m e1 a end))).
Proof.
  intros ps ls body r Hf. unfold call_c. apply mbind_ext. intros bound. rewrite (exec_c_flat body Hf).
  rewrite !mbind_assoc. apply mbind_ext. intros e1. rewrite mbind_mret_l. cbn [fst snd unwind].
  rewrite app_nil_r, !mbind_assoc. apply mbind_ext. intros _. rewrite mbind_mret_l. reflexivity.
Qed.
Print Assumptions call_body_then_deferred_then_return.

(* a deep copy of a literal's AST (generic instantiation) renders like the literal itself: every text segment,
   every expression and every format specifier is where it was *)
Theorem cloned_literal_renders_like_original : forall e s ns, parse_literal s = Some ns ->
  eval_nodes_m e (map clone_node ns) = eval_quoted_m e s.
Proof.
  intros e s ns H. rewrite (map_ext _ (fun n => n) clone_node_same), map_id.
  unfold parse_literal in H. unfold eval_quoted_m. destruct (has_interpolation s).
  - destruct (split s) as [segs|]; [ | discriminate H ]. injection H as <-. apply eval_nodes_of_segments.
  - injection H as <-. cbn. rewrite app_nil_r. reflexivity.
Qed.
Print Assumptions cloned_literal_renders_like_original.

(* the shape of seeded/C16-3/demo.cb: a literal with format specifiers in a body that runs as a copy, in a loop, with a
   deferred statement; for (i = 0; i < 2; i++) { defer println("d{i}"); println("id={id:05d} i={i:x}"); } *)
Example ex_loop_defer :
  let body := [CDefer (XPrint true [XQuoted (s2l "d{i}")]); CBase (XPrint true [XQuoted (s2l "id={id:05d} i={i:x}")])] in
  run_main_c (KCall [] [(s2l "id", KVal (VInt 42)); (s2l "i@0", KVal (VInt 10)); (s2l "i@1", KVal (VInt 11))]
                (scopes [([(s2l "i", s2l "i@0")], body); ([(s2l "i", s2l "i@1")], body)]) None)
  = inl (s2l "id=00042 i=a" ++ ["010"] ++ s2l "d10" ++ ["010"] ++ s2l "id=00042 i=b" ++ ["010"] ++ s2l "d11" ++ ["010"], false).
Proof. vm_compute. reflexivity. Qed.
Example ex_clone :
  option_map (fun ns => eval_nodes_m [(s2l "m", mret (VInt 255))] (map clone_node ns)) (parse_literal (s2l "0x{m:x}/{m:08b} {{ok}}"))
  = Some (inl ([], Some (s2l "0xff/11111111 {ok}"))).
Proof. vm_compute. reflexivity. Qed.
