(* C16 - lemmas about the numeral functions of Model.v: to_digits / render_base / dec.
   Round trips hold for every natural / integer (no 64-bit bound), every base 2..16. *)
From Coq Require Import List Ascii ZArith NArith Lia.
From Cb Require Import C16.Model C16.Spec.
Import ListNotations.
Local Open Scope N_scope.

Lemma below n (P : N -> Prop) : Forall P (map N.of_nat (seq 0 n)) -> forall d, d < N.of_nat n -> P d.
Proof.
  intros H d Hd. rewrite Forall_forall in H. apply H.
  rewrite <- (N2Nat.id d). apply in_map, in_seq. lia.
Qed.

Lemma digit_roundtrip u d : d < 16 -> char_digit (digit_char u d) = Some d.
Proof. revert d. apply (below 16). destruct u; repeat constructor. Qed.

Lemma digit_is_digit d : d < 10 -> is_digit (digit_char false d) = true.
Proof. revert d. apply (below 10). repeat constructor. Qed.

Lemma digit_val_char d : d < 10 -> digit_val (digit_char false d) = d.
Proof. revert d. apply (below 10). repeat constructor. Qed.

Lemma digit_zero_iff d : d < 16 -> ceq (digit_char false d) "0" = (d =? 0).
Proof. revert d. apply (below 16). repeat constructor. Qed.

Lemma digit_clean u d : d < 16 -> ceq (digit_char u d) "000" = false /\ ceq (digit_char u d) "\" = false.
Proof. revert d. apply (below 16). destruct u; repeat constructor. Qed.

Lemma to_digits_acc fuel b : forall n acc, to_digits fuel b n acc = to_digits fuel b n [] ++ acc.
Proof.
  induction fuel as [|f IH]; intros n acc; cbn [to_digits]; [ reflexivity | ].
  destruct (n <? b); [ reflexivity | ].
  rewrite (IH _ (n mod b :: acc)), (IH _ [n mod b]), <- app_assoc. reflexivity.
Qed.

(* every digit is below the base, whatever the fuel *)
Lemma digits_bound b n : 0 < b -> Forall (fun d => d < b) (digitsN b n).
Proof.
  intros Hb. unfold digitsN. generalize (Forall_nil (fun d => d < b)). generalize (@nil N).
  generalize (S (N.to_nat (N.size n))). intros f. revert n.
  induction f as [|f IH]; intros m acc Ha; cbn [to_digits]; [ exact Ha | ].
  destruct (N.ltb_spec m b) as [Hm|_]; [ constructor; assumption | ].
  apply IH. constructor; [ apply N.mod_lt; lia | exact Ha ].
Qed.

Lemma pow2_succ f : 2 ^ N.of_nat (S f) = 2 * 2 ^ N.of_nat f.
Proof. rewrite Nat2N.inj_succ, N.pow_succ_r'. reflexivity. Qed.

Lemma div_small f b n : 2 <= b -> n < 2 ^ N.of_nat (S f) -> n / b < 2 ^ N.of_nat f.
Proof.
  intros Hb Hn. rewrite pow2_succ in Hn.
  apply N.div_lt_upper_bound; [ lia | ]. nia.
Qed.

Lemma size_bound n : n < 2 ^ N.of_nat (S (N.to_nat (N.size n))).
Proof.
  rewrite pow2_succ, N2Nat.id. pose proof (N.size_gt n). lia.
Qed.

(* The numeral of n is computed like this: a number below the base is its own numeral, otherwise the last
   digit is split off.  The fuel [digitsN] gives is enough (every division by b >= 2 at least halves), so a
   property of numerals is proved from these two cases alone. *)
Lemma digitsN_ind b (P : N -> list N -> list N -> Prop) : 2 <= b ->
  (forall n acc, n < b -> P n acc (n :: acc)) ->
  (forall n acc r, b <= n -> P (n / b) (n mod b :: acc) r -> P n acc r) ->
  forall n, P n [] (digitsN b n).
Proof.
  intros Hb Hlast Hstep n. unfold digitsN. generalize (size_bound n), (@nil N).
  generalize (N.to_nat (N.size n)). intros f. revert n.
  induction f as [|f IH]; intros n Hn acc; cbn [to_digits]; destruct (N.ltb_spec n b) as [Hlt|Hge];
    try (apply Hlast; exact Hlt).
  - change (2 ^ N.of_nat 1) with 2 in Hn. lia.
  - apply Hstep; [ exact Hge | ]. apply IH. apply div_small; assumption.
Qed.

Lemma digits_value b n : 2 <= b -> from_digits b (digitsN b n) = n.
Proof.
  intros Hb. unfold from_digits.
  apply (digitsN_ind b (fun n acc r => fold_left (step b) r 0 = fold_left (step b) acc n) Hb).
  - intros m acc _. reflexivity.
  - intros m acc r Hm ->. cbn [fold_left]. unfold step at 2.
    rewrite (N.div_mod m b) at 3 by lia. rewrite (N.mul_comm b). reflexivity.
Qed.

(* the numeral is never empty, and its first digit is 0 only for the number 0 *)
Lemma digits_nonempty b n : 2 <= b -> digitsN b n <> [].
Proof. intros Hb. apply (digitsN_ind b (fun _ _ r => r <> []) Hb); [ discriminate | auto ]. Qed.

Lemma digits_head b n : 2 <= b -> n <> 0 -> exists d ds, digitsN b n = d :: ds /\ d <> 0.
Proof.
  intros Hb. apply (digitsN_ind b (fun n _ r => n <> 0 -> exists d ds, r = d :: ds /\ d <> 0) Hb).
  - intros m acc _ Hz. exists m, acc. split; [ reflexivity | exact Hz ].
  - intros m acc r Hm IH _. apply IH. intros E. apply N.div_small_iff in E; lia.
Qed.

Lemma render_base_chars u b n c : 0 < b -> In c (render_base u b n) -> exists d, d < b /\ c = digit_char u d.
Proof.
  intros Hb Hc. apply in_map_iff in Hc. destruct Hc as (d & <- & Hd).
  pose proof (digits_bound b n Hb) as F. rewrite Forall_forall in F. eauto.
Qed.

Lemma chars_of_digits u b ds : b <= 16 -> Forall (fun d => d < b) ds ->
  chars_digits b (map (digit_char u) ds) = Some ds.
Proof.
  intros Hb H. induction H as [|d ds Hd _ IH]; [ reflexivity | ].
  cbn [map chars_digits]. rewrite digit_roundtrip by lia.
  destruct (N.ltb_spec d b); [ | lia ]. rewrite IH. reflexivity.
Qed.

Lemma render_base_nonempty u b n : 2 <= b -> render_base u b n <> [].
Proof.
  intros Hb E. apply map_eq_nil in E. revert E. apply digits_nonempty. assumption.
Qed.

Theorem render_base_roundtrip u b n : 2 <= b <= 16 -> parse_base b (render_base u b n) = Some n.
Proof.
  intros [Hb1 Hb2]. unfold parse_base.
  destruct (render_base u b n) eqn:E; [ exfalso; revert E; apply render_base_nonempty; exact Hb1 | ].
  rewrite <- E. unfold render_base. rewrite chars_of_digits by (try assumption; apply digits_bound; lia).
  cbn [option_map]. rewrite digits_value by assumption. reflexivity.
Qed.

Lemma udec_all_digits n : forallb is_digit (udec n) = true.
Proof.
  apply forallb_forall. intros c Hc.
  destruct (render_base_chars false 10 n c) as (d & Hd & ->); [ lia | exact Hc | ].
  apply digit_is_digit. exact Hd.
Qed.

Lemma udec_zero : udec 0 = ["0"%char].
Proof. reflexivity. Qed.

Lemma udec_head n : n <> 0 -> exists c r, udec n = c :: r /\ ceq c "0" = false.
Proof.
  intros Hz. destruct (digits_head 10 n ltac:(lia) Hz) as (d & ds & E & Hd).
  exists (digit_char false d), (map (digit_char false) ds). unfold udec, render_base. rewrite E. split; [ reflexivity | ].
  pose proof (digits_bound 10 n ltac:(lia)) as F. rewrite E in F. inversion F; subst.
  rewrite digit_zero_iff by lia. apply N.eqb_neq. assumption.
Qed.

Lemma udec_canonical n : canonical_unsigned (udec n) = true.
Proof.
  destruct (N.eq_dec n 0) as [->|Hz]; [ reflexivity | ].
  destruct (udec_head n Hz) as (c & r & E & Hc).
  unfold canonical_unsigned. pose proof (udec_all_digits n) as A. rewrite E in *.
  rewrite A, Hc. reflexivity.
Qed.

Local Open Scope Z_scope.

Lemma dec_nonneg z : 0 <= z -> dec z = udec (Z.to_N z).
Proof. destruct z; intros; try lia; reflexivity. Qed.

Lemma parse_base_minus b r : parse_base b ("-"%char :: r) = None.
Proof. reflexivity. Qed.

Lemma mag_of_parse z : parse_base 10 (mag_of z) = Some (Z.abs_N z).
Proof. unfold mag_of, udec. apply render_base_roundtrip. lia. Qed.

Lemma from_digits_zeros b k ds : from_digits b (repeat 0%N k ++ ds) = from_digits b ds.
Proof.
  unfold from_digits. rewrite fold_left_app. f_equal.
  induction k as [|k IH]; [ reflexivity | ]. cbn [repeat fold_left]. unfold step at 2.
  rewrite N.mul_0_l, N.add_0_l. exact IH.
Qed.

Lemma chars_digits_app b s t ds dt :
  chars_digits b s = Some ds -> chars_digits b t = Some dt -> chars_digits b (s ++ t) = Some (ds ++ dt).
Proof.
  revert ds. induction s as [|c s IH]; intros ds Hs Ht.
  - inversion Hs. exact Ht.
  - cbn [chars_digits app] in *. destruct (char_digit c); [ | discriminate ].
    destruct (_ <? _)%N; [ | discriminate ].
    destruct (chars_digits b s) as [ds'|]; [ | discriminate ].
    inversion Hs; subst. rewrite (IH ds' eq_refl Ht). reflexivity.
Qed.

Lemma chars_digits_zeros b k : (1 <= b)%N -> chars_digits b (zeros k) = Some (repeat 0%N k).
Proof.
  intros Hb. induction k as [|k IH]; [ reflexivity | ].
  unfold zeros in *. cbn [repeat chars_digits]. change (char_digit "0") with (Some 0%N).
  cbv iota beta. assert (E : (0 <? b)%N = true) by (apply N.ltb_lt; lia). rewrite E, IH. reflexivity.
Qed.

Lemma parse_base_zeros b k n s : (1 <= b)%N -> parse_base b s = Some n -> parse_base b (zeros k ++ s) = Some n.
Proof.
  intros Hb. unfold parse_base. destruct s as [|c s]; [ discriminate | ].
  destruct (chars_digits b (c :: s)) as [ds|] eqn:E; [ | discriminate ].
  intros H. inversion H; subst.
  destruct (zeros k ++ c :: s) eqn:E2; [ destruct k; discriminate | ].
  rewrite <- E2. erewrite chars_digits_app; [ | apply chars_digits_zeros; lia | exact E ].
  cbn [option_map]. rewrite from_digits_zeros. reflexivity.
Qed.

Lemma sign_zeros_parse k v : parse_dec (sign_of v ++ zeros k ++ mag_of v) = Some v.
Proof.
  pose proof (parse_base_zeros 10 k _ _ ltac:(lia) (mag_of_parse v)) as H.
  unfold parse_dec. destruct v as [|p|p]; cbn [sign_of app]; rewrite ?parse_base_minus, H; reflexivity.
Qed.

Lemma u64_value z : Z.of_N (u64 z) = z mod 18446744073709551616.
Proof. unfold u64. apply Z2N.id. apply Z.mod_pos_bound. lia. Qed.
