(* C16 - print_multiple joining and the order of output of a whole run. *)
From Coq Require Import List Ascii.
From Cb Require Import C16.Model.
Import ListNotations.
Local Open Scope char_scope.

(* texts separated by exactly one space *)
Definition join_sp (l : list bytes) : bytes :=
  match l with [] => [] | v :: r => v ++ List.concat (map (cons " ") r) end.

Lemma join_values_false e args vs : Forall2 (fun a v => print_argument e a = inl v) args vs ->
  join_values e false args = inl (List.concat (map (cons " ") vs)).
Proof.
  induction 1 as [|a v args vs Ha _ IH]; [ reflexivity | ].
  cbn [join_values]. rewrite Ha. cbn [rbind]. rewrite IH. reflexivity.
Qed.

Lemma join_values_true e args vs : Forall2 (fun a v => print_argument e a = inl v) args vs ->
  join_values e true args = inl (join_sp vs).
Proof.
  destruct 1 as [|a v args vs Ha H]; [ reflexivity | ].
  cbn [join_values]. rewrite Ha. cbn [rbind]. rewrite (join_values_false e args vs H). reflexivity.
Qed.

(* arguments that are not string literals never start the printf path *)
Definition not_literal (a : arg) : Prop := match a with AQuoted _ => False | _ => True end.
Lemma find_fmt_no_literal args : Forall not_literal args -> find_fmt args = None.
Proof.
  induction 1 as [|a args Ha _ IH]; [ reflexivity | ].
  cbn [find_fmt]. destruct a; [ destruct Ha | | ]; cbn [is_fmt_literal]; rewrite IH; reflexivity.
Qed.

Definition value_text (a : arg) : bytes := match a with AInt z => dec z | AStr s => cstr s | AQuoted s => s end.

Lemma concat_shift (l : list bytes) :
  List.concat (map (cons " ") l) ++ [" "] = " " :: List.concat (map (fun v => v ++ [" "]) l).
Proof.
  induction l as [|v l IH]; [ reflexivity | ].
  cbn [map List.concat app]. rewrite <- app_assoc, IH, <- app_assoc. reflexivity.
Qed.

(* the space between the joined arguments and the rendered format is there iff there are such arguments *)
Lemma join_sp_sep {A} (R : A -> bytes -> Prop) pre vs : Forall2 R pre vs ->
  join_sp vs ++ (match pre with [] => [] | _ => [" "] end) = List.concat (map (fun v => v ++ [" "]) vs).
Proof.
  destruct 1 as [|a v pre vs _ _]; [ reflexivity | ].
  cbn [join_sp map List.concat]. rewrite <- !app_assoc. f_equal. cbn [app]. apply concat_shift.
Qed.

Definition no_fail (p : list stmt) : Prop := Forall (fun s => s <> SFail) p.

(* a run that ended without an error has executed all its statements: whatever follows it runs after it *)
Lemma exec_app e p q op : exec e p = (inl op, false) ->
  exec e (p ++ q) = (rbind (fst (exec e q)) (fun oq => inl (op ++ oq)), snd (exec e q)).
Proof.
  revert op. induction p as [|s p IH]; intros op H.
  - cbn in H. inversion H; subst. cbn [app]. destruct (exec e q) as [[oq|x] f]; reflexivity.
  - destruct s as [nl args|]; [ | discriminate H ].
    cbn [app exec] in *. destruct (stmt_out e (SPrint nl args)) as [o|x]; [ | inversion H ].
    destruct (exec e p) as [[o'|x] f] eqn:Ep; cbn [rbind] in H; inversion H; subst.
    rewrite (IH o' eq_refl). destruct (exec e q) as [[oq|x] f']; cbn [fst snd rbind]; [ | reflexivity ].
    rewrite app_assoc. reflexivity.
Qed.
