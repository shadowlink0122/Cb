(* C16 - the converters: %s, %c and %lld of render_formatted_string, and the spec parser of
   format_interpolated_value ([0][width][.precision][letter]) on the specs that Spec.v writes. *)
From Coq Require Import List Bool Ascii String ZArith Lia.
From Cb Require Import C16.Model C16.Spec C16.Digits C16.Format.
Import ListNotations.
Local Open Scope char_scope.

Lemma conv_s m z w a : conv "s" (flag_text m z) (width_text w) [] a = COk (cstr (pad_str m w (arg_to_string a))).
Proof.
  destruct (flag_text_has m z) as (Hm & Hz & Hp & Hs & Hh).
  unfold conv. rewrite Hm, Hp, Hs, Hh, width_text_value. reflexivity.
Qed.

Lemma conv_c m z w a : conv "c" (flag_text m z) (width_text w) [] a =
  COk (cstr (pad_str m w [match a with FStr (c :: _) => c | _ => byte_of_Z (farg_int a) end])).
Proof.
  destruct (flag_text_has m z) as (Hm & Hz & Hp & Hs & Hh).
  unfold conv. rewrite Hm, Hp, Hs, Hh, width_text_value. reflexivity.
Qed.

Lemma pad_str_empty m w body : pad_str m w body = [] -> body = [].
Proof.
  intros E. apply (f_equal (@List.length ascii)) in E. rewrite pad_str_length in E.
  destruct body; [ reflexivity | cbn in E; lia ].
Qed.

(* the length modifier is scanned and dropped: both formats reach the conversion d with no flags, no width *)
Lemma printf_lld_is_d a : render (s2l "%lld") [a] = render (s2l "%d") [a].
Proof. reflexivity. Qed.

(* the part of format_spec after the parse: zero flag, width, ".digits", type character *)
Definition spec_body (v : value) (zero : bool) (w : nat) (pr : bytes) (tc : ascii) : bytes :=
  if ceq tc "x" then ipad zero w (render_base false 16 (u64 (value_int v)))
  else if ceq tc "X" then ipad zero w (render_base true 16 (u64 (value_int v)))
  else if ceq tc "b" then
    let bin := render_base false 2 (u64 (value_int v)) in
    if zero && (0 <? w)%nat then ipad true w bin else bin
  else match v with
       | VInt z => if zero then pad_num false true w (sign_of z) (mag_of z) else ipad false w (dec z)
       | VStr s => s
       | VFlt ng m e => match prec_of pr with Some p => ipad zero w (fixed ng m e p) | None => [] end
       end.

(* a leading '0' is the zero flag; the width that follows does not begin with '0'.  [F] is what the caller
   builds from the flag and the rest: format_spec a pair, spec_supported the rest alone. *)
Lemma ispec_zero_flag {A} (F : bool -> bytes -> A) zero w rest : stops is_digit rest ->
  match ispec zero w rest with
  | c :: r => if ceq c "0" then F true r else F false (ispec zero w rest)
  | [] => F false []
  end = F zero (width_text w ++ rest).
Proof.
  intros Hr. unfold ispec. destruct zero; cbn [app]; [ reflexivity | ].
  pose proof (width_text_head w) as Hw. destruct (width_text w) as [|x r]; cbn [app].
  - destruct rest as [|c t]; [ reflexivity | ]. rewrite (ceq_differ is_digit c "0"); [ reflexivity | ].
    cbn in Hr. rewrite Hr. discriminate.
  - destruct Hw as [_ ->]. reflexivity.
Qed.

Lemma ispec_width w rest : stops is_digit rest -> span is_digit (width_text w ++ rest) = (width_text w, rest).
Proof. intros Hr. apply span_app; [ apply width_text_digits | exact Hr ]. Qed.

Lemma ispec_nonempty zero w rest : zero = true \/ w <> 0 \/ rest <> [] -> ispec zero w rest <> [].
Proof.
  intros NE E. apply app_eq_nil in E. destruct E as [E1 E]. apply app_eq_nil in E. destruct E as [E2 E3].
  destruct NE as [->|[Hw|Hr]]; [ discriminate | | congruence ].
  destruct w; [ congruence | ]. revert E2. apply render_base_nonempty. lia.
Qed.

Lemma format_value_ispec v zero w rest : stops is_digit rest -> zero = true \/ w <> 0 \/ rest <> [] ->
  format_value v (ispec zero w rest) =
  let (pr, r2) := parse_prec rest in spec_body v zero w pr (match r2 with c :: _ => c | [] => "000" end).
Proof.
  intros Hr NE. apply ispec_nonempty in NE. transitivity (format_spec v (ispec zero w rest)).
  - unfold format_value. destruct (ispec zero w rest); [ congruence | reflexivity ].
  - unfold format_spec. rewrite (ispec_zero_flag pair), ispec_width, width_text_value by exact Hr. reflexivity.
Qed.

Definition hex_letter (upper : bool) : ascii := if upper then "X" else "x".

Lemma interp_hex zero w z upper :
  format_value (VInt z) (ispec zero w [hex_letter upper]) = ipad zero w (render_base upper 16 (u64 z)).
Proof.
  rewrite format_value_ispec by (try (right; right; discriminate); destruct upper; reflexivity).
  destruct upper; reflexivity.
Qed.

Lemma interp_bin zero w z :
  format_value (VInt z) (ispec zero w ["b"]) =
  if zero && (0 <? w)%nat then ipad true w (render_base false 2 (u64 z)) else render_base false 2 (u64 z).
Proof. rewrite format_value_ispec by (try (right; right; discriminate); reflexivity). reflexivity. Qed.

Lemma u64_roundtrip u b z : (2 <= b <= 16)%N ->
  option_map Z.of_N (parse_base b (render_base u b (u64 z))) = Some (z mod 18446744073709551616)%Z.
Proof. intros Hb. rewrite render_base_roundtrip by exact Hb. cbn [option_map]. rewrite u64_value. reflexivity. Qed.

Lemma u64_roundtrip_padded u b w z : (2 <= b <= 16)%N ->
  option_map Z.of_N (parse_base b (ipad true w (render_base u b (u64 z)))) = Some (z mod 18446744073709551616)%Z.
Proof.
  intros Hb. unfold ipad. rewrite (parse_base_zeros b _ (u64 z)) by (try lia; apply render_base_roundtrip; exact Hb).
  cbn [option_map]. rewrite u64_value. reflexivity.
Qed.
