(* C16 - lemmas about Nested.v: rendering inside rendering.
   - the laws of the writer-with-error [M];
   - every function of Model.v is the effect-free restriction of its [_m] counterpart (so that the theorems of
     Properties_C16 about Model.v speak about the extracted [run_main] as well);
   - segments / arguments that write while they are evaluated, in front of any others (an error among these
     included); collecting the arguments of a format;
   - a run is the composition of the runs of its parts; one wrapper of the tower. *)
From Coq Require Import List Ascii.
From Cb Require Import C16.Model C16.Spec C16.Segments C16.Print C16.Nested.
Import ListNotations.
Local Open Scope char_scope.

Lemma mbind_mret_l {A B} (a : A) (f : A -> M B) : mbind (mret a) f = f a.
Proof. unfold mbind, mret. destruct (f a) as [[s r]|x]; reflexivity. Qed.

Lemma mbind_mret_r {A} (m : M A) : mbind m mret = m.
Proof. destruct m as [[s [a|]]|x]; cbn; rewrite ?app_nil_r; reflexivity. Qed.

Lemma mbind_ok {A B} (m : M A) (f : A -> M B) s a s' r :
  m = inl (s, Some a) -> f a = inl (s', r) -> mbind m f = inl (s ++ s', r).
Proof. intros -> H. cbn. rewrite H. reflexivity. Qed.

Lemma mbind_fail {A B} (m : M A) (f : A -> M B) s : m = inl (s, None) -> mbind m f = inl (s, None).
Proof. intros ->. reflexivity. Qed.

Lemma mbind_err {A B} (m : M A) (f : A -> M B) x : m = inr x -> mbind m f = inr x.
Proof. intros ->. reflexivity. Qed.

Lemma mbind_assoc {A B C} (m : M A) (f : A -> M B) (g : B -> M C) :
  mbind (mbind m f) g = mbind m (fun a => mbind (f a) g).
Proof.
  destruct m as [[s [a|]]|x]; cbn; try reflexivity.
  destruct (f a) as [[s1 [b|]]|y]; cbn; try reflexivity.
  destruct (g b) as [[s2 r]|z]; cbn; [ rewrite app_assoc | ]; reflexivity.
Qed.

Lemma mbind_emit {B} b (f : unit -> M B) s r : f tt = inl (s, r) -> mbind (emit b) f = inl (b ++ s, r).
Proof. intros H. unfold emit. cbn. rewrite H. reflexivity. Qed.

Lemma mbind_ext {A B} (m : M A) (f g : A -> M B) : (forall a, f a = g a) -> mbind m f = mbind m g.
Proof. intros H. destruct m as [[s [a|]]|x]; cbn; try reflexivity. rewrite H. reflexivity. Qed.

Definition lift_res {A} (r : (A + err)%type) : M A := match r with inl a => mret a | inr x => inr x end.
Definition lift_out (r : res) : M unit := match r with inl o => emit o | inr x => inr x end.

Lemma mlookup_lift e k :
  mlookup (lift_env e) k = match lookup e k with Some v => mret v | None => inr EUnbound end.
Proof.
  induction e as [|[k' v] e IH]; [ reflexivity | ].
  cbn [lift_env map mlookup lookup fst snd]. destruct (beq k k'); [ reflexivity | exact IH ].
Qed.

Lemma eval_segs_lift e l : eval_segs_m (lift_env e) l = lift_res (eval_segs e l).
Proof.
  induction l as [|s l IH]; [ reflexivity | ].
  destruct s as [t|ex sp|]; cbn [eval_segs_m eval_segs].
  - rewrite IH. destruct (eval_segs e l) as [o|x]; cbn; [ rewrite ?app_nil_r | ]; reflexivity.
  - rewrite mlookup_lift. destruct (lookup e ex) as [v|]; [ | reflexivity ].
    rewrite mbind_mret_l. unfold spec_of.
    destruct (spec_supported v match sp with Some f => f | None => [] end); [ | reflexivity ].
    rewrite IH. destruct (eval_segs e l) as [o|x]; cbn; reflexivity.
  - exact IH.
Qed.

Lemma eval_quoted_lift e s : eval_quoted_m (lift_env e) s = lift_res (eval_quoted e s).
Proof.
  unfold eval_quoted_m, eval_quoted. destruct (has_interpolation s); [ | reflexivity ].
  destruct (split s); [ apply eval_segs_lift | reflexivity ].
Qed.

Lemma print_value_lift e a : print_value_m (lift_env e) (lift_arg a) = lift_out (print_value e a).
Proof.
  destruct a as [s|z|s]; unfold print_value_m; cbn [lift_arg eval_arg_m print_value]; try reflexivity.
  rewrite eval_quoted_lift. destruct (eval_quoted e s) as [o|x]; reflexivity.
Qed.

Lemma print_argument_lift e a : print_argument_m (lift_env e) (lift_arg a) = lift_out (print_argument e a).
Proof.
  destruct a as [s|z|s]; cbn [lift_arg print_argument_m print_argument].
  - destruct (has_interpolation s); [ apply (print_value_lift e (AQuoted s)) | reflexivity ].
  - apply (print_value_lift e (AInt z)).
  - apply (print_value_lift e (AStr s)).
Qed.

Lemma join_values_lift e first l :
  join_values_m (lift_env e) first (map lift_arg l) = lift_out (join_values e first l).
Proof.
  revert first. induction l as [|a l IH]; intros first; [ reflexivity | ].
  cbn [map join_values_m join_values]. rewrite print_argument_lift, IH.
  destruct (print_argument e a) as [v|x]; cbn [rbind lift_out].
  - destruct (join_values e false l) as [o|y]; cbn; reflexivity.
  - reflexivity.
Qed.

Lemma collect_lift e l : collect_m (lift_env e) (map lift_arg l) = lift_res (collect e l).
Proof.
  induction l as [|a l IH]; [ reflexivity | ].
  cbn [map collect_m collect]. rewrite IH.
  destruct a as [s|z|s]; cbn [lift_arg eval_arg_m].
  - rewrite eval_quoted_lift. destruct (eval_quoted e s) as [v|x]; [ | reflexivity ].
    destruct (collect e l); reflexivity.
  - destruct (collect e l); reflexivity.
  - destruct (collect e l); reflexivity.
Qed.

Lemma find_fmt_lift l :
  find_fmt_x (map lift_arg l) =
  match find_fmt l with Some (pre, f, post) => Some (map lift_arg pre, f, map lift_arg post) | None => None end.
Proof.
  induction l as [|a l IH]; [ reflexivity | ].
  cbn [map find_fmt_x find_fmt].
  assert (E : is_fmt_literal_x (lift_arg a) = is_fmt_literal a) by (destruct a; reflexivity).
  rewrite E. destruct (is_fmt_literal a); [ reflexivity | ].
  rewrite IH. destruct (find_fmt l) as [[[pre f] post]|]; reflexivity.
Qed.

Lemma print_multiple_lift e args :
  print_multiple_m (lift_env e) (map lift_arg args) = lift_out (print_multiple e args).
Proof.
  destruct args as [|a [|b r]]; [ reflexivity | apply print_argument_lift | ].
  unfold print_multiple_m, print_multiple.
  cbn [map]. change (lift_arg a :: lift_arg b :: map lift_arg r) with (map lift_arg (a :: b :: r)).
  rewrite find_fmt_lift. destruct (find_fmt (a :: b :: r)) as [[[pre f] post]|]; [ | apply join_values_lift ].
  rewrite join_values_lift, collect_lift.
  destruct (join_values e true pre) as [p|x]; cbn [rbind lift_out]; [ | reflexivity ].
  destruct (collect e post) as [fa|y]; [ | destruct pre; reflexivity ].
  destruct (render f fa) as [out|] eqn:Er; destruct pre; cbn; rewrite Er; cbn; rewrite ?app_nil_r; reflexivity.
Qed.

Lemma stmt_lift e s (Hs : s <> SFail) :
  stmt_m (lift_env e) (lift_stmt s) =
  match stmt_out e s with inl o => inl (o, Some (lift_env e)) | inr x => inr x end.
Proof.
  destruct s as [nl args|]; [ | congruence ].
  cbn [lift_stmt stmt_m stmt_out]. rewrite print_multiple_lift.
  destruct (print_multiple e args) as [o|x]; cbn; [ | reflexivity ].
  rewrite app_nil_r. reflexivity.
Qed.

Lemma exec_lift e p :
  exec_m (lift_env e) (map lift_stmt p) =
  match exec e p with
  | (inl o, false) => inl (o, Some (lift_env e))
  | (inl o, true) => inl (o, None)
  | (inr x, _) => inr x
  end.
Proof.
  induction p as [|s p IH]; [ reflexivity | ].
  destruct s as [nl args|]; [ | reflexivity ].
  cbn [map exec_m exec]. rewrite stmt_lift by discriminate.
  destruct (stmt_out e (SPrint nl args)) as [o|x]; [ | reflexivity ].
  cbn [mbind]. rewrite IH. destruct (exec e p) as [[o'|y] [|]]; reflexivity.
Qed.

Lemma forallb_parses_lift p : forallb xstmt_parses (map lift_stmt p) = forallb stmt_parses p.
Proof.
  induction p as [|s p IH]; [ reflexivity | ]. cbn [map forallb]. rewrite IH. f_equal.
  destruct s as [nl args|]; [ | reflexivity ]. cbn [lift_stmt xstmt_parses stmt_parses].
  induction args as [|a args IHa]; [ reflexivity | ]. cbn [map forallb]. rewrite IHa. f_equal.
  destruct a; reflexivity.
Qed.

Lemma run_locals_lift e :
  map (fun p : bytes * comp => (fst p, run_comp (snd p))) (map (fun q : bytes * value => (fst q, CVal (snd q))) e) = lift_env e.
Proof. unfold lift_env. rewrite map_map. apply map_ext. intros [k v]. reflexivity. Qed.

Lemma comp_parses_vals (e : env) :
  forallb (fun p : bytes * comp => comp_parses (snd p)) (map (fun q : bytes * value => (fst q, CVal (snd q))) e) = true.
Proof. induction e as [|[k v] e IH]; [ reflexivity | exact IH ]. Qed.

Lemma eval_text_seg e t (l : list segment) :
  eval_segs_m e (text_seg t ++ l) = mbind (eval_segs_m e l) (fun o => mret (t ++ o)).
Proof.
  destruct t as [|c t]; [ | reflexivity ].
  cbn [text_seg app]. symmetry. apply mbind_mret_r.
Qed.

Lemma eval_text_seg_last e t : eval_segs_m e (text_seg t) = mret t.
Proof. destruct t; [ reflexivity | ]. cbn [text_seg eval_segs_m]. rewrite mbind_mret_l, app_nil_r. reflexivity. Qed.

(* whatever evaluating the expression does (write, yield a value, raise an error), the literal does it too and,
   given a value, yields the two texts around the formatted value *)
Lemma eval_quoted_m_one_expr e t1 ex t2 : plain_text t1 -> no_backslash t1 -> plain_text t2 -> no_braces ex ->
  eval_quoted_m e (t1 ++ "{" :: ex ++ "}" :: t2) =
  mbind (mlookup e (fst (split_colon ex))) (fun v =>
    if spec_supported v (spec_of (snd (split_colon ex)))
    then mret (t1 ++ format_value v (spec_of (snd (split_colon ex))) ++ t2) else inr EUnsupported).
Proof.
  intros H1 Hb H2 He. unfold eval_quoted_m. destruct (split_one_expr t1 ex t2 H1 Hb H2 He) as [-> ->].
  rewrite eval_text_seg. unfold mk_expr. destruct (split_colon ex) as [a o]. cbn [fst snd eval_segs_m].
  rewrite mbind_assoc. apply mbind_ext. intros v. destruct (spec_supported v (spec_of o)); [ | reflexivity ].
  rewrite eval_text_seg_last, !mbind_mret_l. reflexivity.
Qed.

(* what one segment writes while it is evaluated and what it contributes to the value *)
Definition seg_ok (e : menv) (s : segment) (o : bytes * bytes) : Prop :=
  match s with
  | SText t => o = ([], t)
  | SDollar => o = ([], [])
  | SExpr ex sp => exists v, mlookup e ex = inl (fst o, Some v) /\ spec_supported v (spec_of sp) = true /\
                             snd o = format_value v (spec_of sp)
  end.

(* segments that evaluate, in front of any others: what they write comes first, in segment order, and their
   values are put in front of the value of the rest, if it has one *)
Lemma eval_segs_m_app e l1 outs l2 w r : Forall2 (seg_ok e) l1 outs -> eval_segs_m e l2 = inl (w, r) ->
  eval_segs_m e (l1 ++ l2) =
  inl (List.concat (map fst outs) ++ w, option_map (app (List.concat (map snd outs))) r).
Proof.
  intros H H2. induction H as [|s o l1 outs Hs _ IH]; cbn [app map List.concat].
  - rewrite H2. destruct r; reflexivity.
  - destruct s as [t|ex sp|]; cbn [seg_ok] in Hs; cbn [eval_segs_m].
    + subst o. rewrite IH. destruct r; cbn; rewrite ?app_nil_r, ?app_assoc; reflexivity.
    + destruct Hs as (v & Hl & Hsup & Hv). destruct o as [sd val]. cbn [fst snd] in *. subst val.
      rewrite Hl. cbn [mbind]. rewrite Hsup, IH. destruct r; cbn; rewrite ?app_nil_r, ?app_assoc; reflexivity.
    + subst o. exact IH.
Qed.

Definition arg_ok (e : menv) (a : xarg) (o : bytes) : Prop := print_argument_m e a = inl (o, Some tt).

(* arguments that evaluate, in front of any others: their texts, each after its separator and after what its
   evaluation wrote, come first; the others are joined behind them (and begin the line only if nothing is in front) *)
Lemma join_values_m_app e first pre vs post w r : Forall2 (arg_ok e) pre vs ->
  join_values_m e (match pre with [] => first | _ => false end) post = inl (w, r) ->
  join_values_m e first (pre ++ post) =
  inl ((if first then join_sp vs else List.concat (map (cons " ") vs)) ++ w, r).
Proof.
  intros H. revert first. induction H as [|p v pre vs Hp _ IH]; intros first H2; cbn [app].
  - rewrite H2. destruct first; reflexivity.
  - cbn [join_values_m]. unfold arg_ok in Hp. rewrite Hp, (IH false) by (destruct pre; exact H2).
    destruct first; cbn; rewrite <- ?app_assoc; reflexivity.
Qed.

Lemma join_values_m_true e args vs : Forall2 (arg_ok e) args vs ->
  join_values_m e true args = inl (join_sp vs, Some tt).
Proof.
  intros H. rewrite <- (app_nil_r args), (join_values_m_app e true args vs [] [] (Some tt) H eq_refl), app_nil_r.
  reflexivity.
Qed.

(* collect_formatted_arguments: all arguments are evaluated, in order, before the format is rendered *)
Lemma collect_m_ok e post outs :
  Forall2 (fun a o => eval_arg_m e a = inl (fst o, Some (snd o)) /\ is_flt (snd o) = false) post outs ->
  collect_m e post = inl (List.concat (map fst outs), Some (map (fun o => farg_of (snd o)) outs)).
Proof.
  induction 1 as [|a o post outs [Ha Hf] _ IH]; [ reflexivity | ].
  cbn [collect_m map List.concat]. rewrite Ha. cbn [mbind]. rewrite Hf, IH. cbn. rewrite app_nil_r. reflexivity.
Qed.

Lemma exec_m_app e p q : exec_m e (p ++ q) = mbind (exec_m e p) (fun e' => exec_m e' q).
Proof.
  revert e. induction p as [|s p IH]; intros e.
  - cbn [app exec_m]. rewrite mbind_mret_l. reflexivity.
  - cbn [app exec_m]. rewrite mbind_assoc. apply mbind_ext. intros e'. apply IH.
Qed.

Lemma seq_params_ok ps outs :
  Forall2 (fun p o => snd p = inl (fst o, Some (snd o))) ps outs ->
  seq_params ps = inl (List.concat (map fst outs),
                       Some (map (fun po => (fst (fst po), mret (snd (snd po)))) (combine ps outs))).
Proof.
  induction 1 as [|[k m] o ps outs Hp _ IH]; [ reflexivity | ].
  cbn [seq_params map List.concat combine fst snd] in *. rewrite Hp, IH. cbn. rewrite app_nil_r. reflexivity.
Qed.

Definition wrapper_ok (w : bytes * bytes) : Prop := plain_text (fst w) /\ no_backslash (fst w) /\ plain_text (snd w).

(* one wrapper, whatever the inner computation does: its output, and around its value the two texts *)
Lemma run_wrap_one w inner : wrapper_ok w ->
  run_comp (wrap_one w inner) =
  mbind (run_comp inner) (fun v => mret (VStr (fst w ++ format_value v [] ++ snd w))).
Proof.
  intros (H1 & Hb & H2). unfold wrap_one. cbn [run_comp map fst snd]. unfold call_m. cbn [seq_params].
  rewrite mbind_mret_l. cbn [app exec_m]. rewrite mbind_mret_l. cbn [eval_arg_m].
  rewrite eval_quoted_m_one_expr by (assumption || (repeat constructor; discriminate)).
  change (split_colon hole) with (hole, @None bytes). cbn [fst snd mlookup]. change (beq hole hole) with true. cbv iota.
  rewrite mbind_assoc. apply mbind_ext. intros v. destruct v; reflexivity.
Qed.
