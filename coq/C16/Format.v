(* C16 - lemmas about padding, about the strings that fputs and process_escape_sequences leave alone, and about
   the printf directive parser of render_formatted_string on the directives that Spec.v writes. *)
From Coq Require Import List Arith Bool Ascii NArith Lia.
From Cb Require Import C16.Model C16.Spec C16.Segments C16.Digits.
Import ListNotations.
Local Open Scope char_scope.

Lemma pad_num_length m z w sg dg :
  List.length (pad_num m z w sg dg) = Nat.max w (List.length sg + List.length dg).
Proof.
  unfold pad_num, spaces, zeros. destruct m, z; repeat rewrite app_length; rewrite repeat_length; lia.
Qed.

Lemma pad_str_length m w body : List.length (pad_str m w body) = Nat.max w (List.length body).
Proof. unfold pad_str, spaces. destruct m; rewrite app_length, repeat_length; lia. Qed.

Lemma ipad_length z w body : List.length (ipad z w body) = Nat.max w (List.length body).
Proof. unfold ipad. rewrite app_length, repeat_length. lia. Qed.

(* strings without NUL / backslash: fputs and process_escape_sequences leave them unchanged *)
Definition clean (s : bytes) : Prop := Forall (fun c => ceq c "000" = false /\ ceq c "\" = false) s.

Lemma cstr_clean s : clean s -> cstr s = s.
Proof. induction 1 as [|c s [H0 _] _ IH]; [ reflexivity | ]. cbn [cstr]. rewrite H0, IH. reflexivity. Qed.

Lemma process_escape_clean_bs s : no_backslash s -> process_escape s = s.
Proof.
  induction 1 as [|c s H1 _ IH]; [ reflexivity | ]. cbn [process_escape].
  rewrite (ceq_neq _ _ H1), IH. reflexivity.
Qed.

Lemma process_escape_clean s : clean s -> process_escape s = s.
Proof.
  intros H. apply process_escape_clean_bs. eapply Forall_impl; [ | exact H ].
  intros c [_ H1]. apply ceq_false. exact H1.
Qed.

Lemma clean_app a b : clean a -> clean b -> clean (a ++ b).
Proof. intros. apply Forall_app. split; assumption. Qed.

Lemma clean_repeat c k : ceq c "000" = false -> ceq c "\" = false -> clean (repeat c k).
Proof. intros. induction k; constructor; auto. Qed.

Lemma clean_base u b n : (0 < b <= 16)%N -> clean (render_base u b n).
Proof.
  intros Hb. apply Forall_forall. intros c Hc.
  destruct (render_base_chars u b n c) as (d & Hd & ->); [ lia | exact Hc | ]. apply digit_clean. lia.
Qed.

Lemma clean_sign z : clean (sign_of z).
Proof. destruct z; repeat constructor. Qed.

Lemma clean_pad_num m z w sg dg : clean sg -> clean dg -> clean (pad_num m z w sg dg).
Proof.
  intros. unfold pad_num, spaces, zeros.
  destruct m, z; repeat apply clean_app; try assumption; apply clean_repeat; reflexivity.
Qed.

Lemma clean_pad_str m w body : clean body -> clean (pad_str m w body).
Proof. intros. unfold pad_str, spaces. destruct m; apply clean_app; try assumption; apply clean_repeat; reflexivity. Qed.

Lemma clean_ipad z w body : clean body -> clean (ipad z w body).
Proof. intros. unfold ipad. apply clean_app; [ destruct z; apply clean_repeat; reflexivity | assumption ]. Qed.

Lemma clean_dec z : clean (dec z).
Proof. apply clean_app; [ apply clean_sign | apply clean_base; lia ]. Qed.

Lemma pad_num_nonempty m z w sg dg : dg <> [] -> pad_num m z w sg dg <> [].
Proof.
  intros H E. apply (f_equal (@List.length ascii)) in E. rewrite pad_num_length in E.
  destruct dg; [ congruence | cbn in E; lia ].
Qed.

(* [s] is empty or begins with a character outside [p]: a scan for [p] stops in front of it *)
Definition stops (p : ascii -> bool) (s : bytes) : Prop := match s with [] => True | c :: _ => p c = false end.

Lemma span_app p a b : forallb p a = true -> stops p b -> span p (a ++ b) = (a, b).
Proof.
  intros Ha Hb. induction a as [|x a IH].
  - cbn [app]. destruct b as [|c b]; [ reflexivity | ]. cbn [span]. rewrite Hb. reflexivity.
  - cbn [forallb] in Ha. apply andb_true_iff in Ha. destruct Ha as [Hx Ha].
    cbn [app span]. rewrite Hx, (IH Ha). reflexivity.
Qed.

Lemma ceq_differ (p : ascii -> bool) c x : p c <> p x -> ceq c x = false.
Proof. intros H. apply ceq_neq. intros ->. apply H. reflexivity. Qed.

Lemma digit_flag c : is_digit c = true -> is_flag c = ceq c "0".
Proof.
  intros H. unfold is_flag.
  rewrite (ceq_differ is_digit c "-"), (ceq_differ is_digit c "+"), (ceq_differ is_digit c " "),
    (ceq_differ is_digit c "#") by (rewrite H; discriminate).
  destruct (ceq c "0"); reflexivity.
Qed.

Lemma nat_of_digits_udec n : nat_of_digits (udec n) = N.to_nat n.
Proof.
  unfold nat_of_digits, udec, render_base. f_equal.
  rewrite <- (digits_value 10 n) at 2 by lia. unfold from_digits.
  pose proof (digits_bound 10 n ltac:(lia)) as F. revert F. generalize 0%N. generalize (digitsN 10 n).
  induction l as [|d l IH]; intros acc F; [ reflexivity | ].
  inversion F; subst. cbn [map fold_left]. rewrite digit_val_char by assumption. apply IH. assumption.
Qed.

Lemma width_text_value w : nat_of_digits (width_text w) = w.
Proof. destruct w; [ reflexivity | ]. unfold width_text. rewrite nat_of_digits_udec. lia. Qed.

Lemma width_text_digits w : forallb is_digit (width_text w) = true.
Proof. destruct w; [ reflexivity | apply udec_all_digits ]. Qed.

(* the width starts with a digit other than '0': it is not taken for a flag, a '%' or the 0 of a spec *)
Lemma width_text_head w :
  match width_text w with [] => True | c :: _ => is_digit c = true /\ ceq c "0" = false end.
Proof.
  destruct w; [ exact I | ]. unfold width_text.
  destruct (udec_head (N.of_nat (S w))) as (c & r & E & Hc); [ lia | ].
  pose proof (udec_all_digits (N.of_nat (S w))) as A. rewrite E in *. cbn [forallb] in A.
  apply andb_true_iff in A. split; [ apply A | exact Hc ].
Qed.

Lemma flag_text_flags m z : forallb is_flag (flag_text m z) = true.
Proof. destruct m, z; reflexivity. Qed.

Lemma flag_text_has m z :
  has_char "-" (flag_text m z) = m /\ has_char "0" (flag_text m z) = z /\
  has_char "+" (flag_text m z) = false /\ has_char " " (flag_text m z) = false /\ has_char "#" (flag_text m z) = false.
Proof. destruct m, z; repeat split; reflexivity. Qed.

Definition conv_char (c : ascii) : Prop :=
  is_flag c = false /\ is_digit c = false /\ ceq c "." = false /\ ceq c "l" = false /\ ceq c "L" = false /\
  ceq c "%" = false.

Lemma render_go_percent fu tl args :
  match tl with [] => False | c2 :: _ => ceq c2 "%" = false end ->
  render_go (S fu) ("%" :: tl) args =
    let (flags, r1) := span is_flag tl in
    let (width, r2) := span is_digit r1 in
    let (prec, r3) := parse_prec r2 in
    let (lm, r4) := parse_len r3 in
    match r4 with
    | [] => Some ("%" :: flags ++ width ++ prec ++ lm, args)
    | spec :: r5 =>
      match args with
      | [] => oapp ["%"; spec] (render_go fu r5 [])
      | a :: args' =>
        match conv spec flags width prec a with
        | CUnsupported => None
        | CUnknown => oapp ["%"; spec] (render_go fu r5 args')
        | COk s => oapp (match s with [] => arg_to_string a | _ => s end) (render_go fu r5 args')
        end
      end
    end.
Proof.
  destruct tl as [|c2 r]; [ contradiction | ]. intros H.
  cbn [render_go]. change (ceq "%" "\") with false. change (ceq "%" "%") with true. cbn [negb].
  rewrite H. reflexivity.
Qed.

Lemma render_go_directive fu m z w c rest a args : conv_char c ->
  render_go (S fu) (directive m z w c ++ rest) (a :: args) =
  match conv c (flag_text m z) (width_text w) [] a with
  | CUnsupported => None
  | CUnknown => oapp ["%"; c] (render_go fu rest args)
  | COk s => oapp (match s with [] => arg_to_string a | _ => s end) (render_go fu rest args)
  end.
Proof.
  intros (Hf & Hd & Hdot & Hl & HL & Hp). pose proof (width_text_head w) as Hw.
  unfold directive. cbn [app]. rewrite <- !app_assoc. cbn [app].
  rewrite render_go_percent.
  - rewrite (span_app is_flag (flag_text m z) (width_text w ++ c :: rest)).
    + rewrite (span_app is_digit (width_text w) (c :: rest)) by (try apply width_text_digits; exact Hd).
      unfold parse_prec. rewrite Hdot. unfold parse_len. rewrite Hl, HL. reflexivity.
    + apply flag_text_flags.
    + destruct (width_text w); [ exact Hf | ]. destruct Hw as [Hx H0]. cbn [app stops]. rewrite digit_flag; assumption.
  - (* the character after '%' is not another '%' *)
    destruct m, z; cbn [flag_text app]; try reflexivity.
    destruct (width_text w); [ exact Hp | ]. destruct Hw as [Hx _].
    cbn [app]. apply (ceq_differ is_digit). rewrite Hx. discriminate.
Qed.

Lemma render_go_nil fu args : render_go fu [] args = Some ([], args).
Proof. destruct fu; reflexivity. Qed.

(* a format that is one directive, one argument: when the conversion yields the text [out] (an empty result
   makes the renderer fall back to the argument's own text), [out] is what is rendered *)
Lemma render_go_one fu m z w c a out : conv_char c ->
  conv c (flag_text m z) (width_text w) [] a = COk (cstr out) -> clean out ->
  (out = [] -> arg_to_string a = []) ->
  render_go (S fu) (directive m z w c) [a] = Some (out, []).
Proof.
  intros Hc Hconv C Hne. rewrite <- (app_nil_r (directive m z w c)).
  rewrite render_go_directive, Hconv, render_go_nil, cstr_clean by assumption.
  assert (E : match out with [] => arg_to_string a | _ => out end = out) by (destruct out; auto).
  rewrite E. cbn [oapp]. rewrite app_nil_r. reflexivity.
Qed.

(* ... also behind k escaped backslashes, which come out as k backslashes: each pair \\ is copied by the
   renderer and made one by process_escape_sequences (fix 475de81) *)
Lemma render_go_bs_pair fu r args :
  render_go (S fu) ("\" :: "\" :: r) args = ocons "\" (ocons "\" (render_go fu r args)).
Proof. reflexivity. Qed.

Lemma render_go_bs_pairs k : forall fu f args,
  render_go (k + fu) (bs_pairs k ++ f) args = oapp (bs_pairs k) (render_go fu f args).
Proof.
  induction k as [|k IH]; intros fu f args; cbn [Nat.add bs_pairs app]; [ | rewrite render_go_bs_pair, IH ];
    destruct (render_go fu f args) as [[s a]|]; reflexivity.
Qed.

Lemma process_escape_bs_pairs k s : process_escape (bs_pairs k ++ s) = repeat "\" k ++ process_escape s.
Proof.
  induction k as [|k IH]; [ reflexivity | ]. cbn [bs_pairs app repeat].
  change (process_escape ("\" :: "\" :: bs_pairs k ++ s)) with ("\" :: process_escape (bs_pairs k ++ s)).
  rewrite IH. reflexivity.
Qed.

Lemma bs_pairs_length k : List.length (bs_pairs k) = 2 * k.
Proof. induction k as [|k IH]; [ reflexivity | ]. cbn [bs_pairs List.length]. lia. Qed.

Theorem render_escaped_directive k m z w c a out : conv_char c ->
  conv c (flag_text m z) (width_text w) [] a = COk (cstr out) -> clean out ->
  (out = [] -> arg_to_string a = []) ->
  render (bs_pairs k ++ directive m z w c) [a] = Some (repeat "\" k ++ out).
Proof.
  intros Hc Hconv C Hne. unfold render.
  replace (S (List.length (bs_pairs k ++ directive m z w c))) with (k + S (k + List.length (directive m z w c)))
    by (rewrite app_length, bs_pairs_length; lia).
  rewrite render_go_bs_pairs, (render_go_one _ m z w c a out) by assumption.
  cbn [oapp append_extra]. rewrite process_escape_bs_pairs, process_escape_clean by exact C. reflexivity.
Qed.

(* the integer conversions, for every flag combination of '-' and '0', every width, every value *)
Definition int_body (c : ascii) (v : Z) : bytes * bytes :=
  if ceq c "d" || ceq c "i" then (sign_of v, mag_of v)
  else if ceq c "u" then ([], udec (u64 v))
  else if ceq c "o" then ([], render_base false 8 (u64 v))
  else if ceq c "x" then ([], render_base false 16 (u64 v))
  else ([], render_base true 16 (u64 v)).
Definition int_conv_char (c : ascii) : Prop := In c ["d"; "i"; "u"; "o"; "x"; "X"].

(* the sign is that of a decimal or empty, the digits are a numeral in a base 2..16 *)
Lemma int_body_clean c v : clean (fst (int_body c v)) /\ clean (snd (int_body c v)) /\ snd (int_body c v) <> [].
Proof.
  unfold int_body.
  destruct (ceq c "d" || ceq c "i"); [ | destruct (ceq c "u"); [ | destruct (ceq c "o"); [ | destruct (ceq c "x") ] ] ];
    cbn [fst snd];
    (split; [ apply clean_sign || constructor | split; [ apply clean_base | apply render_base_nonempty ]; lia ]).
Qed.

Lemma int_conv_is_conv_char c : int_conv_char c -> conv_char c.
Proof. intros [<-|[<-|[<-|[<-|[<-|[<-|[]]]]]]]; repeat split. Qed.

Lemma conv_int c m z w a : int_conv_char c ->
  let out := pad_num m z w (fst (int_body c (farg_int a))) (snd (int_body c (farg_int a))) in
  conv c (flag_text m z) (width_text w) [] a = COk (cstr out) /\ clean out /\ out <> [].
Proof.
  intros Hc out. destruct (int_body_clean c (farg_int a)) as (C1 & C2 & NE).
  split; [ | split; [ apply clean_pad_num; assumption | apply pad_num_nonempty; exact NE ] ].
  destruct (flag_text_has m z) as (Hm & Hz & Hp & Hs & Hh).
  unfold conv. rewrite Hm, Hz, Hp, Hs, Hh, width_text_value.
  destruct Hc as [<-|[<-|[<-|[<-|[<-|[<-|[]]]]]]]; reflexivity.
Qed.

Theorem render_int_directive c m z w a : int_conv_char c ->
  render (directive m z w c) [a] =
  Some (pad_num m z w (fst (int_body c (farg_int a))) (snd (int_body c (farg_int a)))).
Proof.
  intros Hc. destruct (conv_int c m z w a Hc) as (E & C & NE).
  apply (render_escaped_directive 0); [ apply int_conv_is_conv_char; exact Hc | exact E | exact C | contradiction ].
Qed.

Lemma escape_percent_length t : List.length t <= List.length (escape_percent t).
Proof. induction t as [|c t IH]; [ cbn; lia | ]. cbn [escape_percent]. destruct (ceq c "%"); cbn; lia. Qed.

Lemma render_go_escape_percent t : no_backslash t -> forall fu args,
  List.length (escape_percent t) <= fu -> render_go fu (escape_percent t) args = Some (t, args).
Proof.
  induction 1 as [|c t Hc _ IH]; intros fu args Hfu; [ apply render_go_nil | ].
  apply ceq_neq in Hc. cbn [escape_percent] in *.
  destruct (ceq c "%") eqn:Ep; cbn [List.length] in Hfu; (destruct fu as [|fu]; [ lia | ]); cbn [render_go].
  - apply ceq_eq in Ep. subst c. change (ceq "%" "\") with false. change (ceq "%" "%") with true.
    cbn [negb]. rewrite IH by lia. reflexivity.
  - rewrite Hc, Ep. cbn [negb]. rewrite IH by lia. reflexivity.
Qed.

Definition no_meta (t : bytes) : Prop := Forall (fun c => c <> "%" /\ c <> "\") t.

Lemma has_fmt_go_plain t : no_meta t -> forall s, has_fmt_go false (t ++ s) = has_fmt_go false s.
Proof.
  induction 1 as [|c t (Hp & Hb) _ IH]; intros s; [ reflexivity | ].
  cbn [app has_fmt_go]. rewrite (ceq_neq _ _ Hp), (ceq_neq _ _ Hb). apply IH.
Qed.

Lemma has_fmt_go_pairs k : forall b s, has_fmt_go b (bs_pairs k ++ s) = has_fmt_go b s.
Proof.
  induction k as [|k IH]; intros b s; [ reflexivity | ].
  cbn [bs_pairs app has_fmt_go]. change (ceq "\" "%") with false. change (ceq "\" "\") with true. cbv iota.
  rewrite negb_involutive. apply IH.
Qed.
