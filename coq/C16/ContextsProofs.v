(* C16 - lemmas about Contexts.v: a rendering does not depend on where it stands.
   - a token list without scope tokens runs like the statements of Nested.v, and so do whole call instances
     ([embed]);
   - a flat body runs its statements and collects its deferred statements; a scope around it ([scope_runs_l])
     runs them last registered first and leaves environment, pending deferred statements and enclosing scopes
     as they were;
   - the nodes of a literal's AST are evaluated like its segments, and a copied node is the node. *)
From Coq Require Import List Bool.
From Cb Require Import C16.Model C16.Nested C16.NestedProofs C16.Contexts.
Import ListNotations.
Local Open Scope char_scope.

Definition comp_ind2 (P : comp -> Prop) (HV : forall v, P (CVal v))
  (HC : forall ps ls body r, Forall (fun p => P (snd p)) ps -> Forall (fun p => P (snd p)) ls -> P (CCall ps ls body r))
  : forall c, P c :=
  fix go (c : comp) : P c :=
    match c with
    | CVal v => HV v
    | CCall ps ls body r =>
        HC ps ls body r
          ((fix gl (l : list (bytes * comp)) : Forall (fun p => P (snd p)) l :=
              match l with
              | [] => Forall_nil _
              | p :: t => Forall_cons p (go (snd p)) (gl t)
              end) ps)
          ((fix gl (l : list (bytes * comp)) : Forall (fun p => P (snd p)) l :=
              match l with
              | [] => Forall_nil _
              | p :: t => Forall_cons p (go (snd p)) (gl t)
              end) ls)
    end.

Lemma exec_c_app st p q : exec_c st (p ++ q) = mbind (exec_c st p) (fun st' => exec_c st' q).
Proof.
  revert st. induction p as [|s p IH]; intros st.
  - cbn [app exec_c]. rewrite mbind_mret_l. reflexivity.
  - cbn [app exec_c]. rewrite mbind_assoc. apply mbind_ext. intros st'. apply IH.
Qed.

Lemma exec_c_base e ds stk p :
  exec_c (e, ds, stk) (map CBase p) = mbind (exec_m e p) (fun e' => mret (e', ds, stk)).
Proof.
  revert e. induction p as [|s p IH]; intros e.
  - cbn [map exec_c exec_m]. rewrite mbind_mret_l. reflexivity.
  - cbn [map exec_c exec_m step_c]. rewrite !mbind_assoc. apply mbind_ext. intros e'.
    rewrite mbind_mret_l. apply IH.
Qed.

Lemma exec_c_flat body : forallb flat_tok body = true -> forall e ds stk,
  exec_c (e, ds, stk) body = mbind (exec_m e (bases body)) (fun e1 => mret (e1, rev (defers body) ++ ds, stk)).
Proof.
  induction body as [|s body IH]; intros Hf e ds stk.
  - cbn. reflexivity.
  - cbn [forallb] in Hf. apply andb_true_iff in Hf. destruct Hf as [Hs Hf].
    destruct s as [x | al | | x]; try discriminate Hs.
    + cbn [exec_c step_c bases defers exec_m]. rewrite !mbind_assoc. apply mbind_ext. intros e'.
      rewrite mbind_mret_l. apply (IH Hf).
    + cbn [exec_c step_c bases defers]. rewrite mbind_mret_l. rewrite (IH Hf).
      apply mbind_ext. intros e1. cbn [rev]. rewrite <- app_assoc. reflexivity.
Qed.

(* a scope with a flat body *)
Lemma scope_runs_l e ds stk al body : forallb flat_tok body = true ->
  exec_c (e, ds, stk) (scope al body) = mbind (scope_result e al body) (fun _ => mret (e, ds, stk)).
Proof.
  intros Hf. unfold scope, scope_result. cbn [exec_c step_c]. rewrite mbind_mret_l.
  rewrite exec_c_app. rewrite (exec_c_flat body Hf). rewrite !mbind_assoc. apply mbind_ext. intros e1.
  rewrite mbind_mret_l. cbn [exec_c step_c]. rewrite app_nil_r. rewrite !mbind_assoc.
  apply mbind_ext. intros []. rewrite !mbind_mret_l. reflexivity.
Qed.

Lemma run_defers_app e p q : run_defers e (p ++ q) = mbind (run_defers e p) (fun _ => run_defers e q).
Proof.
  induction p as [|s p IH].
  - cbn [app run_defers]. rewrite mbind_mret_l. reflexivity.
  - cbn [app run_defers]. rewrite mbind_assoc. apply mbind_ext. intros _. apply IH.
Qed.

Fixpoint repeat_l {A} (x : A) (n : nat) : list A := match n with O => [] | S k => x :: repeat_l x k end.

Lemma beq_refl_l a : beq a a = true.
Proof. induction a as [|c a IH]; cbn; [ reflexivity | ]. unfold ceq. rewrite Ascii.eqb_refl. exact IH. Qed.

Lemma call_c_base ps ls body r : call_c ps ls (map CBase body) r = call_m ps ls body r.
Proof.
  unfold call_c, call_m. apply mbind_ext. intros bound. rewrite exec_c_base. rewrite !mbind_assoc.
  apply mbind_ext. intros e'. rewrite mbind_mret_l. cbn [fst snd unwind run_defers]. rewrite !mbind_mret_l. reflexivity.
Qed.

Lemma embed_run_l : forall c, run_ccomp (embed c) = run_comp c.
Proof.
  apply comp_ind2; [ reflexivity | ]. intros ps ls body r Hps Hls.
  cbn [embed run_ccomp run_comp]. rewrite !map_map. cbn [fst snd]. rewrite call_c_base.
  f_equal; apply map_ext_Forall.
  - eapply Forall_impl; [ | exact Hps ]. intros p Hp. cbn. rewrite Hp. reflexivity.
  - eapply Forall_impl; [ | exact Hls ]. intros p Hp. cbn. rewrite Hp. reflexivity.
Qed.

Lemma forallb_ext_Forall {A} (f g : A -> bool) l : Forall (fun a => f a = g a) l -> forallb f l = forallb g l.
Proof. induction 1 as [|a l Ha _ IH]; cbn; [ reflexivity | rewrite Ha, IH; reflexivity ]. Qed.

Lemma forallb_map_l {A B} (f : B -> bool) (g : A -> B) l : forallb f (map g l) = forallb (fun a => f (g a)) l.
Proof. induction l as [|a l IH]; cbn; [ reflexivity | rewrite IH; reflexivity ]. Qed.

Lemma embed_parses_l : forall c, ccomp_parses (embed c) = comp_parses c.
Proof.
  apply comp_ind2; [ reflexivity | ]. intros ps ls body r Hps Hls.
  cbn [embed ccomp_parses comp_parses]. rewrite !forallb_map_l. cbn [fst snd].
  assert (Hb : forallb (fun x => cstmt_parses (CBase x)) body = forallb xstmt_parses body) by reflexivity.
  rewrite Hb.
  rewrite (forallb_ext_Forall _ _ _ Hps), (forallb_ext_Forall _ _ _ Hls). reflexivity.
Qed.

Lemma clone_node_same n : clone_node n = n.
Proof. destruct n; reflexivity. Qed.

Lemma eval_nodes_of_segments e l : eval_nodes_m e (map node_of l) = eval_segs_m e l.
Proof.
  induction l as [|s l IH]; [ reflexivity | ].
  destruct s as [t | ex sp | ]; cbn [map node_of eval_nodes_m eval_segs_m sn_text sn_expr sn_str sn_fmt].
  - rewrite IH. reflexivity.
  - apply mbind_ext. intros v. destruct (spec_supported v (spec_of sp)); [ | reflexivity ]. rewrite IH. reflexivity.
  - exact IH.
Qed.
