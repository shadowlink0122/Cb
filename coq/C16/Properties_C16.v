(* C16 - the property theorems.  Statements are about the Mech model of the output path (Model.v:
   output_manager.cpp, the interpolation splitter, format_interpolated_value) and the readers of Spec.v;
   the lemmas they are proved from are in Digits.v / Format.v / Convert.v / FloatFmt.v / Segments.v / Print.v /
   NestedProofs.v. *)
From Coq Require Import List Bool Ascii String ZArith Lia.
From Cb Require Import C16.Model C16.Spec C16.Digits C16.Format C16.Convert C16.Segments C16.Print C16.Nested C16.NestedProofs C16.FloatFmt.
Import ListNotations.
Local Open Scope char_scope.

(* reading the printed decimal back gives the value, for every integer (no 64-bit bound) *)
Theorem dec_roundtrip : forall z : Z, parse_dec (dec z) = Some z.
Proof. exact (sign_zeros_parse 0). Qed.
Print Assumptions dec_roundtrip.

(* digits only, no leading zero, '-' only in front of a non-zero number *)
Theorem dec_canonical : forall z : Z, is_canonical_dec (dec z) = true.
Proof.
  intros z. unfold is_canonical_dec. destruct z as [|p|p].
  - reflexivity.
  - change (dec (Zpos p)) with (udec (Npos p)). rewrite udec_canonical. reflexivity.
  - change (dec (Zneg p)) with ("-" :: udec (Npos p)). apply orb_true_iff. right.
    rewrite udec_canonical. destruct (udec_head (Npos p)) as (c & r & E & Hc); [ discriminate | ].
    rewrite E. cbn [beq]. rewrite Hc. reflexivity.
Qed.
Print Assumptions dec_canonical.

Theorem dec_injective : forall a b : Z, dec a = dec b -> a = b.
Proof.
  intros a b E. pose proof (dec_roundtrip a) as Ha. rewrite E, dec_roundtrip in Ha. congruence.
Qed.
Print Assumptions dec_injective.

(* println(n), "%d", "%lld" and "{n}" all print exactly dec n *)
Theorem converters_agree : forall (e : env) (z : Z),
  stmt_out e (SPrint true [AInt z]) = inl (dec z ++ ["010"]) /\
  render (s2l "%d") [FInt z] = Some (dec z) /\
  render (s2l "%lld") [FInt z] = Some (dec z) /\
  format_value (VInt z) [] = dec z.
Proof.
  intros e z.
  assert (D : render (s2l "%d") [FInt z] = Some (dec z)).
  { change (s2l "%d") with (directive false false 0 "d"). rewrite render_int_directive by (left; reflexivity). reflexivity. }
  split; [ reflexivity | ]. split; [ exact D | ]. split; [ rewrite printf_lld_is_d; exact D | reflexivity ].
Qed.
Print Assumptions converters_agree.

(* %[-][0][w]d prints what C printf prints *)
Theorem printf_d_is_c_printf : forall (minus zero : bool) (w : nat) (v : Z),
  render (directive minus zero w "d") [FInt v] = Some (pad_num minus zero w (sign_of v) (mag_of v)).
Proof. intros. rewrite render_int_directive by (left; reflexivity). reflexivity. Qed.
Print Assumptions printf_d_is_c_printf.

(* |out| = max w |digits| for d i u o x X *)
Theorem pad_length_printf : forall c minus zero w a out, int_conv_char c ->
  render (directive minus zero w c) [a] = Some out ->
  List.length out =
  Nat.max w (List.length (fst (int_body c (farg_int a))) + List.length (snd (int_body c (farg_int a)))).
Proof.
  intros c m z w a out Hc. rewrite render_int_directive by exact Hc. intros E. inversion E. apply pad_num_length.
Qed.
Print Assumptions pad_length_printf.

Theorem pad_length_printf_d : forall minus zero w v out,
  render (directive minus zero w "d") [FInt v] = Some out -> List.length out = Nat.max w (List.length (dec v)).
Proof.
  intros m z w v out E. rewrite (pad_length_printf "d" m z w (FInt v) out) by (try (left; reflexivity); exact E).
  unfold dec. rewrite app_length. reflexivity.
Qed.
Print Assumptions pad_length_printf_d.

(* %0wd : sign first, zeros between sign and digits, and the text still reads back as the value *)
Theorem printf_zero_pad_keeps_sign_first : forall (w : nat) (v : Z),
  render (directive false true w "d") [FInt v] =
    Some (sign_of v ++ zeros (w - List.length (dec v)) ++ mag_of v) /\
  parse_dec (sign_of v ++ zeros (w - List.length (dec v)) ++ mag_of v) = Some v.
Proof.
  intros w v. split; [ | apply sign_zeros_parse ]. rewrite printf_d_is_c_printf. reflexivity.
Qed.
Print Assumptions printf_zero_pad_keeps_sign_first.

(* %u %o %x %X print the two's-complement image: reading back gives v mod 2^64 *)
Theorem printf_unsigned_roundtrip_mod_2_64 : forall c b u v,
  In (c, b, u) [("u", 10%N, false); ("o", 8%N, false); ("x", 16%N, false); ("X", 16%N, true)] ->
  exists out, render (directive false false 0 c) [FInt v] = Some out /\
              option_map Z.of_N (parse_base b out) = Some (v mod 18446744073709551616)%Z.
Proof.
  intros c b u v H. exists (render_base u b (u64 v)).
  destruct H as [E|[E|[E|[E|[]]]]]; injection E as <- <- <-;
    (split; [ rewrite render_int_directive by (cbn; auto 10); reflexivity | apply u64_roundtrip; lia ]).
Qed.
Print Assumptions printf_unsigned_roundtrip_mod_2_64.

(* %[-][w]s pads the text with spaces; %[-][w]c prints the one byte *)
Theorem printf_s_pads_text : forall minus zero w s, clean s ->
  render (directive minus zero w "s") [FStr s] = Some (pad_str minus w s).
Proof.
  intros m z w s C.
  apply (render_escaped_directive 0); [ repeat split | apply conv_s | apply clean_pad_str; exact C | apply pad_str_empty ].
Qed.
Print Assumptions printf_s_pads_text.

Theorem printf_c_one_byte : forall minus zero w v, clean [byte_of_Z v] ->
  render (directive minus zero w "c") [FInt v] = Some (pad_str minus w [byte_of_Z v]).
Proof.
  intros m z w v C. apply (render_escaped_directive 0); [ repeat split | apply conv_c | apply clean_pad_str; exact C | ].
  intros E. apply pad_str_empty in E. discriminate.
Qed.
Print Assumptions printf_c_one_byte.

(* ... but not for a byte value 0: the faithful model prints the decimal number (known finding
   C16-percent-c-nul) *)
Theorem printf_c_as_c_printf_refuted :
  exists v, byte_of_Z v = "000" /\ render (s2l "%c|") [FInt v] = Some (s2l "0|").
Proof. exists 0%Z. vm_compute. split; reflexivity. Qed.
Print Assumptions printf_c_as_c_printf_refuted.

(* ... and a backslash produced by %c merges with the following format text, because escapes are
   processed after substitution (known finding C16-escapes-after-substitution) *)
Theorem printf_escapes_after_substitution_refuted :
  exists v, byte_of_Z v = "\" /\ render (s2l "%cn|") [FInt v] = Some ["010"; "|"].
Proof. exists 92%Z. vm_compute. split; reflexivity. Qed.
Print Assumptions printf_escapes_after_substitution_refuted.

(* %% : a text with every '%' doubled renders as the text *)
Theorem percent_percent : forall t, no_backslash t -> render (escape_percent t) [] = Some t.
Proof.
  intros t H. unfold render. rewrite render_go_escape_percent by (try assumption; lia).
  cbn [append_extra]. rewrite process_escape_clean_bs by exact H. reflexivity.
Qed.
Print Assumptions percent_percent.

Theorem interp_width_is_right_aligned : forall zero w z tc,
  tc = [] \/ tc = ["d"] -> (zero = true \/ w <> 0 \/ tc <> []) ->
  format_value (VInt z) (ispec zero w tc) =
  if zero then pad_num false true w (sign_of z) (mag_of z) else ipad false w (dec z).
Proof.
  intros zero w z tc Htc NE.
  rewrite format_value_ispec by (exact NE || (destruct Htc as [->| ->]; [ exact I | reflexivity ])).
  destruct Htc as [->| ->]; reflexivity.
Qed.
Print Assumptions interp_width_is_right_aligned.

Theorem pad_length_interp : forall zero w z tc,
  tc = [] \/ tc = ["d"] -> (zero = true \/ w <> 0 \/ tc <> []) ->
  List.length (format_value (VInt z) (ispec zero w tc)) = Nat.max w (List.length (dec z)).
Proof.
  intros zero w z tc Htc NE. rewrite interp_width_is_right_aligned by assumption. destruct zero.
  - rewrite pad_num_length. unfold dec. rewrite app_length. reflexivity.
  - apply ipad_length.
Qed.
Print Assumptions pad_length_interp.

(* {n:x} {n:X} {n:0Nx}: reading back gives n mod 2^64 *)
Theorem hex_roundtrip_mod_2_64 : forall w z upper,
  option_map Z.of_N (parse_base 16 (format_value (VInt z) (ispec true w [hex_letter upper])))
  = Some (z mod 18446744073709551616)%Z /\
  option_map Z.of_N (parse_base 16 (format_value (VInt z) [hex_letter upper]))
  = Some (z mod 18446744073709551616)%Z.
Proof.
  intros w z upper. split.
  - rewrite interp_hex. apply u64_roundtrip_padded. lia.
  - change [hex_letter upper] with (ispec false 0 [hex_letter upper]). rewrite interp_hex.
    apply (u64_roundtrip upper 16). lia.
Qed.
Print Assumptions hex_roundtrip_mod_2_64.

Theorem bin_roundtrip_mod_2_64 : forall zero w z,
  option_map Z.of_N (parse_base 2 (format_value (VInt z) (ispec zero w ["b"])))
  = Some (z mod 18446744073709551616)%Z.
Proof.
  intros zero w z. rewrite interp_bin.
  destruct (zero && (0 <? w)%nat); [ apply u64_roundtrip_padded | apply u64_roundtrip ]; lia.
Qed.
Print Assumptions bin_roundtrip_mod_2_64.

(* {n:0N} / {n:0Nd}: sign first, then zeros, then digits; reads back as n - for every n, negative ones
   included (former finding #27 / C16-interp-zero-pad-sign, repaired by /repo commit 4cd822e) *)
Theorem interp_zero_pad_keeps_sign_first : forall w z tc, tc = [] \/ tc = ["d"] ->
  format_value (VInt z) (ispec true w tc) = sign_of z ++ zeros (w - List.length (dec z)) ++ mag_of z /\
  parse_dec (format_value (VInt z) (ispec true w tc)) = Some z.
Proof.
  intros w z tc Htc. rewrite interp_width_is_right_aligned by (try assumption; left; reflexivity).
  split; [ reflexivity | apply sign_zeros_parse ].
Qed.
Print Assumptions interp_zero_pad_keeps_sign_first.

(* the former witness *)
Example ex_zero_pad_negative : format_value (VInt (-255)) (s2l "05") = s2l "-0255".
Proof. vm_compute. reflexivity. Qed.

(* a double is given exactly as (-1)^neg * m * 2^e; [fix_q m e p] is the integer q printed as q / 10^p *)

(* {x:[0][W].p[f]} is the fixed rendering right-aligned in W columns; {x} is the rendering with 6 decimals *)
Theorem interp_float_spec : forall zero w p tc ng m e, tc = [] \/ tc = ["f"] ->
  format_value (VFlt ng m e) (fspec zero w p tc) = ipad zero w (fixed ng m e p) /\
  spec_supported (VFlt ng m e) (fspec zero w p tc) = true.
Proof.
  intros zero w p tc ng m e Htc. destruct (fspec_parse p tc Htc) as [Hprec Hp].
  change (fspec zero w p tc) with (ispec zero w ("." :: udec (N.of_nat p) ++ tc)). split.
  - rewrite format_value_ispec by (try (right; right; discriminate); reflexivity).
    rewrite Hprec. unfold spec_body. rewrite Hp. destruct Htc as [->| ->]; reflexivity.
  - unfold spec_supported. cbv zeta. rewrite (ispec_zero_flag (fun _ r => r)), ispec_width by reflexivity.
    rewrite Hprec, Hp. destruct (ispec zero w _); destruct Htc as [->| ->]; reflexivity.
Qed.
Print Assumptions interp_float_spec.

Theorem interp_float_default : forall ng m e, format_value (VFlt ng m e) [] = fixed ng m e 6.
Proof. reflexivity. Qed.
Print Assumptions interp_float_default.

(* the printed number is within half a unit of the last printed digit of the exact value ... *)
Theorem float_fixed_half_ulp : forall m k p,
  (2 * Z.abs (Z.of_N (fix_q m (Zneg k) p * 2 ^ Npos k) - Z.of_N (m * 10 ^ N.of_nat p)) <= Z.of_N (2 ^ Npos k))%Z.
Proof.
  intros m k p. unfold fix_q. cbv zeta. set (t := (m * 10 ^ N.of_nat p)%N). set (d := (2 ^ Npos k)%N).
  pose proof (pow2_pos k) as Hd. fold d in Hd.
  pose proof (N.div_mod t d) as Hdm. pose proof (N.mod_lt t d) as Hr.
  set (q0 := (t / d)%N) in *. set (r := (t mod d)%N) in *.
  destruct (N.ltb_spec (2 * r) d); [ nia | ]. destruct (N.ltb_spec d (2 * r)); [ nia | ].
  destruct (N.even q0); nia.
Qed.
Print Assumptions float_fixed_half_ulp.

(* ... an exact tie goes to the even last digit, a value with at most p decimals and an integral value are exact *)
Theorem float_fixed_tie_to_even : forall m k p,
  (2 * ((m * 10 ^ N.of_nat p) mod 2 ^ Npos k) = 2 ^ Npos k)%N -> N.even (fix_q m (Zneg k) p) = true.
Proof.
  intros m k p Ht. unfold fix_q. cbv zeta. rewrite Ht, N.ltb_irrefl.
  destruct (N.even (_ / _)) eqn:E; [ exact E | ].
  rewrite N.add_1_r, N.even_succ, <- N.negb_even, E. reflexivity.
Qed.
Print Assumptions float_fixed_tie_to_even.

Theorem float_fixed_exact_decimal : forall m k p,
  ((m * 10 ^ N.of_nat p) mod 2 ^ Npos k = 0)%N -> (fix_q m (Zneg k) p * 2 ^ Npos k = m * 10 ^ N.of_nat p)%N.
Proof.
  intros m k p Ht. unfold fix_q. cbv zeta. rewrite Ht.
  pose proof (pow2_pos k) as Hd. destruct (N.ltb_spec (2 * 0) (2 ^ Npos k)); [ | lia ].
  pose proof (N.div_mod (m * 10 ^ N.of_nat p) (2 ^ Npos k)) as Hdm. rewrite Ht in Hdm. lia.
Qed.
Print Assumptions float_fixed_exact_decimal.

Theorem float_fixed_exact_integer : forall m e p, (0 <= e)%Z ->
  fix_q m e p = (m * 10 ^ N.of_nat p * 2 ^ Z.to_N e)%N.
Proof.
  intros m e p He. unfold fix_q. destruct e as [|k|k]; [ | reflexivity | lia ].
  cbn [Z.to_N]. rewrite N.pow_0_r, N.mul_1_r. reflexivity.
Qed.
Print Assumptions float_fixed_exact_integer.

(* the text: sign, integer part without leading zeros, for p > 0 a point and exactly p digits; integer part and
   fraction read back as q / 10^p and q mod 10^p *)
Theorem float_fixed_shape : forall neg m e p,
  exists ip fp,
    fixed neg m e p = (if neg then ["-"] else []) ++ ip ++ (match p with O => [] | _ => "." :: fp end) /\
    parse_base 10 ip = Some (fix_q m e p / 10 ^ N.of_nat p)%N /\ canonical_unsigned ip = true /\
    List.length fp = p /\ forallb is_digit fp = true /\
    option_map (from_digits 10) (chars_digits 10 fp) = Some (fix_q m e p mod 10 ^ N.of_nat p)%N.
Proof.
  intros neg m e p. set (q := fix_q m e p).
  exists (udec (q / 10 ^ N.of_nat p)), (frac_digits p (q mod 10 ^ N.of_nat p) []).
  destruct (frac_digits_value_l p (q mod 10 ^ N.of_nat p)) as [Hv Hd].
  rewrite N.mod_mod in Hv by (apply N.pow_nonzero; discriminate).
  split; [ reflexivity | ]. split; [ apply render_base_roundtrip; lia | ]. split; [ apply udec_canonical | ].
  split; [ apply frac_digits_length_l | ]. split; [ exact Hd | exact Hv ].
Qed.
Print Assumptions float_fixed_shape.

(* 3.14159265358979 = 7074237752028906 * 2^-51; 2.5 and 0.125 are ties; -2.675 is below the tie *)
Example ex_float :
  format_value (VFlt false 7074237752028906 (-51)) (s2l ".2f") = s2l "3.14" /\
  format_value (VFlt false 7074237752028906 (-51)) (s2l "8.3f") = s2l "   3.142" /\
  format_value (VFlt false 7074237752028906 (-51)) [] = s2l "3.141593" /\
  format_value (VFlt false 5 (-1)) (s2l ".0f") = s2l "2" /\
  format_value (VFlt false 1 (-3)) (s2l ".2f") = s2l "0.12" /\
  format_value (VFlt true 6023508938686005 (-51)) (s2l ".2f") = s2l "-2.67" /\
  format_value (VFlt false 1 70) (s2l ".1f") = s2l "1180591620717411303424.0".
Proof. vm_compute. repeat split; reflexivity. Qed.

(* re-bracing the expression segments, re-doubling the braces of the text segments and restoring the
   dropped '$' gives the literal back: nothing is lost, duplicated or reordered; any byte included *)
Theorem segments_partition_text : forall s segs, split s = Some segs -> unsplit segs = s.
Proof.
  intros s segs H. pose proof (split_go_unsplit _ s (le_n _) MText [] s eq_refl) as K.
  unfold split in H. rewrite H in K. exact K.
Qed.
Print Assumptions segments_partition_text.

(* a literal without { } $ is one text segment *)
Theorem plain_text_is_one_segment : forall t, plain_text t ->
  split t = Some (match t with [] => [] | _ => [SText t] end).
Proof.
  intros t H. unfold split. rewrite <- (app_nil_r t) at 1. rewrite split_go_plain by exact H. reflexivity.
Qed.
Print Assumptions plain_text_is_one_segment.

(* {{ and }} *)
Theorem double_brace_splits_to_text : forall t, no_dollar t ->
  split (escape_braces t) = Some (match t with [] => [] | _ => [SText t] end).
Proof.
  intros t H. unfold split. rewrite <- (app_nil_r (escape_braces t)), split_go_escaped by exact H. reflexivity.
Qed.
Print Assumptions double_brace_splits_to_text.

Theorem double_brace_literal : forall e t, no_dollar t -> no_backslash t -> In "{" t ->
  eval_quoted e (escape_braces t) = inl t.
Proof.
  intros e t Hd Hb Hin. unfold eval_quoted.
  rewrite has_interpolation_brace by (apply escape_braces_no_backslash || apply escape_braces_in; assumption).
  rewrite double_brace_splits_to_text by exact Hd. destruct t; [ destruct Hin | ].
  cbn [eval_segs rbind]. rewrite app_nil_r. reflexivity.
Qed.
Print Assumptions double_brace_literal.

(* the value of an interpolated literal is the concatenation of its segments' values, text verbatim *)
Theorem interp_value_is_concat : forall e l, Forall (bound e) l ->
  eval_segs e l = inl (List.concat (map (seg_out e) l)).
Proof.
  intros e l H. induction H as [|s l Hb _ IH]; [ reflexivity | ].
  destruct s as [t|ex sp|]; cbn [eval_segs map List.concat seg_out seg_value];
    [ | destruct Hb as (v & Hl & Hs); rewrite Hl, Hs | ]; rewrite IH; reflexivity.
Qed.
Print Assumptions interp_value_is_concat.

(* text around an interpolated expression is byte-identical (every byte value, UTF-8 or not) *)
Theorem interp_text_untouched : forall e t1 ex t2 v,
  plain_text t1 -> no_backslash t1 -> plain_text t2 -> no_braces ex ->
  lookup e (fst (split_colon ex)) = Some v ->
  spec_supported v (match snd (split_colon ex) with Some f => f | None => [] end) = true ->
  eval_quoted e (t1 ++ "{" :: ex ++ "}" :: t2) =
  inl (t1 ++ format_value v (match snd (split_colon ex) with Some f => f | None => [] end) ++ t2).
Proof.
  intros e t1 ex t2 v H1 Hb H2 He Hl Hsup. pose proof (eval_quoted_lift e (t1 ++ "{" :: ex ++ "}" :: t2)) as K.
  rewrite eval_quoted_m_one_expr, mlookup_lift, Hl, mbind_mret_l in K by assumption. unfold spec_of in K.
  rewrite Hsup in K. destruct (eval_quoted e _); inversion K. reflexivity.
Qed.
Print Assumptions interp_text_untouched.

Theorem println_single_spaces : forall e nl args vs, 2 <= List.length args -> find_fmt args = None ->
  Forall2 (fun a v => print_argument e a = inl v) args vs ->
  stmt_out e (SPrint nl args) = inl (join_sp vs ++ (if nl then ["010"] else [])).
Proof.
  intros e nl args vs Hlen Hf H. unfold stmt_out, print_multiple.
  destruct args as [|a [|b r]]; try (cbn in Hlen; lia).
  rewrite Hf, (join_values_true e _ vs H). reflexivity.
Qed.
Print Assumptions println_single_spaces.

Theorem println_values : forall e nl args, 2 <= List.length args -> Forall not_literal args ->
  stmt_out e (SPrint nl args) = inl (join_sp (map value_text args) ++ (if nl then ["010"] else [])).
Proof.
  intros e nl args Hlen H. apply println_single_spaces; [ exact Hlen | apply find_fmt_no_literal; exact H | ].
  clear Hlen. induction H as [|a args Ha _ IH]; [ constructor | ].
  cbn [map]. constructor; [ | exact IH ]. destruct a; [ destruct Ha | reflexivity | reflexivity ].
Qed.
Print Assumptions println_values.

Theorem println_format_path : forall e nl pre f post vs fa out,
  find_fmt (pre ++ AQuoted f :: post) = Some (pre, f, post) -> 2 <= List.length (pre ++ AQuoted f :: post) ->
  Forall2 (fun a v => print_argument e a = inl v) pre vs ->
  collect e post = inl fa -> render f fa = Some out ->
  stmt_out e (SPrint nl (pre ++ AQuoted f :: post)) =
  inl (List.concat (map (fun v => v ++ [" "]) vs) ++ cstr out ++ (if nl then ["010"] else [])).
Proof.
  intros e nl pre f post vs fa out Hf Hlen Hpre Hc Hr. unfold stmt_out, print_multiple.
  destruct (pre ++ AQuoted f :: post) as [|a [|b r]] eqn:E; try (cbn in Hlen; lia).
  rewrite Hf, (join_values_true e pre vs Hpre). cbn [rbind]. rewrite Hc, Hr. cbn [rbind].
  rewrite <- (join_sp_sep _ _ _ Hpre), <- !app_assoc. reflexivity.
Qed.
Print Assumptions println_format_path.

(* a plain string literal prints its escape-processed text, whether it is the only argument or one of several
   (former finding C16-multiarg-escape, repaired by /repo commit 033c981) *)
Theorem println_escapes_uniform : forall e nl s rest vs, has_interpolation s = false -> rest <> [] ->
  find_fmt (AQuoted s :: rest) = None ->
  Forall2 (fun a v => print_argument e a = inl v) rest vs ->
  stmt_out e (SPrint nl [AQuoted s]) = inl (cstr (process_escape s) ++ (if nl then ["010"] else [])) /\
  stmt_out e (SPrint nl (AQuoted s :: rest)) =
    inl (join_sp (cstr (process_escape s) :: vs) ++ (if nl then ["010"] else [])).
Proof.
  intros e nl s rest vs Hi Hr Hf H.
  assert (Hs : print_argument e (AQuoted s) = inl (cstr (process_escape s))) by (cbn [print_argument]; rewrite Hi; reflexivity).
  split.
  - cbn [stmt_out print_multiple]. rewrite Hs. reflexivity.
  - apply println_single_spaces; [ destruct rest; [ congruence | cbn; lia ] | exact Hf | ].
    constructor; [ exact Hs | exact H ].
Qed.
Print Assumptions println_escapes_uniform.

(* the former witness *)
Example ex_multiarg_escape :
  stmt_out [] (SPrint true [AQuoted (s2l "a\tb"); AInt 1]) = inl (["a"; "009"; "b"; " "; "1"; "010"]).
Proof. vm_compute. reflexivity. Qed.

(* only an odd run of backslashes hides a directive: after k escaped backslashes %d is a directive, after
   k escaped backslashes and one more backslash it is not (former finding C16-backslash-before-percent,
   repaired by /repo commit 475de81) *)
Theorem backslash_parity_decides_directive : forall t k rest, no_meta t ->
  has_fmt (t ++ bs_pairs k ++ "%" :: "d" :: rest) = true /\
  has_fmt (t ++ bs_pairs k ++ "\" :: "%" :: "d" :: rest) = has_fmt rest.
Proof.
  intros t k rest Ht. unfold has_fmt. rewrite !(has_fmt_go_plain t Ht), !has_fmt_go_pairs. split; reflexivity.
Qed.
Print Assumptions backslash_parity_decides_directive.

(* "\\%[-][0][w]d" renders as one backslash followed by what C printf prints for the directive *)
Theorem escaped_backslash_then_directive : forall c minus zero w a, int_conv_char c ->
  render ("\" :: "\" :: directive minus zero w c) [a] =
  Some ("\" :: pad_num minus zero w (fst (int_body c (farg_int a))) (snd (int_body c (farg_int a)))).
Proof.
  intros c m z w a Hc. destruct (conv_int c m z w a Hc) as (E & C & NE).
  apply (render_escaped_directive 1); [ apply int_conv_is_conv_char; exact Hc | exact E | exact C | contradiction ].
Qed.
Print Assumptions escaped_backslash_then_directive.

(* the former witness *)
Example ex_backslash_directive :
  stmt_out [] (SPrint true [AQuoted (s2l "a\\%d|"); AInt 5]) = inl (s2l "a\5|" ++ ["010"]).
Proof. vm_compute. reflexivity. Qed.

Theorem output_is_concatenation : forall e p outs, no_fail p ->
  Forall2 (fun s o => stmt_out e s = inl o) p outs -> exec e p = (inl (List.concat outs), false).
Proof.
  intros e p outs Hn H. induction H as [|s o p outs Hs _ IH]; [ reflexivity | ].
  inversion Hn as [|? ? Hs' Hp]; subst. destruct s as [nl args|]; [ | congruence ].
  cbn [exec]. rewrite Hs, (IH Hp). reflexivity.
Qed.
Print Assumptions output_is_concatenation.

Theorem output_in_order : forall e p q op oq, no_fail p ->
  exec e p = (inl op, false) -> exec e q = (inl oq, false) -> exec e (p ++ q) = (inl (op ++ oq), false).
Proof. intros e p q op oq _ Hp Hq. rewrite (exec_app e p q op Hp), Hq. reflexivity. Qed.
Print Assumptions output_in_order.

(* everything printed before the failing statement is on stdout, nothing printed after it is *)
Theorem output_before_error_exit : forall e p q op, no_fail p -> exec e p = (inl op, false) ->
  exec e (p ++ SFail :: q) = (inl op, true).
Proof.
  intros e p q op _ H. rewrite (exec_app e p (SFail :: q) op H). cbn [exec fst snd rbind].
  rewrite app_nil_r. reflexivity.
Qed.
Print Assumptions output_before_error_exit.

(* the effect-free programs of Model.v, run by the nested model that is extracted and compared with /repo's
   binary ([run_main]), give exactly [run_program]: every theorem above speaks about [run_main] too *)
Theorem nested_model_conservative : forall (e : env) (p : list stmt),
  run_main (lift_program e p) =
  match run_program e p with (inl o, failed) => inl (o, failed) | (inr x, _) => inr x end.
Proof.
  intros e p. unfold run_main, run_program, lift_program.
  cbn [comp_parses forallb andb]. rewrite comp_parses_vals, forallb_parses_lift, andb_true_r. cbn [andb].
  destruct (forallb stmt_parses p); [ | reflexivity ].
  cbn [run_comp map]. rewrite run_locals_lift. unfold call_m. cbn [seq_params].
  rewrite mbind_mret_l. cbn [app]. rewrite exec_lift.
  destruct (exec e p) as [[o|x] [|]]; cbn; rewrite ?app_nil_r; reflexivity.
Qed.
Print Assumptions nested_model_conservative.

(* evaluate_interpolated_string is re-entrant: whatever the evaluation of {ex} writes to stdout ([side]) and
   whatever it yields - e.g. the value of another interpolated string built meanwhile - the text before and
   after it is byte-identical and nothing is lost, duplicated or spliced in *)
Theorem interp_nested_frame : forall e t1 ex t2 side v,
  plain_text t1 -> no_backslash t1 -> plain_text t2 -> no_braces ex ->
  mlookup e (fst (split_colon ex)) = inl (side, Some v) ->
  spec_supported v (spec_of (snd (split_colon ex))) = true ->
  eval_quoted_m e (t1 ++ "{" :: ex ++ "}" :: t2) =
  inl (side, Some (t1 ++ format_value v (spec_of (snd (split_colon ex))) ++ t2)).
Proof.
  intros e t1 ex t2 side v H1 Hb H2 He Hl Hsup. rewrite eval_quoted_m_one_expr, Hl by assumption.
  cbn [mbind]. rewrite Hsup. cbn. rewrite app_nil_r. reflexivity.
Qed.
Print Assumptions interp_nested_frame.

Theorem interp_nested_error : forall e t1 ex t2 side,
  plain_text t1 -> no_backslash t1 -> plain_text t2 -> no_braces ex ->
  mlookup e (fst (split_colon ex)) = inl (side, None) ->
  eval_quoted_m e (t1 ++ "{" :: ex ++ "}" :: t2) = inl (side, None).
Proof.
  intros e t1 ex t2 side H1 Hb H2 He Hl. rewrite eval_quoted_m_one_expr, Hl by assumption. reflexivity.
Qed.
Print Assumptions interp_nested_error.

(* any segment list: the value is the concatenation of the segments' values, what the expressions write
   appears in segment order; a failing expression stops the evaluation there *)
Theorem interp_nested_in_order : forall e l outs, Forall2 (seg_ok e) l outs ->
  eval_segs_m e l = inl (List.concat (map fst outs), Some (List.concat (map snd outs))).
Proof.
  intros e l outs H. rewrite <- (app_nil_r l), (eval_segs_m_app e l outs [] [] (Some []) H eq_refl).
  cbn. rewrite !app_nil_r. reflexivity.
Qed.
Print Assumptions interp_nested_in_order.

Theorem interp_nested_error_stops : forall e l1 outs ex sp l2 side, Forall2 (seg_ok e) l1 outs ->
  mlookup e ex = inl (side, None) ->
  eval_segs_m e (l1 ++ SExpr ex sp :: l2) = inl (List.concat (map fst outs) ++ side, None).
Proof.
  intros e l1 outs ex sp l2 side H Hl. apply (eval_segs_m_app e l1 outs _ side None H).
  cbn [eval_segs_m]. rewrite Hl. reflexivity.
Qed.
Print Assumptions interp_nested_error_stops.

(* println(f(..)) : what the call writes, then the text of its value; println("..{f(..)}..") likewise *)
Theorem print_call_output_then_value : forall e n side v, mlookup e n = inl (side, Some v) -> is_flt v = false ->
  print_argument_m e (XRef n) = inl (side ++ value_bytes v, Some tt).
Proof.
  intros e n side v H Hf. unfold print_argument_m, print_value_m. cbn [eval_arg_m]. rewrite H. cbn [mbind].
  rewrite Hf. reflexivity.
Qed.
Print Assumptions print_call_output_then_value.

Theorem print_interpolated_output_then_value : forall e s side b, has_interpolation s = true ->
  eval_quoted_m e s = inl (side, Some b) ->
  print_argument_m e (XQuoted s) = inl (side ++ cstr b, Some tt).
Proof.
  intros e s side b Hi H. unfold print_argument_m. rewrite Hi. unfold print_value_m. cbn [eval_arg_m].
  rewrite H. cbn. rewrite app_nil_r. reflexivity.
Qed.
Print Assumptions print_interpolated_output_then_value.

(* several arguments, some of which print while they are evaluated: single spaces, each argument's own
   output right after the separator that precedes it *)
Theorem println_nested_single_spaces : forall e nl args vs, 2 <= List.length args -> find_fmt_x args = None ->
  Forall2 (arg_ok e) args vs ->
  stmt_m e (XPrint nl args) = inl (join_sp vs ++ (if nl then ["010"] else []), Some e).
Proof.
  intros e nl args vs Hlen Hf H. cbn [stmt_m]. unfold print_multiple_m.
  destruct args as [|a [|b r]]; try (cbn in Hlen; lia).
  rewrite Hf, (join_values_m_true e _ vs H). cbn. rewrite app_nil_r. reflexivity.
Qed.
Print Assumptions println_nested_single_spaces.

Theorem println_nested_error_keeps_prefix : forall e nl pre vs a post side,
  find_fmt_x (pre ++ a :: post) = None -> 2 <= List.length (pre ++ a :: post) -> Forall2 (arg_ok e) pre vs ->
  print_argument_m e a = inl (side, None) ->
  stmt_m e (XPrint nl (pre ++ a :: post)) =
  inl (join_sp vs ++ (match pre with [] => [] | _ => [" "] end) ++ side, None).
Proof.
  intros e nl pre vs a post side Hf Hlen H Ha. cbn [stmt_m]. unfold print_multiple_m.
  destruct (pre ++ a :: post) as [|x [|y r]] eqn:E; try (cbn in Hlen; lia).
  rewrite Hf, <- E,
    (join_values_m_app e true pre vs (a :: post) ((match pre with [] => [] | _ => [" "] end) ++ side) None H);
    [ reflexivity | ].
  cbn [join_values_m]. rewrite Ha. destruct pre; reflexivity.
Qed.
Print Assumptions println_nested_error_keeps_prefix.

(* the printf path: all arguments after the format literal are evaluated (their output in order) before the
   rendered text is written; the rendering itself is [render] of the values *)
Theorem println_nested_format_path : forall e nl pre f post vs outs out,
  find_fmt_x (pre ++ XQuoted f :: post) = Some (pre, f, post) -> 2 <= List.length (pre ++ XQuoted f :: post) ->
  Forall2 (arg_ok e) pre vs ->
  Forall2 (fun a o => eval_arg_m e a = inl (fst o, Some (snd o)) /\ is_flt (snd o) = false) post outs ->
  render f (map (fun o => farg_of (snd o)) outs) = Some out ->
  stmt_m e (XPrint nl (pre ++ XQuoted f :: post)) =
  inl (List.concat (map (fun v => v ++ [" "]) vs) ++ List.concat (map fst outs) ++ cstr out
       ++ (if nl then ["010"] else []), Some e).
Proof.
  intros e nl pre f post vs outs out Hf Hlen Hpre Hpost Hr. cbn [stmt_m]. unfold print_multiple_m.
  destruct (pre ++ XQuoted f :: post) as [|a [|b r]] eqn:E; try (cbn in Hlen; lia).
  rewrite Hf, (join_values_m_true e pre vs Hpre), (collect_m_ok e post outs Hpost). cbn [mbind emit].
  rewrite Hr. cbn. rewrite !app_nil_r, <- (join_sp_sep _ _ _ Hpre), <- !app_assoc. reflexivity.
Qed.
Print Assumptions println_nested_format_path.

(* order of output with nested evaluations, and an error raised anywhere inside a statement *)
Theorem output_in_order_nested : forall e p q op e' oq r,
  exec_m e p = inl (op, Some e') -> exec_m e' q = inl (oq, r) -> exec_m e (p ++ q) = inl (op ++ oq, r).
Proof. intros e p q op e' oq r Hp Hq. rewrite exec_m_app. apply (mbind_ok _ _ _ _ _ _ Hp Hq). Qed.
Print Assumptions output_in_order_nested.

Theorem output_before_nested_error : forall e p s q op e' os,
  exec_m e p = inl (op, Some e') -> stmt_m e' s = inl (os, None) ->
  exec_m e (p ++ s :: q) = inl (op ++ os, None).
Proof.
  intros e p s q op e' os Hp Hs. apply (output_in_order_nested e p (s :: q) op e' os None Hp).
  cbn [exec_m]. rewrite Hs. reflexivity.
Qed.
Print Assumptions output_before_nested_error.

(* a call: arguments left to right, body, return expression; an error in the body ends the caller as well *)
Theorem call_sequence : forall ps ls body r sides bound ob e' orr v,
  seq_params ps = inl (sides, Some bound) ->
  exec_m (bound ++ ls) body = inl (ob, Some e') ->
  match r with Some a => eval_arg_m e' a = inl (orr, Some v) | None => orr = [] /\ v = VInt 0 end ->
  call_m ps ls body r = inl (sides ++ ob ++ orr, Some v).
Proof.
  intros ps ls body r sides bound ob e' orr v Hp Hb Hr. unfold call_m.
  apply (mbind_ok _ _ _ _ _ _ Hp). apply (mbind_ok _ _ _ _ _ _ Hb).
  destruct r as [a|]; [ exact Hr | ]. destruct Hr as [-> ->]. reflexivity.
Qed.
Print Assumptions call_sequence.

Theorem call_error_in_body : forall ps ls body r sides bound ob,
  seq_params ps = inl (sides, Some bound) -> exec_m (bound ++ ls) body = inl (ob, None) ->
  call_m ps ls body r = inl (sides ++ ob, None).
Proof.
  intros ps ls body r sides bound ob Hp Hb. unfold call_m. apply (mbind_ok _ _ _ _ _ _ Hp). apply mbind_fail. exact Hb.
Qed.
Print Assumptions call_error_in_body.

(* every depth: a tower of functions f_k() { return "pre_k{f_(k-1)()}post_k"; } around any computation that
   writes [side] and yields s gives pre_1..pre_n s post_n..post_1 and writes exactly [side]; if the innermost
   computation raises an error, so does the tower, with the same output *)
Theorem nested_every_depth : forall ws inner side, Forall wrapper_ok ws ->
  (forall s, run_comp inner = inl (side, Some (VStr s)) ->
     run_comp (tower ws inner) =
     inl (side, Some (VStr (List.concat (map fst ws) ++ s ++ List.concat (map snd (rev ws)))))) /\
  (run_comp inner = inl (side, None) -> run_comp (tower ws inner) = inl (side, None)).
Proof.
  intros ws inner side H. induction H as [|w ws Hw _ [IHv IHe]].
  - split; intros; cbn [tower map List.concat rev app]; [ rewrite app_nil_r | ]; assumption.
  - cbn [tower]. rewrite (run_wrap_one w _ Hw). split.
    + intros s Hi. rewrite (IHv s Hi). cbn [mbind mret format_value]. rewrite !app_nil_r.
      cbn [map List.concat rev]. rewrite map_app, concat_app. cbn [map List.concat].
      rewrite app_nil_r, <- !app_assoc. reflexivity.
    + intros Hi. rewrite (IHe Hi). reflexivity.
Qed.
Print Assumptions nested_every_depth.

(* the statements above are not vacuous: concrete directives, specs, literals and programs, computed *)
Example ex_directive : directive false true 5 "d" = s2l "%05d" /\ directive true false 12 "x" = s2l "%-12x".
Proof. split; reflexivity. Qed.
Example ex_printf : render (s2l "[%05d|%-6x|%3s|%c|%%]") [FInt (-42); FInt 255; FStr (s2l "ab"); FInt 65]
                    = Some (s2l "[-0042|ff    | ab|A|%]").
Proof. vm_compute. reflexivity. Qed.
Example ex_interp :
  eval_quoted [(s2l "n", VInt (-255)); (s2l "s", VStr (s2l "é"))] (s2l "a{{{n:x}}}|{n:6}|${s}|{n:012b}")
  = inl (s2l "a{ffffffffffffff01}|  -255|é|1111111111111111111111111111111111111111111111111111111100000001").
Proof. vm_compute. reflexivity. Qed.
Example ex_split : split (s2l "x{{${a+b:04}}}y") =
  Some [SText (s2l "x{"); SDollar; SExpr (s2l "a+b") (Some (s2l "04")); SText (s2l "}y")].
Proof. vm_compute. reflexivity. Qed.
Example ex_program :
  run_program [] [SPrint true [AInt 1; AStr (s2l "two"); AQuoted (s2l "%d!"); AInt 3]; SPrint false [AQuoted (s2l "x\n")]; SFail;
                  SPrint true [AInt 4]]
  = (inl (s2l "1 two 3!" ++ ["010"; "x"; "010"]), true).
Proof. vm_compute. reflexivity. Qed.
(* after seeded/C16-2/demo.cb: "item {label(id)} is ready" with label(n) = "#{n:03d}", a call that prints, an
   error inside the innermost call of a println with several arguments *)
Example ex_nested :
  let label n := CCall [(s2l "n", CVal (VInt n))] [] [] (Some (XQuoted (s2l "#{n:03d}"))) in
  let twice v := CCall [(s2l "v", CVal (VInt v))] [] [XPrint true [XQuoted (s2l "  [twice] {v} * 2")]] (Some (XInt (2 * v)%Z)) in
  run_main (CCall [] [(s2l "label(id)", label 7%Z); (s2l "twice(id)", twice 7%Z); (s2l "id", CVal (VInt 7))]
              [XPrint true [XQuoted (s2l "item {label(id)} is ready")];
               XLet (s2l "line") (XQuoted (s2l "result: {twice(id)} (from {id})"));
               XPrint true [XRef (s2l "line")];
               XPrint true [XInt 1; XRef (s2l "twice(id)"); XQuoted (s2l "%s|%d"); XRef (s2l "label(id)"); XRef (s2l "twice(id)")]] None)
  = inl (s2l "item #007 is ready" ++ ["010"] ++ s2l "  [twice] 7 * 2" ++ ["010"] ++ s2l "result: 14 (from 7)" ++ ["010"]
         ++ s2l "1   [twice] 7 * 2" ++ ["010"] ++ s2l "14   [twice] 7 * 2" ++ ["010"] ++ s2l "#007|14" ++ ["010"], false).
Proof. vm_compute. reflexivity. Qed.
Example ex_nested_error :
  let boom := CCall [] [] [XPrint false [XQuoted (s2l "in")]; XFail; XPrint true [XQuoted (s2l "never")]] (Some (XInt 1)) in
  run_main (CCall [] [(s2l "boom()", boom)]
              [XPrint true [XQuoted (s2l "first")]; XPrint true [XInt 5; XQuoted (s2l "a{boom()}b")]; XPrint true [XQuoted (s2l "after")]] None)
  = inl (s2l "first" ++ ["010"] ++ s2l "5 in", true).
Proof. vm_compute. reflexivity. Qed.
Example ex_tower :
  run_comp (tower [(s2l "<", s2l ">"); (s2l "日本", s2l "語"); ([], s2l "!")]
                  (CCall [] [] [XPrint false [XQuoted (s2l "side")]] (Some (XQuoted (s2l "x")))))
  = inl (s2l "side", Some (VStr (s2l "<日本x!語>"))).
Proof. vm_compute. reflexivity. Qed.
