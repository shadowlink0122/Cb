(* C16 - {x:.Nf}: lemmas about the fixed-point rendering of a double (Model.v: fix_q, frac_digits, fixed) and
   about the spec [0][W].N[f].  The theorems are in Properties_C16.v: the printed number q / 10^p is within half
   a unit of the last printed digit of the exact value m * 2^e, a tie goes to the even digit, an integral
   multiple is printed exactly; the text is sign, integer part (no leading zeros), and for p > 0 a point and
   exactly p digits; reading the digits back gives q. *)
From Coq Require Import List Ascii NArith Lia.
From Cb Require Import C16.Model C16.Spec C16.Digits C16.Format.
Import ListNotations.
Local Open Scope N_scope.

Lemma pow2_pos k : 0 < 2 ^ Npos k.
Proof. apply N.neq_0_lt_0. apply N.pow_nonzero. discriminate. Qed.

Lemma frac_digits_acc p : forall n acc, frac_digits p n acc = frac_digits p n [] ++ acc.
Proof.
  induction p as [|p IH]; intros n acc; [ reflexivity | ].
  cbn [frac_digits]. rewrite IH, (IH _ [_]), <- app_assoc. reflexivity.
Qed.

Theorem frac_digits_length_l p n : List.length (frac_digits p n []) = p.
Proof.
  revert n. induction p as [|p IH]; intros n; [ reflexivity | ].
  cbn [frac_digits]. rewrite frac_digits_acc, app_length, IH. cbn. lia.
Qed.

(* reading the p fraction digits back gives n mod 10^p; they are p decimal digits *)
Theorem frac_digits_value_l p n :
  option_map (from_digits 10) (chars_digits 10 (frac_digits p n [])) = Some (n mod 10 ^ N.of_nat p) /\
  forallb is_digit (frac_digits p n []) = true.
Proof.
  revert n. induction p as [|p IH]; intros n.
  - cbn. rewrite N.mod_1_r. split; reflexivity.
  - cbn [frac_digits]. rewrite frac_digits_acc. destruct (IH (n / 10)) as [Hv Hd].
    destruct (chars_digits 10 (frac_digits p (n / 10) [])) as [ds|] eqn:Hc; [ injection Hv as Hv | discriminate ].
    assert (Hlt : n mod 10 < 10) by (apply N.mod_lt; discriminate).
    rewrite (chars_digits_app 10 _ _ ds [n mod 10] Hc).
    + split; [ | rewrite forallb_app, Hd; cbn [forallb]; rewrite digit_is_digit by exact Hlt; reflexivity ].
      cbn [option_map]. unfold from_digits in *. rewrite fold_left_app. cbn [fold_left]. unfold step at 1. rewrite Hv.
      rewrite Nat2N.inj_succ, N.pow_succ_r'.
      rewrite (N.mod_mul_r n 10 (10 ^ N.of_nat p)) by (try discriminate; apply N.pow_nonzero; discriminate).
      f_equal. lia.
    + cbn [chars_digits]. rewrite digit_roundtrip by lia.
      assert (E : n mod 10 <? 10 = true) by (apply N.ltb_lt; exact Hlt). rewrite E. reflexivity.
Qed.

Lemma fspec_parse p tc : tc = [] \/ tc = ["f"%char] ->
  parse_prec ("."%char :: udec (N.of_nat p) ++ tc) = ("."%char :: udec (N.of_nat p), tc) /\
  prec_of ("."%char :: udec (N.of_nat p)) = Some p.
Proof.
  intros Htc. split.
  - unfold parse_prec. change (ceq "." ".") with true. cbv iota.
    rewrite (span_app is_digit (udec (N.of_nat p)) tc (udec_all_digits _)); [ reflexivity | ].
    destruct Htc as [->| ->]; [ exact I | reflexivity ].
  - cbn [prec_of]. rewrite nat_of_digits_udec, Nat2N.id. reflexivity.
Qed.
