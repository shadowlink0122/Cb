(* C16 - lemmas about the interpolation splitter (parseInterpolatedString) and the lexer's detection: what the
   scanner does with a text, a doubled brace, an expression; the induction behind "the segments partition the
   literal, for every byte string". *)
From Coq Require Import List Bool Ascii Lia.
From Cb Require Import C16.Model C16.Spec.
Import ListNotations.
Local Open Scope char_scope.

Lemma ceq_eq a b : ceq a b = true -> a = b.
Proof. apply Ascii.eqb_eq. Qed.
Lemma ceq_neq a b : a <> b -> ceq a b = false.
Proof. apply Ascii.eqb_neq. Qed.
Lemma ceq_false a b : ceq a b = false -> a <> b.
Proof. apply Ascii.eqb_neq. Qed.

Lemma escape_braces_app a b : escape_braces (a ++ b) = escape_braces a ++ escape_braces b.
Proof.
  induction a as [|c a IH]; [ reflexivity | ]. cbn [app escape_braces].
  destruct (ceq c "{"); [ | destruct (ceq c "}") ]; rewrite IH; reflexivity.
Qed.

Lemma escape_braces_no_backslash t : no_backslash t -> no_backslash (escape_braces t).
Proof.
  induction 1 as [|c t Hc _ IH]; [ constructor | ]. cbn [escape_braces].
  destruct (ceq c "{"); [ | destruct (ceq c "}") ]; repeat (constructor; try discriminate); assumption.
Qed.

Lemma escape_braces_in t : In "{" t -> In "{" (escape_braces t).
Proof.
  induction t as [|c t IH]; intros Hin; [ destruct Hin | ].
  cbn [escape_braces]. destruct (ceq c "{") eqn:E; [ left; reflexivity | ].
  destruct Hin as [->|Hin]; [ discriminate | ].
  destruct (ceq c "}"); repeat right; apply IH; exact Hin.
Qed.

Lemma split_colon_join s : let (a, o) := split_colon s in
  s = match o with Some f => a ++ ":" :: f | None => a end.
Proof.
  induction s as [|c s IH]; [ reflexivity | ]. cbn [split_colon].
  destruct (ceq c ":") eqn:E.
  - apply ceq_eq in E. subst. reflexivity.
  - destruct (split_colon s) as [a o]. destruct o; cbn [app]; rewrite IH at 1; reflexivity.
Qed.

Lemma unsplit_mk_expr acc : unsplit_seg (mk_expr acc) = "{" :: acc ++ ["}"].
Proof.
  unfold mk_expr. pose proof (split_colon_join acc) as H. destruct (split_colon acc) as [a o].
  destruct o as [f|]; cbn [unsplit_seg]; subst acc.
  - rewrite <- app_assoc. reflexivity.
  - reflexivity.
Qed.

(* a result of the splitter, if there is one, is a segment list whose source text is [t] *)
Definition unsplits_to (r : option (list segment)) (t : bytes) : Prop :=
  match r with Some segs => unsplit segs = t | None => True end.

Lemma flush_unsplits cur r t : unsplits_to r t -> unsplits_to (flush cur r) (escape_braces cur ++ t).
Proof. destruct r as [l|]; [ | exact id ]. cbn. intros <-. destruct cur; reflexivity. Qed.

Lemma oseg_unsplits x r t : unsplits_to r t -> unsplits_to (oseg x r) (unsplit_seg x ++ t).
Proof. destruct r as [l|]; [ | exact id ]. cbn. intros <-. reflexivity. Qed.

(* the source text the scanner has consumed and not yet turned into a segment *)
Definition pending (m : mode) (cur : bytes) : bytes :=
  match m with MText => escape_braces cur | MExpr _ acc => "{" :: acc end.

Lemma split_go_unsplit n : forall s, List.length s <= n -> forall m cur t, t = pending m cur ++ s ->
  unsplits_to (split_go s m cur) t.
Proof.
  induction n as [|n IH]; intros s Hn m cur t ->;
    (destruct s as [|c tl]; [ destruct m; [ apply (flush_unsplits cur (Some []) []); reflexivity | exact I ] | ]).
  - cbn in Hn. lia.
  - (* the scanner looks one character ahead: the tail [tl], or the tail of the tail after {{ and }} *)
    cbn [List.length] in Hn. assert (IHtl := IH tl ltac:(lia)).
    destruct m as [|d acc]; cbn [split_go pending app].
    + destruct (ceq c "$" && match tl with c2 :: _ => ceq c2 "{" | [] => false end) eqn:Ed.
      { apply andb_true_iff in Ed. destruct Ed as [Ec _]. apply ceq_eq in Ec. subst c.
        apply flush_unsplits, (oseg_unsplits SDollar), (IHtl MText []). reflexivity. }
      destruct (ceq c "{") eqn:Eo.
      { apply ceq_eq in Eo. subst c. destruct tl as [|c2 r]; [ exact I | ].
        destruct (ceq c2 "{") eqn:E2.
        - apply ceq_eq in E2. subst c2. apply (IH r); [ cbn in Hn; lia | ].
          cbn [pending]. rewrite escape_braces_app, <- app_assoc. reflexivity.
        - apply flush_unsplits, (IHtl (MExpr 0 [])). reflexivity. }
      destruct (ceq c "}") eqn:Ec.
      { apply ceq_eq in Ec. subst c. destruct tl as [|c2 r]; [ exact I | ].
        destruct (ceq c2 "}") eqn:E2; [ | exact I ].
        apply ceq_eq in E2. subst c2. apply (IH r); [ cbn in Hn; lia | ].
        cbn [pending]. rewrite escape_braces_app, <- app_assoc. reflexivity. }
      apply IHtl. cbn [pending]. rewrite escape_braces_app, <- app_assoc. cbn [escape_braces]. rewrite Eo, Ec.
      reflexivity.
    + assert (Hacc : forall d', unsplits_to (split_go tl (MExpr d' (acc ++ [c])) []) ("{" :: acc ++ c :: tl)).
      { intros d'. apply IHtl. cbn [pending app]. rewrite <- app_assoc. reflexivity. }
      destruct (ceq c "{"); [ apply Hacc | ].
      destruct (ceq c "}") eqn:Ec; [ | apply Hacc ].
      destruct d as [|d']; [ | apply Hacc ].
      apply ceq_eq in Ec. subst c.
      replace ("{" :: acc ++ "}" :: tl) with (unsplit_seg (mk_expr acc) ++ tl)
        by (rewrite unsplit_mk_expr; cbn [app]; rewrite <- app_assoc; reflexivity).
      apply oseg_unsplits, (IHtl MText []). reflexivity.
Qed.

Lemma split_go_plain t : plain_text t -> forall s cur,
  split_go (t ++ s) MText cur = split_go s MText (cur ++ t).
Proof.
  induction 1 as [|c t (Ho & Hc & Hd) _ IH]; intros s cur.
  - rewrite app_nil_r. reflexivity.
  - cbn [app split_go]. rewrite (ceq_neq _ _ Hd), (ceq_neq _ _ Ho), (ceq_neq _ _ Hc). cbn [andb].
    rewrite IH, <- app_assoc. reflexivity.
Qed.

(* an expression without braces is scanned up to its closing brace *)
Definition no_braces (e : bytes) : Prop := Forall (fun c => c <> "{" /\ c <> "}") e.

Lemma split_go_expr e : no_braces e -> forall rest acc,
  split_go (e ++ "}" :: rest) (MExpr 0 acc) [] = oseg (mk_expr (acc ++ e)) (split_go rest MText []).
Proof.
  induction 1 as [|c e (Ho & Hc) _ IH]; intros rest acc.
  - rewrite app_nil_r. reflexivity.
  - cbn [app split_go]. rewrite (ceq_neq _ _ Ho), (ceq_neq _ _ Hc), IH, <- app_assoc. reflexivity.
Qed.

(* {{ and }} : a text with every brace doubled splits into that text *)
Definition no_dollar (t : bytes) : Prop := Forall (fun c => c <> "$") t.

Lemma split_go_escaped t : no_dollar t -> forall s cur,
  split_go (escape_braces t ++ s) MText cur = split_go s MText (cur ++ t).
Proof.
  induction 1 as [|c t Hd _ IH]; intros s cur.
  - rewrite app_nil_r. reflexivity.
  - cbn [escape_braces]. destruct (ceq c "{") eqn:Eo; [ | destruct (ceq c "}") eqn:Ec ].
    + apply ceq_eq in Eo. subst c. cbn [app split_go].
      change (ceq "{" "$") with false. change (ceq "{" "{") with true. cbn [andb].
      rewrite IH, <- app_assoc. reflexivity.
    + apply ceq_eq in Ec. subst c. cbn [app split_go].
      change (ceq "}" "$") with false. change (ceq "}" "{") with false. change (ceq "}" "}") with true. cbn [andb].
      rewrite IH, <- app_assoc. reflexivity.
    + cbn [app split_go]. rewrite (ceq_neq _ _ Hd), Eo, Ec. cbn [andb]. rewrite IH, <- app_assoc. reflexivity.
Qed.

Lemma has_interpolation_brace s : no_backslash s -> In "{" s -> has_interpolation s = true.
Proof.
  induction 1 as [|c s Hb _ IH]; intros Hin; [ destruct Hin | ].
  cbn [has_interpolation]. rewrite (ceq_neq _ _ Hb).
  destruct (ceq c "{") eqn:Eo.
  - destruct s as [|c2 r]; [ reflexivity | ].
    destruct (ceq c2 "{") eqn:E2; [ | reflexivity ].
    apply IH. left. symmetry. apply ceq_eq. exact E2.
  - apply IH. destruct Hin as [E|Hin]; [ | exact Hin ].
    subst c. discriminate.
Qed.

Lemma has_interpolation_none s : Forall (fun c => c <> "{") s -> has_interpolation s = false.
Proof.
  (* after a backslash the scan skips a character: the claim for the tail is carried along *)
  intros H. cut (has_interpolation s = false /\ has_interpolation (tl s) = false); [ tauto | ].
  induction H as [|c s Hc _ [IH1 IH2]]; [ split; reflexivity | ].
  split; [ | exact IH1 ]. cbn [has_interpolation]. rewrite (ceq_neq _ _ Hc).
  destruct (ceq c "\"); [ destruct s; [ reflexivity | exact IH2 ] | exact IH1 ].
Qed.

(* a segment whose expression has a value the model renders, and what a segment contributes to the value of
   the literal *)
Definition bound (e : env) (s : segment) : Prop :=
  match s with
  | SExpr ex sp => exists v, lookup e ex = Some v /\ spec_supported v (match sp with Some f => f | None => [] end) = true
  | _ => True
  end.

Definition seg_out (e : env) (s : segment) : bytes :=
  seg_value (fun ex sp => match lookup e ex with
                          | Some v => format_value v (match sp with Some f => f | None => [] end)
                          | None => []
                          end) s.

Definition text_seg (t : bytes) : list segment := match t with [] => [] | _ => [SText t] end.

Lemma split_one_expr t1 ex t2 : plain_text t1 -> no_backslash t1 -> plain_text t2 -> no_braces ex ->
  has_interpolation (t1 ++ "{" :: ex ++ "}" :: t2) = true /\
  split (t1 ++ "{" :: ex ++ "}" :: t2) = Some (text_seg t1 ++ mk_expr ex :: text_seg t2).
Proof.
  intros H1 Hb H2 He.
  (* what follows the opening brace is not a second one *)
  assert (Hnext : forall A (x : bytes -> A) y,
            match ex ++ "}" :: t2 with c2 :: r => if ceq c2 "{" then x r else y | [] => y end = y).
  { intros A x y. destruct He as [|c ex' (Ho & _) _]; cbn [app]; [ reflexivity | ]. rewrite (ceq_neq _ _ Ho). reflexivity. }
  split.
  - clear H2. induction H1 as [|c t (Ho & _ & _) _ IH].
    + cbn [app has_interpolation]. change (ceq "{" "\") with false. change (ceq "{" "{") with true. cbv iota.
      apply Hnext.
    + inversion Hb; subst. cbn [app has_interpolation].
      rewrite (ceq_neq c "\") by assumption. rewrite (ceq_neq _ _ Ho). apply IH. assumption.
  - unfold split. rewrite split_go_plain by exact H1. cbn [app].
    cbn [split_go]. change (ceq "{" "$") with false. change (ceq "{" "{") with true. cbn [andb].
    rewrite Hnext, split_go_expr by exact He. cbn [app].
    rewrite <- (app_nil_r t2) at 1. rewrite split_go_plain by exact H2. cbn [app split_go].
    destruct t1, t2; reflexivity.
Qed.
