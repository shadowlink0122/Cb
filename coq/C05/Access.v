(* C05 - lemmas about [resolve] (one element access through each site) and pointer arithmetic. *)
From Coq Require Import List ZArith Bool Lia.
Import ListNotations.
From Cb Require Import C05.Model C05.FlatIndex.
Local Open Scope Z_scope.

Definition rank1 (dims : list Z) : bool := match dims with [_] => true | _ => false end.

Lemma row_major_1 n i : row_major [n] [i] = i.
Proof. cbn. lia. Qed.

(* the generic N-D branch of every site *)
Lemma nd_branch_iff b dims idxs k : dims_fit dims ->
  (match conv_all b idxs with
   | None => inr EBounds
   | Some idxs' =>
       if negb (Nat.eqb (List.length dims) (List.length idxs')) then inr EOther else
       match calc_flat dims idxs' with
       | Some f => if f <? size dims then inl f else inr EBounds
       | None => inr EBounds
       end
   end = inl k <-> in_range dims idxs /\ k = row_major dims idxs).
Proof.
  intros Hd. destruct (conv_all b idxs) as [l|] eqn:C.
  - apply conv_all_some in C. subst l.
    destruct (Nat.eqb (List.length dims) (List.length idxs)) eqn:E; cbn [negb].
    + destruct (calc_flat dims idxs) as [f|] eqn:F.
      * apply calc_flat_some_iff in F. destruct F as [Hin ->].
        pose proof (row_major_bounds _ _ Hin) as Hb.
        destruct (Z.ltb_spec (row_major dims idxs) (size dims)) as [A|A]; [|lia].
        split; [intros G; split; [exact Hin|congruence]|intros [_ ->]; reflexivity].
      * apply calc_flat_none_iff in F. split; [discriminate|tauto].
    + apply Nat.eqb_neq in E. split; [discriminate|]. intros [G _].
      apply in_range_length in G. contradiction.
  - apply conv_all_none in C. split; [discriminate|]. intros [G _].
    exfalso. apply C. eapply in_range_fits; eauto.
Qed.

(* every site, every integer index: accepted exactly on the in-range tuples, with the row-major cell *)
Lemma resolve_inl_iff ak m dims idxs k : dims_fit dims ->
  (resolve ak m dims (size dims) idxs = inl k <-> in_range dims idxs /\ k = row_major dims idxs).
Proof.
  intros Hd.
  destruct dims as [|n [|n2 ds]].
  - cbn [resolve]. apply nd_branch_iff; exact Hd.
  - cbn [resolve].
    destruct idxs as [|i [|i2 is_]]; cbn [in_range]; try (split; [discriminate|tauto]).
    rewrite row_major_1. inversion Hd as [|? ? Hn _]; subst.
    destruct (conv (narrows ak true m) i) as [i'|] eqn:C.
    + assert (i' = i).
      { unfold conv in C. destruct (narrows ak true m); [apply index_to_int_spec in C; tauto|congruence]. }
      subst i'.
      destruct (Z.ltb_spec i 0) as [A|A], (Z.leb_spec n i) as [B|B]; cbn [orb];
        try (split; [discriminate|intros [[? _] _]; lia]).
      split; [intros G; injection G as <-; split; [split; [lia|exact I]|reflexivity]|intros [_ ->]; reflexivity].
    + unfold conv in C. destruct (narrows ak true m); [|discriminate].
      apply index_to_int_none in C. split; [discriminate|]. intros [[G _] _].
      exfalso. apply C. unfold int_range, two31 in *. lia.
  - cbn [resolve]. apply nd_branch_iff; exact Hd.
Qed.

Lemma resolve_accepts_iff ak m dims idxs : dims_fit dims ->
  ((exists k, resolve ak m dims (size dims) idxs = inl k) <-> in_range dims idxs) /\
  (forall k, resolve ak m dims (size dims) idxs = inl k -> k = row_major dims idxs).
Proof.
  intros Hd. split.
  - split.
    + intros [k H]. apply resolve_inl_iff in H; tauto.
    + intros H. exists (row_major dims idxs). apply resolve_inl_iff; auto.
  - intros k H. apply resolve_inl_iff in H; tauto.
Qed.

(* the same as one case distinction on the boolean test *)
Lemma resolve_eq ak m dims idxs : dims_fit dims ->
  if in_rangeb dims idxs then resolve ak m dims (size dims) idxs = inl (row_major dims idxs)
  else exists e, resolve ak m dims (size dims) idxs = inr e.
Proof.
  intros Hd. destruct (in_rangeb dims idxs) eqn:B.
  - apply resolve_inl_iff; [exact Hd|]. split; [apply in_rangeb_spec; exact B|reflexivity].
  - destruct (resolve ak m dims (size dims) idxs) as [k|e] eqn:E; [|eauto].
    apply resolve_inl_iff in E; [|exact Hd]. destruct E as [Hin _]. apply in_rangeb_spec in Hin. congruence.
Qed.

(* class of the error: "bounds" everywhere except the 1-D struct-member read *)
Lemma nd_branch_err b dims stor idxs e : List.length idxs = List.length dims ->
  match conv_all b idxs with
  | None => inr EBounds
  | Some idxs' =>
      if negb (Nat.eqb (List.length dims) (List.length idxs')) then inr EOther else
      match calc_flat dims idxs' with
      | Some f => if f <? stor then @inl Z eclass f else inr EBounds
      | None => inr EBounds end
  end = inr e -> e = EBounds.
Proof.
  intros L. destruct (conv_all b idxs) as [l|] eqn:C; [|congruence].
  apply conv_all_some in C. subst l. rewrite L, Nat.eqb_refl. cbn [negb].
  destruct (calc_flat _ _); [destruct (_ <? _)|]; congruence.
Qed.

Lemma resolve_err_class ak m dims stor idxs e : List.length idxs = List.length dims ->
  resolve ak m dims stor idxs = inr e -> e = EBounds \/ (ak = AMember /\ m = Rd /\ rank1 dims = true).
Proof.
  intros L.
  destruct dims as [|n [|n2 ds]].
  - cbn [resolve]. intros H; left; eapply nd_branch_err; eauto.
  - cbn [resolve rank1]. destruct idxs as [|i [|? ?]]; try discriminate L.
    destruct (conv _ i) as [i'|]; [destruct ((_ <? 0) || (n <=? _)); [|discriminate]|];
      destruct ak, m; intros H; injection H as <-; auto.
  - cbn [resolve]. intros H; left; eapply nd_branch_err; eauto.
Qed.

Definition base_ok (base n : Z) : Prop := 0 <= base /\ base + 8 * n <= two64.

Lemma ptr_arith_range base n e plus k e' : ptr_arith base n e plus k = Some e' -> 0 <= e' < n.
Proof.
  unfold ptr_arith. destruct ((max_ptr_offset <? k) || (k <? - max_ptr_offset)); [discriminate|].
  set (na := if plus then _ else _).
  destruct (Z.ltb_spec na base), (Z.leb_spec (base + 8 * n) na); cbn [orb]; try discriminate.
  intros G. injection G as <-.
  split; [apply Z.div_pos; lia|apply Z.div_lt_upper_bound; lia].
Qed.

(* for every offset: accepted iff the target stays inside, and then the target is e +- k *)
Lemma ptr_arith_ok (base n e : Z) (plus : bool) (k : Z) : base_ok base n -> 0 <= e < n -> n < two31 ->
  let t := if plus then e + k else e - k in
  ptr_arith base n e plus k = if (0 <=? t) && (t <? n) then Some t else None.
Proof.
  intros [Hb1 Hb2] He Hn t. unfold ptr_arith.
  set (na := if plus then _ else _).
  (* the new address is base + 8 t modulo 2^64: exact when t is inside, and outside the array when t is not, because
     the guard keeps 8 |k| below 2^62 *)
  assert (E : na = (base + 8 * t) mod two64).
  { subst na t. unfold wrap64. destruct plus; [rewrite Zplus_mod_idemp_r|rewrite Zminus_mod_idemp_r]; f_equal; lia. }
  pose proof (Z.div_mod (base + 8 * t) two64 ltac:(discriminate)) as D. rewrite <- E in D.
  pose proof (Z.mod_pos_bound (base + 8 * t) two64 eq_refl) as B. rewrite <- E in B.
  assert (T : t = e + k \/ t = e - k) by (subst t; destruct plus; auto).
  clearbody na t. unfold two64, two31, max_ptr_offset in *.
  destruct (Z.ltb_spec 576460752303423487 k), (Z.ltb_spec k (Z.opp 576460752303423487)), (Z.leb_spec 0 t), (Z.ltb_spec t n);
    cbn [orb andb]; try reflexivity; try lia.
  all: destruct (Z.ltb_spec na base), (Z.leb_spec (base + 8 * n) na); cbn [orb]; try reflexivity; try lia.
  f_equal. replace (na - base) with (t * 8) by lia. apply Z.div_mul. lia.
Qed.
