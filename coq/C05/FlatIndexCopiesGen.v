(* C05 - the copies of the row-major loop that bypass Variable::calculate_flat_index: the `array_dimensions` branch (struct
   member arrays) of ArrayManager::getMultidimensionalArrayElementTyped, setMultidimensionalArrayElement (int64_t and double
   overloads), getMultidimensionalStringArrayElement and setMultidimensionalStringArrayElement (managers/arrays/manager.cpp).
   Each branch is cut out of its function and translated by translators/cxx_pure.py on every run of ./check C05
   (C05/Gen_FlatIndex.v: fn_get_typed_flat, fn_set_int_flat, fn_set_double_flat, fn_get_string_flat, fn_set_string_flat);
   what the branch reads from the rest of the function are three vectors: `indices` (the int64_t subscripts: only their
   number is used), `int_indices` (the same subscripts after Variable::index_to_int) and `var.array_dimensions`.

   Each branch is an instance of FlatIndexGen.rm_fun ([member_branch_is_model]), so it computes exactly Model.calc_flat (value,
   which exception) - under the side conditions of FlatIndexGen.v for the four branches that compute in int, and for every
   product of extents below 2^64 for the read branch, which computes in size_t.
   Further down: StructOperations::get_struct_member_multidim_array_element (fn_member_read_flat, another instance) and the
   read path of float / double / quad arrays in the typed evaluator (fn_float_read_flat): its loop has no product after the
   last dimension and no test of the number of subscripts, so its iteration ([fr_body_spec]) and the region around the loop
   ([fr_fun], [float_read_is_model]) have proofs of their own, from the same operand lemmas; the induction is
   FlatIndexGen.loop_generic again. *)
From Coq Require Import ZArith Bool String List Lia ZifyBool.
From Cb Require Import Cxx.Cxx Cxx.CxxLemmas C05.Gen_FlatIndex C05.FlatIndexGen.
Import ListNotations.
Local Open Scope string_scope.
Local Open Scope Z_scope.

Definition vargs3 (raw dims idxs : list Z) : vecs :=
  [("indices", (TLong, raw)); ("int_indices", (TInt, idxs)); ("var.array_dimensions", (TInt, dims))].
Definition call_copy (f : vfn) (fuel : nat) (raw dims idxs : list Z) : result := run_vec fuel f "" (vargs3 raw dims idxs) [].

(* the int64_t subscripts: as many as converted ones, each an int64_t *)
Definition raw_ok (raw idxs : list Z) : Prop :=
  List.length raw = List.length idxs /\ Forall (fun z => -9223372036854775808 <= z <= 9223372036854775807) raw.
(* the read branch computes in size_t: the product of the extents only has to fit 64 bits *)
Definition size_max : Z := 18446744073709551615.
Definition extents_ok64 (dims : list Z) : Prop :=
  Forall (fun d => 1 <= d) dims /\ Forall is_int dims /\ M.size dims <= size_max /\ Z.of_nat (List.length dims) <= int_max.

Lemma bind_vargs3 f raw dims idxs :
  v_vecs f = [("indices", TLong); ("int_indices", TInt); ("var.array_dimensions", TInt)] ->
  Forall is_int dims -> Z.of_nat (List.length dims) <= int_max -> indices_ok idxs -> raw_ok raw idxs ->
  bind_vecs (v_vecs f) (vargs3 raw dims idxs) = Some (vargs3 raw dims idxs).
Proof.
  intros -> Hdi Hr [Hi Hl] [Hrl Hraw]. unfold int_max in Hr.
  cbn -[vec_ok].
  rewrite (vec_ok_fits TLong raw), (vec_ok_fits TInt idxs), (vec_ok_fits TInt dims) by (exact I || assumption || lia). reflexivity.
Qed.

(* The branches of ArrayManager.  Each is the row-major region with accumulators of type ta: int in setMultidimensionalArrayElement (int64_t and double
   overloads), getMultidimensionalStringArrayElement and setMultidimensionalStringArrayElement; size_t in
   getMultidimensionalArrayElementTyped, where unsigned arithmetic cannot overflow into undefined behaviour and is exact - and
   so equal to the model - as long as the product of the extents is below 2^64. *)
Definition oob_member : string := "Array index out of bounds in struct member access".
Definition mismatch_member : string := "Dimension mismatch in struct member array access".

Lemma member_branch_is_model f ta raw dims idxs fuel :
  v_vecs f = [("indices", TLong); ("int_indices", TInt); ("var.array_dimensions", TInt)] ->
  f_params (v_fn f) = [] -> f_sparam (v_fn f) = "" -> f_ret (v_fn f) = ta ->
  no_effects (f_body (v_fn f)) =
    rm_fun "i" "indices" "int_indices" "var.array_dimensions" TInt ta (MLit mismatch_member) (MLit oob_member) ->
  wide ta -> Forall (fun d => 1 <= d) dims -> Forall is_int dims -> M.size dims <= tmax ta ->
  Z.of_nat (List.length dims) <= int_max -> indices_ok idxs -> raw_ok raw idxs -> (List.length dims < fuel)%nat ->
  call_copy f fuel raw dims idxs =
  model_result ta dims idxs (if Nat.eqb (List.length idxs) (List.length dims) then oob_member else mismatch_member).
Proof.
  intros Hv Hp Hs Hr Hb Hta Hpos Hdi Hsize Hrank Hi Hraw Hfuel.
  unfold call_copy. rewrite run_vec_exec, Hs, Hr, Hb by (apply bind_vargs3; assumption) || assumption.
  destruct Hi as (Hint & Hilen), Hraw as (Hrl & _).
  rewrite (rm_fun_spec (vargs3 raw dims idxs) fuel ("", "") "i" "int_indices" "var.array_dimensions" TInt ta (MLit oob_member)
             (fun _ => oob_member) dims idxs) with (sz := "indices") (ts := TLong) (raw := raw) (mtext := mismatch_member);
    try assumption; try reflexivity; try discriminate; auto.
Qed.

Definition int_copies : list vfn := [fn_set_int_flat; fn_set_double_flat; fn_get_string_flat; fn_set_string_flat].
(* StructOperations::get_struct_member_multidim_array_element
   (managers/structs/operations.cpp): the read path of obj.member[i]...[k].  It compares the int64_t subscripts directly (no
   conversion to int), computes in size_t, and names the dimension in the text of the exception. *)
Definition vargs2 (dims idxs : list Z) : vecs :=
  [("indices", (TLong, idxs)); ("member_var->array_dimensions", (TInt, dims))].
Definition call_member_read (fuel : nat) (dims idxs : list Z) : result := run_vec fuel fn_member_read_flat "" (vargs2 dims idxs) [].
Definition is_int64 (z : Z) : Prop := -9223372036854775808 <= z <= 9223372036854775807.
Definition indices64_ok (idxs : list Z) : Prop := Forall is_int64 idxs /\ Z.of_nat (List.length idxs) <= 9223372036854775807.

Lemma bind_vargs2 dims idxs : Forall is_int dims -> Z.of_nat (List.length dims) <= int_max -> indices64_ok idxs ->
  bind_vecs (v_vecs fn_member_read_flat) (vargs2 dims idxs) = Some (vargs2 dims idxs).
Proof.
  intros Hdi Hr [Hi Hl]. unfold int_max in Hr.
  cbn -[vec_ok]. rewrite (vec_ok_fits TLong idxs), (vec_ok_fits TInt dims) by (exact I || assumption || lia). reflexivity.
Qed.

Definition mr_msg (i : Z) : string := "Array index out of bounds in dimension " ++ dec_string i.
Definition mr_throw : msg := MCat (MLit "Array index out of bounds in dimension ") (MDec (EVar "d")).

Definition mr_mismatch : msg :=
  MCat (MCat (MCat (MLit "Dimension mismatch: expected ") (MDec (EVecSize "member_var->array_dimensions")))
             (MLit " dimensions, got ")) (MDec (EVecSize "indices")).

(* The read path of float / double / quad arrays
   (ExpressionEvaluator::evaluate_typed_expression_internal, evaluator/core/evaluator.cpp; since fix 3f94fc1 every index is
   tested against its own dimension inside the loop).  It compares the int64_t subscripts directly, accumulates in int / long,
   multiplies `multiplier` only while d > 0 (no unused last product) and has NO test of the number of subscripts before the
   loop: a subscript beyond the last dimension is rejected by `d >= array_dimensions.size()`, but FEWER subscripts than
   dimensions are accepted and address the row-major cell of the leading dimensions. *)
Definition vargsF (dims idxs : list Z) : vecs :=
  [("indices", (TLong, idxs)); ("var->array_dimensions", (TInt, dims))].
Definition call_float_read (fuel : nat) (dims idxs : list Z) : result :=
  run_vec fuel fn_float_read_flat "" (vargsF dims idxs) [].
Definition fr_msg : string := "Array index out of bounds".
(* any int64_t subscripts; their number is converted to int *)
Definition indices64_int_ok (idxs : list Z) : Prop := Forall is_int64 idxs /\ Z.of_nat (List.length idxs) <= int_max.

Lemma bind_vargsF dims idxs : Forall is_int dims -> Z.of_nat (List.length dims) <= int_max -> indices64_int_ok idxs ->
  bind_vecs (v_vecs fn_float_read_flat) (vargsF dims idxs) = Some (vargsF dims idxs).
Proof.
  intros Hdi Hr [Hi Hl]. unfold int_max in Hr, Hl.
  cbn -[vec_ok]. rewrite (vec_ok_fits TLong idxs), (vec_ok_fits TInt dims) by (exact I || assumption || lia). reflexivity.
Qed.

Definition fr_inner : stmt :=
  SSeq (SIf (ELOr (ELOr (EBin BGe (EVar "d") (ECast TInt (EVecSize "var->array_dimensions")))
                        (EBin BLt (at_var "indices" "d") (ECast TLong (ELit TInt 0))))
                  (EBin BGe (at_var "indices" "d") (ECast TLong (at_var "var->array_dimensions" "d"))))
            (SThrow (MLit fr_msg)) SSkip)
 (SSeq (SAssignOp BAdd "flat_index" (EBin BMul (at_var "indices" "d") (ECast TLong (EVar "multiplier"))))
       (SIf (EBin BGt (EVar "d") (ELit TInt 0)) (SAssignOp BMul "multiplier" (at_var "var->array_dimensions" "d")) SSkip)).
Definition fr_body : stmt := SSeq (SBlock fr_inner) (SDecr "d").
Definition fr_fun : stmt :=
  SSeq (SDecl TInt "flat_index" (ELit TInt 0))
 (SSeq (SDecl TInt "multiplier" (ELit TInt 1))
 (SSeq (SFor (SDecl TInt "d" (ECast TInt (EBin BSub (EVecSize "indices") (ECast TULong (ELit TInt 1))))) (rm_cond "d") (SDecr "d")
             fr_inner)
       (SReturn (EVar "flat_index")))).

Section FloatReadLoop.
Variables (dims idxs : list Z) (fuel : nat).
Let ve := vargsF dims idxs.
Let sp : string * string := ("", "").

Hypothesis Hidx : Forall is_int64 idxs.
Hypothesis Hdi : Forall is_int dims.
Hypothesis Hrank : Z.of_nat (List.length dims) <= int_max.
Hypothesis Hilen : Z.of_nat (List.length idxs) <= int_max.

Lemma fr_body_spec n m f : (n < List.length idxs)%nat -> 0 <= f <= int_max -> 0 <= m <= int_max ->
  ((n < List.length dims)%nat -> 0 <= nth n idxs 0 < nth n dims 0 ->
   0 <= nth n idxs 0 * m <= int_max /\ 0 <= f + nth n idxs 0 * m <= int_max /\ 0 <= m * nth n dims 0 <= int_max) ->
  exec ve fuel sp TInt (lstate "d" TInt (Z.of_nat n) m f) fr_body =
  if (Z.of_nat (List.length dims) <=? Z.of_nat n) || ((nth n idxs 0 <? 0) || (nth n dims 0 <=? nth n idxs 0))
  then ODone (RThrow fr_msg)
  else ONext (lstate "d" TInt (Z.of_nat n - 1) (if 0 <? Z.of_nat n then m * nth n dims 0 else m) (f + nth n idxs 0 * m)).
Proof.
  intros Hn Hf Hm Hb. unfold int_max in *.
  pose proof (Forall_nth_Z _ _ _ Hidx Hn) as Rx. unfold is_int64 in Rx.
  set (x := nth n idxs 0) in *. set (S := lstate "d" TInt (Z.of_nat n) m f).
  assert (Ex : eval ve sp S (at_var "indices" "d") = EV (TLong, x)) by (apply eval_at; try reflexivity; lia).
  (* the test: d beyond the last dimension, or the index outside dimension d *)
  assert (Et : eval ve sp S (ELOr (ELOr (EBin BGe (EVar "d") (ECast TInt (EVecSize "var->array_dimensions")))
                                         (EBin BLt (at_var "indices" "d") (ECast TLong (ELit TInt 0))))
                                   (EBin BGe (at_var "indices" "d") (ECast TLong (at_var "var->array_dimensions" "d"))))
               = EV (TBool, b2z ((Z.of_nat (List.length dims) <=? Z.of_nat n) || (x <? 0) || (nth n dims 0 <=? x)))).
  { apply eval_lor; [apply eval_lor|].
    - rewrite (eval_same _ _ _ BGe _ _ TInt (Z.of_nat n) (Z.of_nat (List.length dims))); try reflexivity; try exact I;
        [|unfold fits; cbn; lia..].
      cbn [eval vlookup ve vargsF String.eqb Ascii.eqb Bool.eqb]. unfold cast, vec_len. cbn [is_ld andb].
      rewrite conv_id; [reflexivity|]. apply in_range_iff; [reflexivity|cbn; lia].
    - intros _. rewrite (eval_same _ _ _ BLt _ _ TLong x 0); try reflexivity; try exact I; [exact Ex|exact Rx|unfold fits; cbn; lia].
    - intros HL. apply orb_false_iff in HL as [HL _]. assert (Hnd : (n < List.length dims)%nat) by lia.
      pose proof (Forall_nth_Z _ _ _ Hdi Hnd) as Rd. unfold is_int in Rd.
      rewrite (eval_same _ _ _ BGe _ _ TLong x (nth n dims 0)); try reflexivity; try exact I; [exact Ex| |exact Rx|unfold fits; cbn; lia].
      apply (eval_coerce _ _ _ TInt TLong); try exact I; [|unfold fits; cbn; lia].
      apply eval_at; try reflexivity; lia. }
  unfold fr_body, fr_inner. cbn [exec]. fold S. rewrite Et. cbn [lift]. rewrite <- orb_assoc.
  destruct (Z.leb_spec (Z.of_nat (List.length dims)) (Z.of_nat n)) as [B0|B0]; [reflexivity|].
  destruct (Z.ltb_spec x 0) as [B1|B1]; [reflexivity|].
  assert (Hnd : (n < List.length dims)%nat) by lia.
  pose proof (Forall_nth_Z _ _ _ Hdi Hnd) as Rd. unfold is_int in Rd. set (d := nth n dims 0) in *.
  destruct (Z.leb_spec d x) as [B2|B2]; [reflexivity|].
  cbn [orb b2z nonzero exec]. destruct (Hb Hnd) as (H1 & H2 & H3); [lia|].
  replace (leave S S) with S by reflexivity.
  assert (Fi : forall z, 0 <= z <= 2147483647 -> fits TInt z) by (unfold fits; cbn; lia).
  assert (Fl : forall z, 0 <= z <= 2147483647 -> fits TLong z) by (unfold fits; cbn; lia).
  (* flat_index += x * (long) multiplier, in long *)
  rewrite (exec_assign_op ve sp S fuel TInt BAdd "flat_index" _ TInt TLong TLong f (x * m) (f + x * m));
    [|reflexivity|exact I|exact I|reflexivity|reflexivity| |apply Fl; lia|apply Fl; lia| |apply Fi; lia].
  2:{ rewrite (eval_same _ _ _ BMul _ _ TLong x m); [|exact I|reflexivity|exact Ex| |exact Rx|apply Fl; lia].
      - unfold arith2. cbn [is_ld]. apply fit_exact; [exact I|apply Fl; lia].
      - apply (eval_coerce _ _ _ TInt TLong); [exact I|exact I|reflexivity|apply Fl; lia]. }
  2:{ unfold arith2. cbn [is_ld]. apply fit_exact; [exact I|apply Fl; lia]. }
  cbn [S lstate update String.eqb Ascii.eqb Bool.eqb].
  (* if (d > 0) multiplier *= extent; then --d *)
  set (S1 := [("d", _); _; _]).
  rewrite (eval_same _ _ _ BGt _ _ TInt (Z.of_nat n) 0); [|exact I|reflexivity|reflexivity|reflexivity|apply Fi; lia|apply Fi; lia].
  unfold arith2. cbn [is_ld lift]. destruct (0 <? Z.of_nat n); cbn [b2z nonzero].
  - rewrite (exec_assign_op ve sp S1 fuel TInt BMul "multiplier" _ TInt TInt TInt m d (m * d));
      [|reflexivity|exact I|exact I|reflexivity|reflexivity| |apply Fi; lia|apply Fi; lia| |apply Fi; lia].
    2:{ apply eval_at; try reflexivity; lia. }
    2:{ unfold arith2. cbn [is_ld]. apply fit_exact; [exact I|apply Fi; lia]. }
    cbn [S1 update String.eqb Ascii.eqb Bool.eqb leave List.length Nat.sub skipn].
    rewrite (exec_decr _ _ _ _ _ _ (Z.of_nat n)) by (reflexivity || lia). reflexivity.
  - subst S1. cbn [exec leave List.length Nat.sub skipn].
    rewrite (exec_decr _ _ _ _ _ _ (Z.of_nat n)) by (reflexivity || lia). reflexivity.
Qed.

Hypothesis Hpos : Forall (fun d => 1 <= d) dims.

Lemma fr_loop_spec : forall n k f m, (n <= List.length idxs)%nat -> (n <= List.length dims)%nat ->
  0 <= f < m -> m * M.size (firstn n dims) <= int_max ->
  exists m', while_loop ve fuel sp TInt (rm_cond "d") fr_body (S n + k) (lstate "d" TInt (Z.of_nat n - 1) m f) =
  match M.flat_rev (rev (firstn n dims)) (rev (firstn n idxs)) f m with
  | Some r => ONext (lstate "d" TInt (-1) m' r)
  | None => ODone (RThrow fr_msg)
  end.
Proof.
  intros n k f m Hni Hnd.
  apply (loop_generic ve fuel sp TInt _ _ (lstate "d" TInt) (fun n m d => if 0 <? Z.of_nat n then m * d else m)
           (fun _ => fr_msg) int_max dims idxs); try assumption; try reflexivity.
  - apply rm_cond_spec.
  - intros j m0 f0 Hjd Hji Hf0 Hm0 Hb. rewrite fr_body_spec by auto.
    replace (Z.of_nat (List.length dims) <=? Z.of_nat j) with false by lia. reflexivity.
  - intros j m0 d Hj. replace (0 <? Z.of_nat j) with true by lia. reflexivity.
Qed.
End FloatReadLoop.

Lemma size_firstn_le dims n : Forall (fun d => 1 <= d) dims -> M.size (firstn n dims) <= M.size dims.
Proof.
  intros H. rewrite <- (firstn_skipn n dims) at 2. rewrite F.size_app.
  rewrite <- (firstn_skipn n dims) in H. apply Forall_app in H as [H1 H2].
  pose proof (size_at_least_1 _ H1) as P1. pose proof (size_at_least_1 _ H2) as P2. nia.
Qed.

(* (int)(indices.size() - 1): computed in size_t, so that no subscript at all gives 2^64 - 1, which the conversion turns into -1 *)
Lemma int_of_size_minus_1 n : Z.of_nat n <= 2147483647 ->
  conv TInt ((Z.of_nat n - 1) mod 18446744073709551616) = Z.of_nat n - 1.
Proof.
  intros H. destruct n; [reflexivity|]. rewrite Z.mod_small by lia.
  apply conv_id, in_range_iff; [reflexivity|cbn [tmin tmax]; lia].
Qed.

(* the whole branch, for ANY number of int64_t subscripts: the model on the leading dimensions *)
Lemma float_read_is_model dims idxs fuel : extents_ok dims -> indices64_int_ok idxs -> (List.length idxs < fuel)%nat ->
  call_float_read fuel dims idxs = model_result TInt (firstn (List.length idxs) dims) idxs fr_msg.
Proof.
  intros Hd Hi Hfuel.
  pose proof Hd as (Hpos & Hsize & Hrank). pose proof Hi as (Hint & Hilen).
  pose proof (extents_are_ints dims Hd) as Hdi.
  unfold call_float_read. rewrite run_vec_exec by (apply bind_vargsF; assumption) || reflexivity.
  change (exec _ _ _ _ _ _) with (exec (vargsF dims idxs) fuel ("", "") TInt [] fr_fun).
  unfold fr_fun, model_result, M.calc_flat.
  assert (F01 : forall z, 0 <= z <= 1 -> fits TInt z) by (unfold fits; cbn; lia).
  rewrite exec_seq, (exec_decl _ _ _ _ _ TInt _ _ 0) by (exact I || reflexivity || (apply F01; lia)). cbv beta iota.
  rewrite exec_seq, (exec_decl _ _ _ _ _ TInt _ _ 1) by (exact I || reflexivity || (apply F01; lia)). cbv beta iota.
  rewrite exec_seq. unfold SFor. change (exec ?ve ?fu ?sp ?rt ?en (SBlock ?s)) with
    (match exec ve fu sp rt en s with ONext en' => ONext (leave en en') | d => d end).
  rewrite exec_seq, (exec_decl _ _ _ _ _ TInt _ _ (Z.of_nat (List.length idxs) - 1)); [|exact I| |unfold fits, int_max in *; cbn; lia].
  2:{ change (eval ?ve ?sp ?en (ECast ?t ?a)) with (match eval ve sp en a with EV (ta, z) => cast ta t z | r => r end).
      rewrite (eval_same _ _ _ BSub _ _ TULong (Z.of_nat (List.length idxs)) 1);
        [|exact I|reflexivity|reflexivity|reflexivity|unfold fits, int_max in *; cbn; lia|unfold fits; cbn; lia].
      cbn [arith2 is_ld fit signed modulus]. unfold cast. cbn [is_ld andb]. rewrite int_of_size_minus_1 by exact Hilen. reflexivity. }
  cbv beta iota. rewrite exec_while.
  change (SSeq (SBlock fr_inner) (SDecr "d")) with fr_body.
  change [("d", (TInt, Z.of_nat (List.length idxs) - 1)); ("multiplier", (TInt, 1)); ("flat_index", (TInt, 0))]
    with (lstate "d" TInt (Z.of_nat (List.length idxs) - 1) 1 0).
  replace fuel with (S (List.length idxs) + (fuel - S (List.length idxs)))%nat at 2 by lia.
  destruct (Nat.leb (List.length idxs) (List.length dims)) eqn:E.
  - (* no more subscripts than dimensions: the loop over the leading dimensions *)
    apply Nat.leb_le in E.
    destruct (fr_loop_spec dims idxs fuel Hint Hdi Hrank Hilen Hpos (List.length idxs) (fuel - S (List.length idxs)) 0 1) as [m' Hl];
      [lia|exact E|lia| |].
    { pose proof (size_firstn_le dims (List.length idxs) Hpos). lia. }
    rewrite Hl, firstn_all. rewrite firstn_length_le by exact E. rewrite Nat.eqb_refl.
    destruct (M.flat_rev (rev (firstn (List.length idxs) dims)) (rev idxs) 0 1) as [r|] eqn:R; [|reflexivity].
    assert (Hr' : 0 <= r < M.size (firstn (List.length idxs) dims)).
    { apply (F.calc_flat_bounds _ idxs). unfold M.calc_flat. rewrite firstn_length_le by exact E. rewrite Nat.eqb_refl. exact R. }
    pose proof (size_firstn_le dims (List.length idxs) Hpos). unfold int_max in *.
    cbn [lstate leave List.length Nat.sub skipn exec eval lookup String.eqb Ascii.eqb Bool.eqb].
    unfold cast. cbn [is_ld andb]. rewrite conv_id; [reflexivity|]. apply in_range_iff; [reflexivity|cbn [tmin tmax]; lia].
  - (* a subscript beyond the last dimension: rejected in the first iteration *)
    apply Nat.leb_gt in E.
    destruct (List.length idxs) as [|n] eqn:En; [lia|].
    rewrite firstn_all2 by lia.
    replace (Nat.eqb (List.length dims) (S n)) with false by (symmetry; apply Nat.eqb_neq; lia).
    cbn [Nat.add]. rewrite while_loop_S.
    replace (Z.of_nat (S n) - 1) with (Z.of_nat n) by lia.
    rewrite rm_cond_spec by (unfold int_max in *; lia).
    replace (0 <=? Z.of_nat n) with true by lia. cbn [lift nonzero].
    rewrite (fr_body_spec dims idxs fuel Hint Hdi Hrank) by (rewrite ?En; unfold int_max in *; lia).
    replace (Z.of_nat (List.length dims) <=? Z.of_nat n) with true by lia. reflexivity.
Qed.
