(* C05 - the vocabulary of the property ([in_range], [row_major], [unflat]) and what Variable::calculate_flat_index
   ([calc_flat]) and the conversions to int do in its terms. *)
From Coq Require Import List ZArith Bool Lia.
Import ListNotations.
From Cb Require Import C05.Model.
Local Open Scope Z_scope.

(* every index inside its declared dimension (and as many indices as dimensions) *)
Fixpoint in_range (dims idxs : list Z) : Prop :=
  match dims, idxs with
  | [], [] => True
  | d :: ds, i :: is_ => 0 <= i < d /\ in_range ds is_
  | _, _ => False
  end.

Fixpoint in_rangeb (dims idxs : list Z) : bool :=
  match dims, idxs with
  | [], [] => true
  | d :: ds, i :: is_ => (0 <=? i) && (i <? d) && in_rangeb ds is_
  | _, _ => false
  end.

(* the row-major cell: sum_k i_k * prod_{j>k} d_j *)
Fixpoint row_major (dims idxs : list Z) : Z :=
  match dims, idxs with
  | d :: ds, i :: is_ => i * size ds + row_major ds is_
  | _, _ => 0
  end.

(* the inverse: the index tuple of flat cell k *)
Fixpoint unflat (dims : list Z) (k : Z) : list Z :=
  match dims with
  | [] => []
  | d :: ds => (k / size ds) :: unflat ds (k mod size ds)
  end.

Definition int_range (i : Z) : Prop := - two31 <= i < two31.
Definition positive_dims (dims : list Z) : Prop := forall d, In d dims -> 0 < d.

Lemma in_rangeb_spec dims : forall idxs, in_rangeb dims idxs = true <-> in_range dims idxs.
Proof.
  induction dims as [|d ds IH]; intros [|i is_]; cbn [in_rangeb in_range]; try tauto; try (split; [discriminate|tauto]).
  rewrite !andb_true_iff, IH, Z.leb_le, Z.ltb_lt. tauto.
Qed.

Lemma in_range_length dims : forall idxs, in_range dims idxs -> List.length dims = List.length idxs.
Proof.
  induction dims as [|d ds IH]; intros [|i is_]; cbn [in_range List.length]; try tauto.
  intros [_ H]. f_equal. apply IH. exact H.
Qed.

Lemma in_range_pos dims : forall idxs, in_range dims idxs -> positive_dims dims.
Proof.
  induction dims as [|d ds IH]; intros [|i is_]; cbn [in_range]; try tauto.
  - intros _ x [].
  - intros [Hi Hr] x [<-|Hx]; [lia|]. eapply IH; eauto.
Qed.

Lemma size_pos dims : positive_dims dims -> 0 < size dims.
Proof.
  induction dims as [|d ds IH]; intros H; cbn [size]; [lia|].
  assert (0 < d) by (apply H; left; reflexivity).
  assert (0 < size ds) by (apply IH; intros x Hx; apply H; right; exact Hx). nia.
Qed.

Lemma size_app a b : size (a ++ b) = size a * size b.
Proof. induction a as [|x a IH]; cbn [app size]; [lia|]. rewrite IH. lia. Qed.

Lemma size_rev a : size (rev a) = size a.
Proof. induction a as [|x a IH]; cbn [rev size]; [reflexivity|]. rewrite size_app, IH. cbn [size]. lia. Qed.

(* the value of the loop, on the reversed lists (last dimension first) *)
Fixpoint rm_rev (dims idxs : list Z) : Z :=
  match dims, idxs with
  | d :: ds, i :: is_ => i + d * rm_rev ds is_
  | _, _ => 0
  end.

Lemma flat_rev_eq dims : forall idxs flat mult,
  flat_rev dims idxs flat mult = if in_rangeb dims idxs then Some (flat + mult * rm_rev dims idxs) else None.
Proof.
  induction dims as [|d ds IH]; intros [|i is_] flat mult; cbn [flat_rev in_rangeb rm_rev]; try reflexivity.
  - f_equal. lia.
  - destruct (Z.ltb_spec i 0), (Z.leb_spec d i), (Z.leb_spec 0 i), (Z.ltb_spec i d); try lia; cbn [orb andb]; try reflexivity.
    rewrite IH. destruct (in_rangeb ds is_); [f_equal; lia|reflexivity].
Qed.

Lemma in_range_app a : forall b c d, List.length a = List.length b ->
  (in_range (a ++ c) (b ++ d) <-> in_range a b /\ in_range c d).
Proof.
  induction a as [|x a IH]; intros [|y b] c d; cbn [List.length app in_range]; try discriminate; try tauto.
  intros E. injection E as E. rewrite (IH b c d E). tauto.
Qed.

Lemma in_range_rev dims : forall idxs, List.length dims = List.length idxs ->
  (in_range (rev dims) (rev idxs) <-> in_range dims idxs).
Proof.
  induction dims as [|d ds IH]; intros [|i is_]; cbn [List.length rev in_range]; try discriminate; try tauto.
  intros E. injection E as E.
  rewrite in_range_app by (rewrite !rev_length; exact E).
  rewrite (IH is_ E). cbn [in_range]. tauto.
Qed.

Lemma in_rangeb_rev dims idxs : List.length dims = List.length idxs -> in_rangeb (rev dims) (rev idxs) = in_rangeb dims idxs.
Proof. intros E. apply eq_true_iff_eq. rewrite !in_rangeb_spec. apply in_range_rev, E. Qed.

Lemma rm_rev_app a : forall b x y, List.length a = List.length b ->
  rm_rev (a ++ [x]) (b ++ [y]) = rm_rev a b + size a * y.
Proof.
  induction a as [|d a IH]; intros [|i b] x y; cbn [List.length app rm_rev size]; try discriminate; try lia.
  intros E. injection E as E. rewrite (IH b x y E). lia.
Qed.

Lemma rm_rev_rev dims : forall idxs, List.length dims = List.length idxs ->
  rm_rev (rev dims) (rev idxs) = row_major dims idxs.
Proof.
  induction dims as [|d ds IH]; intros [|i is_]; cbn [List.length rev rm_rev row_major]; try discriminate; try reflexivity.
  intros E. injection E as E.
  rewrite rm_rev_app by (rewrite !rev_length; exact E).
  rewrite (IH is_ E), size_rev. lia.
Qed.

Lemma calc_flat_eq dims idxs : calc_flat dims idxs = if in_rangeb dims idxs then Some (row_major dims idxs) else None.
Proof.
  unfold calc_flat. destruct (Nat.eqb_spec (List.length dims) (List.length idxs)) as [E|E].
  - rewrite flat_rev_eq, (in_rangeb_rev _ _ E), (rm_rev_rev _ _ E). destruct (in_rangeb dims idxs); [f_equal; lia|reflexivity].
  - destruct (in_rangeb dims idxs) eqn:B; [|reflexivity]. apply in_rangeb_spec, in_range_length in B. contradiction.
Qed.

Lemma calc_flat_some_iff dims idxs k :
  calc_flat dims idxs = Some k <-> in_range dims idxs /\ k = row_major dims idxs.
Proof.
  rewrite calc_flat_eq, <- in_rangeb_spec. destruct (in_rangeb dims idxs).
  - split; [intros H; injection H as <-; auto|intros [_ ->]; reflexivity].
  - split; [discriminate|intros [H _]; discriminate H].
Qed.

Lemma calc_flat_none_iff dims idxs : calc_flat dims idxs = None <-> ~ in_range dims idxs.
Proof.
  rewrite calc_flat_eq, <- in_rangeb_spec. destruct (in_rangeb dims idxs).
  - split; [discriminate|intros H; contradiction H; reflexivity].
  - split; [discriminate|reflexivity].
Qed.

Lemma row_major_bounds dims : forall idxs, in_range dims idxs -> 0 <= row_major dims idxs < size dims.
Proof.
  induction dims as [|d ds IH]; intros [|i is_]; cbn [in_range row_major size]; try tauto; try lia.
  intros [Hi Hr]. specialize (IH _ Hr). nia.
Qed.

Lemma calc_flat_bounds dims idxs k : calc_flat dims idxs = Some k -> 0 <= k < size dims.
Proof. intros H. apply calc_flat_some_iff in H. destruct H as [H ->]. apply row_major_bounds; exact H. Qed.

Lemma row_major_inj dims : forall a b, in_range dims a -> in_range dims b ->
  row_major dims a = row_major dims b -> a = b.
Proof.
  induction dims as [|d ds IH]; intros [|i a] [|j b]; cbn [in_range row_major]; try tauto.
  intros [Hi Ha] [Hj Hb] E.
  pose proof (row_major_bounds _ _ Ha). pose proof (row_major_bounds _ _ Hb).
  assert (i = j) by nia. subst j.
  f_equal. apply IH; auto. lia.
Qed.

Lemma unflat_spec dims : positive_dims dims -> forall k, 0 <= k < size dims ->
  in_range dims (unflat dims k) /\ row_major dims (unflat dims k) = k.
Proof.
  induction dims as [|d ds IH]; intros Hpos k Hk; cbn [size] in Hk; cbn [unflat in_range row_major].
  - split; [exact I|lia].
  - assert (Hd : 0 < d) by (apply Hpos; left; reflexivity).
    assert (Hds : positive_dims ds) by (intros x Hx; apply Hpos; right; exact Hx).
    pose proof (size_pos _ Hds) as Hs.
    destruct (IH Hds (k mod size ds)) as [Hr E]; [apply Z.mod_pos_bound; lia|].
    split; [split; [|exact Hr]|].
    + split; [apply Z.div_pos; lia|]. apply Z.div_lt_upper_bound; lia.
    + rewrite E. rewrite (Z.div_mod k (size ds)) at 3 by lia. lia.
Qed.

Lemma unflat_row_major dims : forall idxs, in_range dims idxs -> unflat dims (row_major dims idxs) = idxs.
Proof.
  intros idxs H. pose proof (in_range_pos _ _ H) as Hp. pose proof (row_major_bounds _ _ H) as Hb.
  destruct (unflat_spec dims Hp _ Hb) as [Hr E].
  eapply row_major_inj; eauto.
Qed.

(* true of declared extents, which are C++ ints; d <= 2^31 is what puts an index below d inside int ([in_range_fits]) *)
Definition dims_fit (dims : list Z) : Prop := Forall (fun d => d <= two31) dims.

Lemma index_to_int_spec i j : index_to_int i = Some j <-> int_range i /\ j = i.
Proof.
  unfold index_to_int, int_range.
  destruct (Z.ltb_spec i (- two31)) as [A|A], (Z.leb_spec two31 i) as [B|B]; cbn [orb].
  1-3: split; [discriminate|intros [G _]; lia].
  split; [intros G; injection G as <-; split; [lia|reflexivity]|intros [_ ->]; reflexivity].
Qed.

Lemma index_to_int_none i : index_to_int i = None <-> ~ int_range i.
Proof.
  destruct (index_to_int i) as [j|] eqn:E.
  - apply index_to_int_spec in E. split; [discriminate|tauto].
  - split; [|reflexivity]. intros _ H. assert (index_to_int i = Some i) by (apply index_to_int_spec; auto). congruence.
Qed.

Lemma all_to_int_spec idxs : forall l, all_to_int idxs = Some l <-> Forall int_range idxs /\ l = idxs.
Proof.
  induction idxs as [|i r IH]; intros l; cbn [all_to_int].
  - split; [intros H; injection H as <-; split; [constructor|reflexivity]|intros [_ ->]; reflexivity].
  - destruct (index_to_int i) as [i'|] eqn:E.
    + apply index_to_int_spec in E. destruct E as [Hi ->].
      destruct (all_to_int r) as [r'|] eqn:F.
      * destruct (proj1 (IH r') eq_refl) as [Hr ->].
        split; [intros H; injection H as <-; split; [constructor; assumption|reflexivity]|intros [_ ->]; reflexivity].
      * split; [discriminate|]. intros [H ->]. inversion H; subst.
        assert (G : @None (list Z) = Some r) by (apply IH; auto). discriminate G.
    + apply index_to_int_none in E. split; [discriminate|]. intros [H _]. inversion H; subst. contradiction.
Qed.

Lemma all_to_int_none idxs : all_to_int idxs = None <-> ~ Forall int_range idxs.
Proof.
  destruct (all_to_int idxs) as [l|] eqn:E.
  - apply all_to_int_spec in E. split; [discriminate|tauto].
  - split; [|reflexivity]. intros _ H. assert (all_to_int idxs = Some idxs) by (apply all_to_int_spec; auto). congruence.
Qed.

Lemma in_range_fits dims : forall idxs, dims_fit dims -> in_range dims idxs -> Forall int_range idxs.
Proof.
  induction dims as [|d ds IH]; intros [|i is_] Hd H; cbn [in_range] in H; try tauto; try (constructor; fail).
  inversion Hd; subst. destruct H as [Hi Hr]. constructor; [unfold int_range, two31 in *; lia|]. apply IH; auto.
Qed.

Lemma dims_fit_of_size dims : positive_dims dims -> size dims < two31 -> dims_fit dims.
Proof.
  induction dims as [|d ds IH]; intros Hp Hs; [constructor|].
  assert (Hd : 0 < d) by (apply Hp; left; reflexivity).
  assert (Hds : positive_dims ds) by (intros x Hx; apply Hp; right; exact Hx).
  pose proof (size_pos _ Hds) as P. cbn [size] in Hs.
  constructor; [nia|]. apply IH; [exact Hds|nia].
Qed.

Lemma narrow32_id i : int_range i -> narrow32 i = i.
Proof. unfold int_range, narrow32, two31, two32. intros H. rewrite Z.mod_small by lia. lia. Qed.

Lemma narrow32_range i : int_range (narrow32 i).
Proof.
  unfold int_range, narrow32, two31, two32.
  pose proof (Z.mod_pos_bound (i + 2147483648) 4294967296). lia.
Qed.

Lemma narrow32_periodic i k : narrow32 (i + k * two32) = narrow32 i.
Proof. unfold narrow32, two32. replace (i + k * 4294967296 + two31) with (i + two31 + k * 4294967296) by lia.
  rewrite Z.mod_add by lia. reflexivity. Qed.

Lemma map_narrow32_id idxs : Forall int_range idxs -> map narrow32 idxs = idxs.
Proof. induction 1 as [|i l Hi _ IH]; cbn [map]; [reflexivity|]. rewrite narrow32_id, IH; auto. Qed.

Lemma conv_all_id b idxs : Forall int_range idxs -> conv_all b idxs = Some idxs.
Proof. destruct b; cbn [conv_all]; [|reflexivity]. intros H. apply all_to_int_spec. auto. Qed.

Lemma conv_all_some b idxs l : conv_all b idxs = Some l -> l = idxs.
Proof. destruct b; cbn [conv_all]; [|congruence]. intros H. apply all_to_int_spec in H. tauto. Qed.

Lemma conv_all_none b idxs : conv_all b idxs = None -> ~ Forall int_range idxs.
Proof. destruct b; cbn [conv_all]; [|discriminate]. apply all_to_int_none. Qed.

Lemma in_range_int dims : forall idxs, Forall int_range dims -> in_range dims idxs -> Forall int_range idxs.
Proof.
  intros idxs Hd. apply in_range_fits. eapply Forall_impl; [|exact Hd]. unfold int_range. intros d Hr. lia.
Qed.
