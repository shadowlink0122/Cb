(* C05 - the property theorems. Statements are about the Mech model of the interpreter's array
   index checks (Model.v); the lemmas behind the proofs are in FlatIndex.v / Access.v / Machine.v.
   Vocabulary: [in_range dims idxs] = as many indices as dimensions, each 0 <= i_k < d_k;
   [row_major dims idxs] = sum_k i_k * prod_{j>k} d_j; [int_range i] = i fits a C++ int.
   Mirrors /repo at the fix commits ff8053c (index_to_int), 2bd3a28 (pointer offset guard), f8c96b6 (p[k] into N-D arrays),
   4d44dbb (struct member subscripts of any rank) and 3ecd7bc (2-D member writes persist). *)
From Coq Require Import List ZArith Bool Lia.
Import ListNotations.
From Cb Require Import C05.Model C05.FlatIndex C05.Access C05.Machine.
Local Open Scope Z_scope.

(* ---- Variable::calculate_flat_index: per-dimension check, row-major, a bijection ---- *)
Theorem flat_index_accepts_exactly_in_range : forall dims idxs k,
  calc_flat dims idxs = Some k <-> in_range dims idxs /\ k = row_major dims idxs.
Proof. exact calc_flat_some_iff. Qed.
Print Assumptions flat_index_accepts_exactly_in_range.

Theorem flat_index_inside_buffer : forall dims idxs k, calc_flat dims idxs = Some k -> 0 <= k < size dims.
Proof.
  exact calc_flat_bounds.
Qed.
Print Assumptions flat_index_inside_buffer.

Theorem flat_index_injective : forall dims a b k,
  calc_flat dims a = Some k -> calc_flat dims b = Some k -> a = b.
Proof.
  intros dims a b k Ha Hb. apply calc_flat_some_iff in Ha, Hb. destruct Ha as [Ia ->], Hb as [Ib E].
  eapply row_major_inj; eauto.
Qed.
Print Assumptions flat_index_injective.

Theorem flat_index_surjective : forall dims k, positive_dims dims -> 0 <= k < size dims ->
  calc_flat dims (unflat dims k) = Some k /\
  (forall idxs, in_range dims idxs -> unflat dims (row_major dims idxs) = idxs).
Proof.
  intros dims k Hp Hk. split; [|apply unflat_row_major].
  destruct (unflat_spec dims Hp k Hk) as [Hin E]. apply calc_flat_some_iff. auto.
Qed.
Print Assumptions flat_index_surjective.

(* ---- every access site (local/global/parameter array, struct member array; read, write), every
        integer index: the access is accepted exactly when every index is inside its dimension,
        and then it addresses the row-major cell. [dims_fit]: the declared extents are C++ ints. ---- *)
Theorem access_accepted_iff_every_index_in_range : forall ak m dims idxs,
  dims_fit dims ->
  ((exists k, resolve ak m dims (size dims) idxs = inl k) <-> in_range dims idxs) /\
  (forall k, resolve ak m dims (size dims) idxs = inl k -> k = row_major dims idxs /\ 0 <= k < size dims).
Proof.
  intros ak m dims idxs Hd. split; [apply resolve_accepts_iff; exact Hd|].
  intros k H. apply resolve_inl_iff in H; [|exact Hd]. destruct H as [Hin ->].
  split; [reflexivity|apply row_major_bounds; exact Hin].
Qed.
Print Assumptions access_accepted_iff_every_index_in_range.

Theorem access_cells_are_a_bijection : forall ak m dims, dims_fit dims ->
  (forall a b k, resolve ak m dims (size dims) a = inl k -> resolve ak m dims (size dims) b = inl k -> a = b) /\
  (positive_dims dims -> forall k, 0 <= k < size dims ->
     exists idxs, in_range dims idxs /\ resolve ak m dims (size dims) idxs = inl k).
Proof.
  intros ak m dims Hd. split.
  - intros a b k H1 H2. apply resolve_inl_iff in H1, H2; try exact Hd.
    destruct H1 as [I1 ->], H2 as [I2 E]. eapply row_major_inj; eauto.
  - intros Hp k Hk. destruct (unflat_spec dims Hp k Hk) as [Hin E].
    exists (unflat dims k). split; [exact Hin|]. apply resolve_inl_iff; auto.
Qed.
Print Assumptions access_cells_are_a_bijection.

(* an index that does not fit an int is rejected at every site (was: truncated, finding
   C05-index-narrowed-to-int, fixed by ff8053c); the former witnesses are rejected *)
Theorem index_outside_int_rejected_at_every_site : forall ak m dims idxs,
  dims_fit dims -> ~ Forall int_range idxs ->
  exists e, resolve ak m dims (size dims) idxs = inr e.
Proof.
  intros ak m dims idxs Hd Hn. destruct (resolve ak m dims (size dims) idxs) as [k|e] eqn:E; [|eauto].
  apply resolve_inl_iff in E; auto. destruct E as [Hin _]. exfalso. apply Hn. eapply in_range_fits; eauto.
Qed.
Print Assumptions index_outside_int_rejected_at_every_site.

Theorem former_narrowing_witnesses_rejected :
  resolve ANamed Wr [2; 3] 6 [4294967297; 1] = inr EBounds /\ resolve ANamed Rd [2; 3] 6 [1; -4294967295] = inr EBounds /\
  resolve ANamed Wr [4] 4 [4294967297] = inr EBounds /\ resolve AMember Wr [4] 4 [4294967297] = inr EBounds /\
  resolve AMember Rd [4] 4 [4294967297] = inr EOther /\ resolve AMember Wr [2; 3] 6 [4294967297; 1] = inr EBounds /\
  snd (step ANamed [4] 4096 (mkst [1; 2; 3; 4] (Some 0)) (OPtrWrite 4294967297 9)) = RErr EBounds /\
  snd (step ANamed [2; 3] 4096 (mkst [1; 2; 3; 4; 5; 6] None) (OAddr [4294967297; 1])) = RErr EBounds.
Proof.
  repeat split; vm_compute; reflexivity.
Qed.
Print Assumptions former_narrowing_witnesses_rejected.

(* struct members of rank >= 3 (was: every read rejected, finding C05-struct-member-rank3-rejected, repaired):
   covered by access_accepted_iff_every_index_in_range; the former witness is accepted *)
Theorem member_rank3_access_accepted :
  resolve AMember Rd [2; 2; 3] 12 [0; 0; 0] = inl 0 /\ resolve AMember Wr [2; 2; 3] 12 [0; 0; 0] = inl 0 /\
  resolve AMember Rd [2; 2; 3] 12 [1; 1; 2] = inl 11 /\ resolve AMember Rd [2; 2; 3] 12 [1; 2; 0] = inr EBounds.
Proof.
  repeat split; vm_compute; reflexivity.
Qed.
Print Assumptions member_rank3_access_accepted.

Theorem reject_changes_nothing : forall ak dims base s o s' e,
  step ak dims base s o = (s', RErr e) -> s' = s.
Proof.
  intros ak dims base s o s' e. destruct o; cbn [step];
    repeat (match goal with |- context [match ?x with _ => _ end] => destruct x eqn:? end);
    intros H; inversion H; reflexivity.
Qed.
Print Assumptions reject_changes_nothing.

Theorem write_hits_exactly_one_cell : forall ak dims base s idxs v s',
  dims_fit dims -> wf dims s ->
  step ak dims base s (OWrite idxs v) = (s', RUnit) ->
  in_range dims idxs /\ ptr s' = ptr s /\
  forall t, in_range dims t ->
    getc (row_major dims t) (cells s') = if tuple_eqb t idxs then v else getc (row_major dims t) (cells s).
Proof.
  intros ak dims base s idxs v s' Hi Hwf. pose proof Hwf as [HL _]. cbn [step]. rewrite HL.
  destruct (resolve_accepts_iff ak Wr dims idxs Hi) as [A B].
  destruct (resolve ak Wr dims (size dims) idxs) as [f|e] eqn:E; [|discriminate].
  intros H. injection H as <-. assert (Hin : in_range dims idxs) by (apply A; eauto).
  rewrite (B f eq_refl). split; [exact Hin|]. split; [reflexivity|].
  set (ss := mksst (fun t => getc (row_major dims t) (cells s)) (ptr s)).
  assert (HR : R dims s ss) by (split; [intros; reflexivity|reflexivity]).
  destruct (R_write dims s ss idxs v Hwf HR Hin) as [HW _].
  intros t Ht. rewrite (HW t Ht). reflexivity.
Qed.
Print Assumptions write_hits_exactly_one_cell.

(* the pointer never leaves the array, whatever is done to it (all histories, checked or not) *)
Theorem pointer_stays_inside_array : forall ak dims base ops s, wf dims s ->
  wf dims (snd (run_checked ak dims base ops s)) /\ wf dims (snd (run_plain ak dims base ops s)).
Proof.
  intros. split; [apply run_checked_wf|apply run_plain_wf]; assumption.
Qed.
Print Assumptions pointer_stays_inside_array.

Theorem valid_pointer_always_dereferences : forall ak dims base s e, wf dims s -> ptr s = Some e ->
  step ak dims base s ODeref = (s, RVal (getc e (cells s))).
Proof.
  intros ak dims base s e [_ HP] P. cbn [step]. rewrite P in *. destruct (Z.leb_spec (size dims) e); [lia|reflexivity].
Qed.
Print Assumptions valid_pointer_always_dereferences.

(* ---- refinement: for every sequence of accesses (reads, writes, &a[i], p+-k, p++/p--, p[k],
        *p, *(p+k)) with arbitrary integer indices and offsets, on arrays of any rank, the machine yields the results of
        the shadow array keyed by index tuples, rejects exactly what it rejects, and ends in a
        related state - without `checked` (run stops at the first rejection) and with it ---- *)
Theorem machine_refines_shadow_array : forall ak dims base ops s ss,
  env_ok dims base -> wf dims s -> R dims s ss ->
  Forall2 same (fst (run_plain ak dims base ops s)) (fst (srun_plain dims ops ss)) /\
  R dims (snd (run_plain ak dims base ops s)) (snd (srun_plain dims ops ss)).
Proof.
  intros ak dims base ops s ss Henv. revert s ss.
  induction ops as [|o os IH]; intros s ss Hwf HR; cbn [run_plain srun_plain fst snd].
  - split; [constructor|exact HR].
  - destruct (step_simulates ak dims base s ss o Henv Hwf HR) as [S1 S2].
    pose proof (step_wf ak dims base s o Hwf) as W.
    destruct (step ak dims base s o) as [s' r]. destruct (sstep dims ss o) as [ss' r'].
    cbn [fst snd] in *. destruct (IH s' ss' W S2) as [I1 I2].
    destruct (run_plain ak dims base os s') as [rs s'']. destruct (srun_plain dims os ss') as [rs' ss''].
    cbn [fst snd] in *.
    destruct r as [v| |e], r' as [[w| |e']|]; cbn [same] in S1; try contradiction; cbn [fst snd];
      (split; [repeat constructor; cbn [same]; auto|auto]).
Qed.
Print Assumptions machine_refines_shadow_array.

Theorem checked_machine_refines_shadow_array : forall ak dims base ops s ss,
  env_ok dims base -> wf dims s -> R dims s ss ->
  Forall2 same (fst (run_checked ak dims base ops s)) (fst (srun_checked dims ops ss)) /\
  R dims (snd (run_checked ak dims base ops s)) (snd (srun_checked dims ops ss)).
Proof.
  intros ak dims base ops s ss Henv. revert s ss.
  induction ops as [|o os IH]; intros s ss Hwf HR; cbn [run_checked srun_checked fst snd].
  - split; [constructor|exact HR].
  - destruct (step_simulates ak dims base s ss o Henv Hwf HR) as [S1 S2].
    pose proof (step_wf ak dims base s o Hwf) as W.
    destruct (step ak dims base s o) as [s' r]. destruct (sstep dims ss o) as [ss' r'].
    cbn [fst snd] in *. destruct (IH s' ss' W S2) as [I1 I2].
    destruct (run_checked ak dims base os s') as [rs s'']. destruct (srun_checked dims os ss') as [rs' ss''].
    cbn [fst snd] in *. split; [constructor; assumption|exact I2].
Qed.
Print Assumptions checked_machine_refines_shadow_array.

(* `checked`: every access is processed, and it is an Err exactly when the shadow array rejects it *)
Theorem checked_access_is_err_iff_rejected : forall ak dims base ops s ss,
  env_ok dims base -> wf dims s -> R dims s ss ->
  List.length (fst (run_checked ak dims base ops s)) = List.length ops /\
  Forall2 (fun r r' => (exists e, r = RErr e) <-> r' = None)
          (fst (run_checked ak dims base ops s)) (fst (srun_checked dims ops ss)).
Proof.
  intros ak dims base ops s ss He Hw Hr. split; [apply run_checked_length|].
  destruct (checked_machine_refines_shadow_array ak dims base ops s ss He Hw Hr) as [H _].
  induction H; constructor; auto. apply same_err_iff. assumption.
Qed.
Print Assumptions checked_access_is_err_iff_rejected.

(* class of the Err: IndexOutOfBoundsError at every site except the read of a 1-D struct member *)
Theorem rejection_is_classified_out_of_bounds : forall ak m dims stor idxs e b,
  List.length idxs = List.length dims -> resolve ak m dims stor idxs = inr e ->
  classify e b = VIndexOutOfBounds \/ (ak = AMember /\ m = Rd /\ rank1 dims = true).
Proof.
  intros ak m dims stor idxs e b L H. destruct (resolve_err_class ak m dims stor idxs e L H) as [->|H1]; auto.
Qed.
Print Assumptions rejection_is_classified_out_of_bounds.

(* ---- pointer arithmetic: for every offset ---- *)
Theorem pointer_arithmetic_accepted_iff_inside : forall base n e (plus : bool) k,
  base_ok base n -> 0 <= e < n -> n < two31 ->
  let t := if plus then e + k else e - k in
  ptr_arith base n e plus k = if (0 <=? t) && (t <? n) then Some t else None.
Proof. exact ptr_arith_ok. Qed.
Print Assumptions pointer_arithmetic_accepted_iff_inside.

(* was: offset * 8 wrapped modulo 2^64 and p + (2^61 + 1) was accepted as p + 1
   (finding C05-pointer-offset-wraps, fixed by 2bd3a28) *)
Theorem pointer_huge_offset_rejected : forall base n e plus k,
  max_ptr_offset < k \/ k < - max_ptr_offset -> ptr_arith base n e plus k = None.
Proof.
  intros base n e plus k H. unfold ptr_arith.
  destruct (Z.ltb_spec max_ptr_offset k), (Z.ltb_spec k (- max_ptr_offset)); cbn [orb]; try reflexivity; lia.
Qed.
Print Assumptions pointer_huge_offset_rejected.

(* p[k] through a pointer into an N-D array (was: always rejected, finding
   C05-pointer-index-into-multidim-rejected, repaired): covered by machine_refines_shadow_array;
   the former witness reads the cell *)
Theorem pointer_index_into_multidim_reads_cell :
  let s := mkst [1; 2; 3; 4; 5; 6] (Some 5) in
  snd (step ANamed [2; 3] 4096 s (OPtrRead 0)) = RVal 6 /\ snd (step ANamed [2; 3] 4096 s (OPtrRead (-3))) = RVal 3 /\
  snd (step ANamed [2; 3] 4096 s (OPtrRead (-5))) = RVal 1 /\ snd (step ANamed [2; 3] 4096 s (OPtrRead 1)) = RErr EBounds /\
  cells (fst (step ANamed [2; 3] 4096 s (OPtrWrite (-2) 9))) = [1; 2; 3; 9; 5; 6].
Proof.
  repeat split; vm_compute; reflexivity.
Qed.
Print Assumptions pointer_index_into_multidim_reads_cell.

(* ---- array_get_int / array_set_int: no extent, nothing is ever rejected
        (known finding C05-array-get-set-unchecked) ---- *)
Theorem builtin_array_get_never_rejects_refuted : forall n heap,
  exists idx, ~ (0 <= idx < n) /\ (forall e, builtin_get heap idx <> RErr e) /\
              (forall v e, snd (builtin_set heap idx v) <> RErr e).
Proof.
  intros n heap. exists (-1). split; [lia|]. split; intros; cbn; discriminate.
Qed.
Print Assumptions builtin_array_get_never_rejects_refuted.

(* ---- non-vacuity: the hypotheses are satisfiable and the machine does what one expects ---- *)
Example env_example : env_ok [2; 3] 4096 /\ wf [2; 3] (mkst [1; 2; 3; 4; 5; 6] None).
Proof.
  split.
  - split; [intros d [<-|[<-|[]]]; lia|]. split; [reflexivity|]. split; [lia|unfold two64; cbn; lia].
  - split; reflexivity.
Qed.

Example run_example :
  fst (run_plain ANamed [2; 3] 4096
         [ORead [1; 2]; OWrite [0; 1] 42; OAddr [0; 2]; OPtrAdd 1; ODeref; ORead [0; 3]; ORead [0; 0]]
         (mkst [1; 2; 3; 4; 5; 6] None))
  = [RVal 6; RUnit; RUnit; RUnit; RVal 4; RErr EBounds] /\
  fst (run_checked ANamed [2; 3] 4096 [ORead [0; 3]; ORead [0; 1]; ORead [2; 0]] (mkst [1; 2; 3; 4; 5; 6] None))
  = [RErr EBounds; RVal 2; RErr EBounds].
Proof. split; vm_compute; reflexivity. Qed.
