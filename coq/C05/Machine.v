(* C05 - the array machine ([step] of Model.v): every step keeps the pointer inside the array ([step_wf]), and every step
   is a step of the property's own reading, a shadow array keyed by index tuples ([sstep], [step_simulates]); the
   statements about whole sequences of operations follow by induction in Properties_C05.v. *)
From Coq Require Import List ZArith Bool Lia.
Import ListNotations.
From Cb Require Import C05.Model C05.FlatIndex C05.Access.
Local Open Scope Z_scope.

Lemma upd_nat_length k v : forall l, List.length (upd_nat k v l) = List.length l.
Proof. induction k as [|k IH]; intros [|x l]; cbn [upd_nat List.length]; auto. Qed.

Lemma nth_upd_nat_same k v : forall l, (k < List.length l)%nat -> nth k (upd_nat k v l) 0 = v.
Proof.
  induction k as [|k IH]; intros [|x l]; cbn [upd_nat List.length nth]; try lia; auto.
  intros H. apply IH. lia.
Qed.

Lemma nth_upd_nat_other k v : forall j l, k <> j -> nth j (upd_nat k v l) 0 = nth j l 0.
Proof.
  induction k as [|k IH]; intros [|j] [|x l] H; cbn [upd_nat nth]; auto; try congruence.
Qed.

Lemma zlen_upd f v l : zlen (upd f v l) = zlen l.
Proof. unfold zlen, upd. rewrite upd_nat_length. reflexivity. Qed.

Lemma getc_upd_same f v l : 0 <= f < zlen l -> getc f (upd f v l) = v.
Proof. unfold getc, upd, zlen. intros H. apply nth_upd_nat_same. lia. Qed.

Lemma getc_upd_other f g v l : 0 <= f -> 0 <= g -> f <> g -> getc g (upd f v l) = getc g l.
Proof. unfold getc, upd. intros Hf Hg H. apply nth_upd_nat_other. lia. Qed.

(* well-formed states: the buffer has one cell per tuple, the pointer is inside *)
Definition wf (dims : list Z) (s : st) : Prop :=
  zlen (cells s) = size dims /\ match ptr s with Some e => 0 <= e < size dims | None => True end.

Lemma size_1 d : size [d] = d.
Proof. cbn. lia. Qed.

(* what a step does to the state: nothing, the pointer goes to a cell, or a cell is overwritten *)
Lemma wf_move dims s e : wf dims s -> 0 <= e < size dims -> wf dims (mkst (cells s) (Some e)).
Proof. intros [HL _] He. split; assumption. Qed.

Lemma wf_write dims s f v : wf dims s -> wf dims (mkst (upd f v (cells s)) (ptr s)).
Proof. intros [HL HP]. split; [cbn [cells]; rewrite zlen_upd; exact HL|exact HP]. Qed.

(* an operation through the pointer: without a pointer nothing happens, otherwise the pointer is at a cell *)
Lemma wf_at_ptr dims s (F : Z -> st * res) : wf dims s ->
  (forall e, 0 <= e < size dims -> wf dims (fst (F e))) ->
  wf dims (fst (match ptr s with Some e => F e | None => (s, RErr EOther) end)).
Proof. intros H HF. pose proof (proj2 H) as HP. destruct (ptr s) as [e|]; [apply HF, HP|exact H]. Qed.

Lemma step_wf ak dims base s o : wf dims s -> wf dims (fst (step ak dims base s o)).
Proof.
  intros H. destruct o; cbn [step].
  4-12: apply wf_at_ptr; [exact H|intros e He].
  - destruct (resolve _ _ _ _ _); exact H.
  - destruct (resolve _ _ _ _ _); [apply wf_write|]; exact H.
  - destruct dims as [|d [|d2 ds]].
    2:{ destruct idxs as [|i [|i2 is_]]; try exact H.
        destruct (Z.ltb_spec i 0), (Z.leb_spec d i); try exact H. apply wf_move; [exact H|rewrite size_1; lia]. }
    all: destruct (all_to_int idxs) as [l|]; [|exact H].
    all: destruct (calc_flat _ l) as [f|] eqn:F; [|exact H].
    all: apply wf_move; [exact H|exact (calc_flat_bounds _ _ _ F)].
  - destruct (ptr_arith _ _ _ _ _) as [e'|] eqn:F; [|exact H]. apply wf_move; [exact H|exact (ptr_arith_range _ _ _ _ _ _ F)].
  - destruct (ptr_arith _ _ _ _ _) as [e'|] eqn:F; [|exact H]. apply wf_move; [exact H|exact (ptr_arith_range _ _ _ _ _ _ F)].
  - destruct (Z.leb_spec (size dims) (e + 1)); [exact H|]. apply wf_move; [exact H|lia].
  - destruct (Z.eqb_spec e 0); [exact H|]. destruct (Z.leb_spec (size dims) (e - 1)); [exact H|]. apply wf_move; [exact H|lia].
  - destruct (_ || _); exact H.
  - destruct (index_to_int k) as [k'|]; [|exact H]. destruct (_ || _); [|apply wf_write]; exact H.
  - destruct (_ <=? _); exact H.
  - destruct (_ <=? _); [|apply wf_write]; exact H.
  - destruct (ptr_arith _ _ _ _ _) as [e'|]; [|exact H]. destruct (_ <=? _); exact H.
Qed.

Lemma run_checked_wf ak dims base ops : forall s, wf dims s -> wf dims (snd (run_checked ak dims base ops s)).
Proof.
  induction ops as [|o os IH]; intros s H; cbn [run_checked snd]; auto.
  pose proof (step_wf ak dims base s o H) as H1.
  destruct (step ak dims base s o) as [s' r]. cbn [fst] in H1.
  specialize (IH s' H1). destruct (run_checked ak dims base os s') as [rs s'']. exact IH.
Qed.

Lemma run_plain_wf ak dims base ops : forall s, wf dims s -> wf dims (snd (run_plain ak dims base ops s)).
Proof.
  induction ops as [|o os IH]; intros s H; cbn [run_plain snd]; auto.
  pose proof (step_wf ak dims base s o H) as H1.
  destruct (step ak dims base s o) as [s' r]. cbn [fst] in H1.
  specialize (IH s' H1). destruct (run_plain ak dims base os s') as [rs s''].
  destruct r; cbn [snd]; auto.
Qed.

Lemma run_checked_length ak dims base ops : forall s,
  List.length (fst (run_checked ak dims base ops s)) = List.length ops.
Proof.
  induction ops as [|o os IH]; intros s; cbn [run_checked fst List.length]; auto.
  destruct (step ak dims base s o) as [s' r]. specialize (IH s').
  destruct (run_checked ak dims base os s') as [rs s'']. cbn [fst List.length] in *. lia.
Qed.

(* the property's own reading: a shadow array keyed by index tuples *)
Record sst := mksst { sh : list Z -> Z; sptr : option Z }.
Definition tuple_eqb (a b : list Z) : bool := if list_eq_dec Z.eq_dec a b then true else false.
Definition sset (f : list Z -> Z) (t : list Z) (v : Z) : list Z -> Z :=
  fun j => if tuple_eqb j t then v else f j.
Definition in_pos (n e : Z) : bool := (0 <=? e) && (e <? n).

(* None = the access is rejected *)
Definition sstep (dims : list Z) (s : sst) (o : op) : sst * option res :=
  let n := size dims in
  let at_ptr (f : Z -> sst * option res) := match sptr s with Some e => f e | None => (s, None) end in
  match o with
  | ORead idxs => if in_rangeb dims idxs then (s, Some (RVal (sh s idxs))) else (s, None)
  | OWrite idxs v => if in_rangeb dims idxs then (mksst (sset (sh s) idxs v) (sptr s), Some RUnit) else (s, None)
  | OAddr idxs => if in_rangeb dims idxs then (mksst (sh s) (Some (row_major dims idxs)), Some RUnit) else (s, None)
  | OPtrAdd k => at_ptr (fun e => if in_pos n (e + k) then (mksst (sh s) (Some (e + k)), Some RUnit) else (s, None))
  | OPtrSub k => at_ptr (fun e => if in_pos n (e - k) then (mksst (sh s) (Some (e - k)), Some RUnit) else (s, None))
  | OPtrInc => at_ptr (fun e => if in_pos n (e + 1) then (mksst (sh s) (Some (e + 1)), Some RUnit) else (s, None))
  | OPtrDec => at_ptr (fun e => if in_pos n (e - 1) then (mksst (sh s) (Some (e - 1)), Some RUnit) else (s, None))
  | OPtrRead k => at_ptr (fun e => if in_pos n (e + k) then (s, Some (RVal (sh s (unflat dims (e + k))))) else (s, None))
  | OPtrWrite k v => at_ptr (fun e => if in_pos n (e + k)
                                      then (mksst (sset (sh s) (unflat dims (e + k)) v) (sptr s), Some RUnit) else (s, None))
  | ODeref => at_ptr (fun e => (s, Some (RVal (sh s (unflat dims e)))))
  | ODerefWrite v => at_ptr (fun e => (mksst (sset (sh s) (unflat dims e) v) (sptr s), Some RUnit))
  | ODerefAdd k => at_ptr (fun e => if in_pos n (e + k) then (s, Some (RVal (sh s (unflat dims (e + k))))) else (s, None))
  end.

Fixpoint srun_plain (dims : list Z) (ops : list op) (s : sst) : list (option res) * sst :=
  match ops with
  | [] => ([], s)
  | o :: os =>
      let (s', r) := sstep dims s o in
      match r with
      | None => ([r], s')
      | Some _ => let (rs, s'') := srun_plain dims os s' in (r :: rs, s'')
      end
  end.

Fixpoint srun_checked (dims : list Z) (ops : list op) (s : sst) : list (option res) * sst :=
  match ops with
  | [] => ([], s)
  | o :: os =>
      let (s', r) := sstep dims s o in
      let (rs, s'') := srun_checked dims os s' in (r :: rs, s'')
  end.

(* abstraction: cell row_major(t) of the buffer holds the shadow value of tuple t *)
Definition R (dims : list Z) (s : st) (ss : sst) : Prop :=
  (forall t, in_range dims t -> getc (row_major dims t) (cells s) = sh ss t) /\ ptr s = sptr ss.

Definition same (r : res) (r' : option res) : Prop :=
  match r, r' with
  | RErr _, None => True
  | RVal v, Some (RVal w) => v = w
  | RUnit, Some RUnit => True
  | _, _ => False
  end.

Definition env_ok (dims : list Z) (base : Z) : Prop :=
  positive_dims dims /\ size dims < two31 /\ base_ok base (size dims).

Lemma tuple_eqb_refl t : tuple_eqb t t = true.
Proof. unfold tuple_eqb. destruct (list_eq_dec Z.eq_dec t t); congruence. Qed.

Lemma tuple_eqb_neq a b : a <> b -> tuple_eqb a b = false.
Proof. unfold tuple_eqb. destruct (list_eq_dec Z.eq_dec a b); congruence. Qed.

Lemma R_write dims s ss t v : wf dims s -> R dims s ss -> in_range dims t ->
  R dims (mkst (upd (row_major dims t) v (cells s)) (ptr s)) (mksst (sset (sh ss) t v) (sptr ss)).
Proof.
  intros [HL _] [HR HP] Ht. split; [|exact HP]. cbn [cells sh].
  intros j Hj. unfold sset.
  pose proof (row_major_bounds _ _ Ht) as Bt. pose proof (row_major_bounds _ _ Hj) as Bj.
  destruct (list_eq_dec Z.eq_dec j t) as [->|N].
  - rewrite tuple_eqb_refl. apply getc_upd_same. lia.
  - rewrite (tuple_eqb_neq _ _ N). rewrite getc_upd_other; [apply HR; exact Hj|lia|lia|].
    intros E. apply N. symmetry. eapply row_major_inj; eauto.
Qed.

Lemma in_pos_spec n e : in_pos n e = true <-> 0 <= e < n.
Proof. unfold in_pos. rewrite andb_true_iff, Z.leb_le, Z.ltb_lt. tauto. Qed.

Lemma in_posP n e : reflect (0 <= e < n) (in_pos n e).
Proof. apply iff_reflect. symmetry. apply in_pos_spec. Qed.

(* the machine's answer and next state against the shadow array's *)
Definition sim (dims : list Z) (p : st * res) (q : sst * option res) : Prop :=
  same (snd p) (snd q) /\ R dims (fst p) (fst q).

Section Sim.
Variables (dims : list Z) (s : st) (ss : sst).
Hypothesis Hpos : positive_dims dims.
Hypothesis Hwf : wf dims s.
Hypothesis HR : R dims s ss.

Lemma sim_reject e : sim dims (s, RErr e) (ss, None).
Proof. split; [exact I|exact HR]. Qed.

Lemma sim_move e : sim dims (mkst (cells s) (Some e), RUnit) (mksst (sh ss) (Some e), Some RUnit).
Proof. split; [exact I|]. split; [apply HR|reflexivity]. Qed.

Lemma sim_read t : in_range dims t -> sim dims (s, RVal (getc (row_major dims t) (cells s))) (ss, Some (RVal (sh ss t))).
Proof. intros Ht. split; [apply HR, Ht|exact HR]. Qed.

Lemma sim_write t v : in_range dims t ->
  sim dims (mkst (upd (row_major dims t) v (cells s)) (ptr s), RUnit) (mksst (sset (sh ss) t v) (sptr ss), Some RUnit).
Proof. intros Ht. split; [exact I|apply R_write; assumption]. Qed.

(* through a pointer: cell e holds the tuple [unflat dims e] *)
Lemma sim_read_cell e : 0 <= e < size dims -> sim dims (s, RVal (getc e (cells s))) (ss, Some (RVal (sh ss (unflat dims e)))).
Proof. intros He. destruct (unflat_spec dims Hpos e He) as [Hin E]. pose proof (sim_read _ Hin) as H. rewrite E in H. exact H. Qed.

Lemma sim_write_cell e v : 0 <= e < size dims ->
  sim dims (mkst (upd e v (cells s)) (ptr s), RUnit) (mksst (sset (sh ss) (unflat dims e) v) (sptr ss), Some RUnit).
Proof. intros He. destruct (unflat_spec dims Hpos e He) as [Hin E]. pose proof (sim_write _ v Hin) as H. rewrite E in H. exact H. Qed.

(* an operation through the pointer: without a pointer both sides reject, otherwise the pointer is at a cell *)
Lemma sim_at_ptr (F : Z -> st * res) (G : Z -> sst * option res) :
  (forall e, 0 <= e < size dims -> sim dims (F e) (G e)) ->
  sim dims (match ptr s with Some e => F e | None => (s, RErr EOther) end)
           (match sptr ss with Some e => G e | None => (ss, None) end).
Proof.
  intros H. rewrite <- (proj2 HR). pose proof (proj2 Hwf) as HP.
  destruct (ptr s) as [e|]; [apply H, HP|apply sim_reject].
Qed.
End Sim.

(* one step of the machine is one step of the shadow array *)
Lemma step_simulates ak dims base s ss o :
  env_ok dims base -> wf dims s -> R dims s ss -> sim dims (step ak dims base s o) (sstep dims ss o).
Proof.
  intros (Hpos & Hn & Hbase) Hwf HR.
  pose proof (dims_fit_of_size dims Hpos Hn) as Hfit.
  destruct o; cbn [step sstep].
  4-12: apply sim_at_ptr; [exact Hwf|exact HR|intros e He].
  - rewrite (proj1 Hwf). pose proof (resolve_eq ak Rd dims idxs Hfit) as Q.
    destruct (in_rangeb dims idxs) eqn:B; [rewrite Q|destruct Q as [e ->]; apply sim_reject, HR].
    apply sim_read; [exact HR|apply in_rangeb_spec, B].
  - rewrite (proj1 Hwf). pose proof (resolve_eq ak Wr dims idxs Hfit) as Q.
    destruct (in_rangeb dims idxs) eqn:B; [rewrite Q|destruct Q as [e ->]; apply sim_reject, HR].
    apply sim_write; [exact Hwf|exact HR|apply in_rangeb_spec, B].
  - (* p = &a[...]: the rank 1 site tests the int64 index itself, the others convert to int and call calculate_flat_index;
       an in-range tuple passes the conversion, and both then yield the row-major cell *)
    assert (ND :
      match all_to_int idxs with
      | None => (s, RErr EBounds)
      | Some l => match calc_flat dims l with Some f => (mkst (cells s) (Some f), RUnit) | None => (s, RErr EBounds) end
      end = if in_rangeb dims idxs then (mkst (cells s) (Some (row_major dims idxs)), RUnit) else (s, RErr EBounds)).
    { destruct (all_to_int idxs) as [l|] eqn:C.
      - apply all_to_int_spec in C. destruct C as [_ ->]. rewrite calc_flat_eq. destruct (in_rangeb dims idxs); reflexivity.
      - apply all_to_int_none in C. destruct (in_rangeb dims idxs) eqn:B; [|reflexivity].
        exfalso. apply C. eapply in_range_fits; [exact Hfit|]. apply in_rangeb_spec, B. }
    assert (Q : exists e, step ak dims base s (OAddr idxs) =
                if in_rangeb dims idxs then (mkst (cells s) (Some (row_major dims idxs)), RUnit) else (s, RErr e)).
    { cbn [step]. destruct dims as [|d [|d2 ds]]; [eexists; exact ND| |eexists; exact ND].
      destruct idxs as [|i [|i2 is_]]; [eexists; reflexivity| |eexists; cbn [in_rangeb]; rewrite andb_false_r; reflexivity].
      exists EBounds. cbn [in_rangeb row_major size]. rewrite andb_true_r.
      destruct (Z.ltb_spec i 0), (Z.leb_spec d i), (Z.leb_spec 0 i), (Z.ltb_spec i d); try lia; cbn [orb andb]; try reflexivity.
      repeat f_equal. lia. }
    cbn [step] in Q. destruct Q as [e ->].
    destruct (in_rangeb dims idxs); [apply sim_move|apply sim_reject]; exact HR.
  - rewrite (ptr_arith_ok base (size dims) e true k Hbase He Hn). fold (in_pos (size dims) (e + k)).
    destruct (in_pos _ _); [apply sim_move|apply sim_reject]; exact HR.
  - rewrite (ptr_arith_ok base (size dims) e false k Hbase He Hn). fold (in_pos (size dims) (e - k)).
    destruct (in_pos _ _); [apply sim_move|apply sim_reject]; exact HR.
  - destruct (in_posP (size dims) (e + 1)), (Z.leb_spec (size dims) (e + 1)); try lia.
    + apply sim_move, HR.
    + apply sim_reject, HR.
  - destruct (in_posP (size dims) (e - 1)), (Z.eqb_spec e 0), (Z.leb_spec (size dims) (e - 1)); try lia.
    + apply sim_move, HR.
    + apply sim_reject, HR.
  - destruct (in_posP (size dims) (e + k)), (Z.ltb_spec (e + k) 0), (Z.leb_spec (size dims) (e + k)); try lia.
    + apply sim_read_cell; assumption.
    + apply sim_reject, HR.
    + apply sim_reject, HR.
  - destruct (index_to_int k) as [k'|] eqn:K.
    + apply index_to_int_spec in K. destruct K as [_ ->].
      destruct (in_posP (size dims) (e + k)), (Z.ltb_spec (e + k) 0), (Z.leb_spec (size dims) (e + k)); try lia.
      * apply sim_write_cell; assumption.
      * apply sim_reject, HR.
      * apply sim_reject, HR.
    + (* an offset that is no int leaves the array, whose cells are fewer than 2^31 *)
      apply index_to_int_none in K. unfold int_range, two31 in *.
      destruct (in_posP (size dims) (e + k)); [lia|apply sim_reject, HR].
  - destruct (Z.leb_spec (size dims) e); [lia|]. apply sim_read_cell; assumption.
  - destruct (Z.leb_spec (size dims) e); [lia|]. apply sim_write_cell; assumption.
  - rewrite (ptr_arith_ok base (size dims) e true k Hbase He Hn). fold (in_pos (size dims) (e + k)).
    destruct (in_posP (size dims) (e + k)); [|apply sim_reject, HR].
    destruct (Z.leb_spec (size dims) (e + k)); [lia|]. apply sim_read_cell; assumption.
Qed.

Lemma same_err_iff r r' : same r r' -> ((exists e, r = RErr e) <-> r' = None).
Proof.
  destruct r as [v| |e], r' as [[w| |e']|]; cbn [same]; intros H; try contradiction;
    (split; [intros [x Hx]; congruence|intros Hx; try discriminate; eauto]).
Qed.
