(* C15 - the queue discipline: turns are served in exactly the order ids were pushed (step_fifo,
   fifo_law_l, round_robin_l: every state, reachable or not, every program, every clock), and from a
   state that satisfies the invariant ids are pushed for the first time in the order 1, 2, 3, ...
   (run_ordered). *)
From Coq Require Import List ZArith Bool Lia.
From Cb Require Import C15.Model C15.Invariants.
Import ListNotations.
Local Open Scope nat_scope.

(* ids that get a turn / ids appended to the queue, in trace order *)
Fixpoint turns (tr : list event) : list nat :=
  match tr with
  | [] => []
  | ETurn id _ :: r => id :: turns r
  | _ :: r => turns r
  end.

Fixpoint pushes (tr : list event) : list nat :=
  match tr with
  | [] => []
  | ESpawn id :: r => id :: pushes r
  | ERequeue id :: r => id :: pushes r
  | ESkip id :: r => id :: pushes r
  | _ :: r => pushes r
  end.

Lemma turns_app : forall a b, turns (a ++ b) = turns a ++ turns b.
Proof. induction a as [|[] a IH]; intros; simpl; rewrite ?IH; reflexivity. Qed.

Lemma pushes_app : forall a b, pushes (a ++ b) = pushes a ++ pushes b.
Proof. induction a as [|[] a IH]; intros; simpl; rewrite ?IH; reflexivity. Qed.

Definition quiet (evs : list event) : Prop := turns evs = [] /\ pushes evs = [].

Lemma quiet_app : forall a b, quiet a -> quiet b -> quiet (a ++ b).
Proof. intros a b [Ha1 Ha2] [Hb1 Hb2]. split; [rewrite turns_app, Ha1, Hb1|rewrite pushes_app, Ha2, Hb2]; reflexivity. Qed.

Lemma quiet_nil : quiet [].
Proof. split; reflexivity. Qed.

Section Fifo.
  Variables (L G C : Type).
  Variable len : C -> nat.
  Variable code : C -> nat -> L -> prog L G C.
  Variable clock : nat -> Z.
  Variable dflt : L.
  Variable main_code : C.

  Notation state := (state L G C).
  Notation step := (step L G C len code clock dflt main_code).
  Notation run := (run L G C len code clock dflt main_code).
  Notation begin_turn := (begin_turn L G C len code clock).
  Notation end_step := (end_step L G C len).
  Notation Inv := (Inv L G C).
  Notation reachable := (reachable L G C len code clock dflt main_code).

  Lemma pre_body_quiet : forall id t evs rd, quiet evs -> quiet (pre_evs L C (pre_body L C len id t evs rd)).
  Proof.
    intros id t evs rd H. unfold pre_body. simpl. destruct (t_code L C t); auto.
    destruct (t_idx L C t <? len c); auto. apply quiet_app; [assumption|split; reflexivity].
  Qed.

  Lemma pre_timeout_quiet : forall id t evs rd, quiet evs -> quiet (pre_evs L C (pre_timeout L C len clock id t evs rd)).
  Proof.
    intros id t evs rd H. unfold pre_timeout.
    destruct (t_has_to L C t && negb (t_done L C t)); [|apply pre_body_quiet; auto].
    assert (H1 : quiet (evs ++ [EClock (clock rd)])) by (apply quiet_app; [assumption|split; reflexivity]).
    destruct (t_to L C t <=? clock rd)%Z; [exact H1|apply pre_body_quiet; exact H1].
  Qed.

  Lemma pre_sleep_quiet : forall id t evs rd, quiet evs -> quiet (pre_evs L C (pre_sleep L C len clock id t evs rd)).
  Proof.
    intros id t evs rd H. unfold pre_sleep.
    destruct (t_sleeping L C t); [|apply pre_timeout_quiet; auto].
    destruct (clock rd <? t_wake L C t)%Z; [apply quiet_app; [assumption|split; reflexivity]|].
    assert (H1 : quiet (evs ++ [EClock (clock rd); EWoke id (clock rd) (t_wake L C t)]))
      by (apply quiet_app; [assumption|split; reflexivity]).
    destruct (t_code L C t); [apply pre_timeout_quiet|]; exact H1.
  Qed.

  Lemma prelude_quiet : forall ts id t rd, quiet (pre_evs L C (prelude L C len clock ts id t rd)).
  Proof.
    intros. unfold prelude. destruct (t_done L C t); [apply quiet_nil|].
    unfold pre_wait. destruct (t_wait L C t) as [w|].
    - destruct (is_done L C w ts); [apply pre_sleep_quiet|]; split; reflexivity.
    - apply pre_sleep_quiet. apply quiet_nil.
  Qed.

  Lemma end_stmt_quiet : forall id o l t t' sc evs,
    end_stmt L C len id o l t = (t', sc, evs) -> quiet evs.
  Proof.
    intros id o l t t' sc evs H. unfold end_stmt in H. destruct o.
    - destruct (t_code L C t); [destruct (S (t_idx L C t) <? len c)|]; inversion H; apply quiet_nil.
    - inversion H. split; reflexivity.
    - inversion H. split; reflexivity.
  Qed.

  (* A turn, or the end of a statement, of task id: nobody gets a turn and nobody is registered; id is
     pushed back, behind the queue q that was left, iff the task should continue. *)
  Definition settles (id : nat) (q : list nat) (s : state) (r : state * list event) : Prop :=
    turns (snd r) = [] /\ queue _ _ _ (fst r) = q ++ pushes (snd r) /\
    (pushes (snd r) = [] \/ pushes (snd r) = [id]) /\
    length (tasks _ _ _ (fst r)) = length (tasks _ _ _ s).

  Lemma verdict_settles : forall (s : state) id q sc t' evs ex rd g k,
    quiet evs ->
    settles id q s (mkState L G C (requeue sc id q) (update L C id (fun _ => t') (tasks _ _ _ s)) ex rd g k,
                    evs ++ [verdict sc id]).
  Proof.
    intros s id q sc t' evs ex rd g k [Ht Hp]. unfold settles. simpl.
    rewrite turns_app, pushes_app, Ht, Hp, update_length. destruct sc; simpl; rewrite ?app_nil_r; auto.
  Qed.

  Lemma begin_turn_settles : forall s id q rest, settles id q s (begin_turn s id q rest).
  Proof.
    intros s id q rest. unfold begin_turn. destruct (lookup L C id (tasks _ _ _ s)) as [t|].
    - pose proof (prelude_quiet (tasks _ _ _ s) id t (reads _ _ _ s)) as Hq.
      destruct (prelude L C len clock (tasks _ _ _ s) id t (reads _ _ _ s)) as [sc t' ev rd|c t' ev rd].
      + apply verdict_settles. exact Hq.
      + destruct Hq as [Ht Hp]. unfold settles. simpl in *. rewrite Ht, Hp, app_nil_r, update_length. auto.
    - unfold settles. simpl. rewrite app_nil_r. auto.
  Qed.

  Lemma end_step_settles : forall s id o l rest, settles id (queue _ _ _ s) s (end_step s id o l rest).
  Proof.
    intros s id o l rest. unfold end_step. destruct (lookup L C id (tasks _ _ _ s)) as [t|].
    - destruct (end_stmt L C len id o l t) as [[t' sc] ev] eqn:Ee. apply verdict_settles.
      eapply end_stmt_quiet; eauto.
    - unfold settles. simpl. rewrite app_nil_r. auto.
  Qed.

  (* ONE STEP: ids leave the queue at the front (exactly those that get a turn, in order) and enter
     it at the back (exactly the pushes, in order) *)
  Theorem step_fifo : forall s, exists qr,
    queue _ _ _ s = turns (snd (step s)) ++ qr /\ queue _ _ _ (fst (step s)) = qr ++ pushes (snd (step s)).
  Proof.
    apply (step_cases L G C len code clock dflt main_code
             (fun s r => exists qr, queue _ _ _ s = turns (snd r) ++ qr /\ queue _ _ _ (fst r) = qr ++ pushes (snd r))).
    - intros s k' _. exists (queue _ _ _ s). simpl. rewrite app_nil_r. auto.
    - intros s id q k' Hq _ _. exists q. simpl. auto.
    - intros s id q k' b Hq _. destruct (begin_turn_settles s id q k') as (Ht & Hq' & _).
      destruct (begin_turn s id q k') as [s1 e1]. exists q. simpl in *. rewrite Ht. auto.
    - intros s id o l rest _. destruct (end_step_settles s id o l rest) as (Ht & Hq' & _).
      exists (queue _ _ _ s). rewrite Ht. auto.
    - intros s p rest _. destruct p; try exact I; simpl; try destruct (k (glob _ _ _ s));
        exists (queue _ _ _ s); simpl; rewrite ?app_nil_r; auto.
  Qed.

  (* ANY NUMBER OF STEPS: the FIFO law *)
  Theorem fifo_law_l : forall n s s' tr, run n s = (s', tr) ->
    turns tr ++ queue _ _ _ s' = queue _ _ _ s ++ pushes tr.
  Proof.
    induction n; intros s s' tr H; simpl in H.
    - inversion H; subst. simpl. rewrite app_nil_r. reflexivity.
    - destruct (step s) as [s1 e1] eqn:E1. destruct (run n s1) as [s2 e2] eqn:E2. inversion H; subst.
      destruct (step_fifo s) as (qr & Hq & Hq1). rewrite E1 in Hq, Hq1. simpl in Hq, Hq1. specialize (IHn _ _ _ E2).
      rewrite turns_app, pushes_app, Hq, <- !app_assoc. f_equal.
      rewrite IHn, Hq1, <- app_assoc. reflexivity.
  Qed.

  (* list fact: the first occurrence of x splits a list uniquely *)
  Lemma split_first : forall (x : nat) a b c d,
    a ++ x :: b = c ++ x :: d -> ~ In x a -> ~ In x c -> a = c.
  Proof.
    induction a as [|y a IH]; intros b c d H Ha Hc; destruct c as [|z c]; simpl in *; auto.
    - inversion H; subst. exfalso. apply Hc. auto.
    - inversion H; subst. exfalso. apply Ha. auto.
    - inversion H; subst. f_equal. eapply IH; eauto.
  Qed.

  (* ROUND ROBIN: from any state in which x waits behind [pre], up to x's next turn exactly the tasks
     of [pre] get a turn, each once, in queue order; nobody else does, nobody twice *)
  Theorem round_robin_l : forall n s s' pre x post tr1 b tr2,
    queue _ _ _ s = pre ++ x :: post -> ~ In x pre ->
    run n s = (s', tr1 ++ ETurn x b :: tr2) -> ~ In x (turns tr1) ->
    turns tr1 = pre.
  Proof.
    intros n s s' pre x post tr1 b tr2 Hq Hpre Hrun Hfirst.
    pose proof (fifo_law_l _ _ _ _ Hrun) as Hlaw.
    rewrite turns_app in Hlaw. simpl in Hlaw. rewrite Hq, <- !app_assoc in Hlaw. simpl in Hlaw.
    eapply split_first; eauto.
  Qed.

  (* what one step pushes: nothing, a registered id, or the id of the task it registers *)
  Definition push_shape (n n' : nat) (ps : list nat) : Prop :=
    (ps = [] /\ n' = n) \/ (exists x, ps = [x] /\ 1 <= x <= n /\ n' = n) \/ (ps = [S n] /\ n' = S n).

  Lemma settles_push_shape : forall id q s r,
    1 <= id <= length (tasks _ _ _ s) -> settles id q s r ->
    push_shape (length (tasks _ _ _ s)) (length (tasks _ _ _ (fst r))) (pushes (snd r)).
  Proof.
    intros id q s r Hid (_ & _ & [Hp|Hp] & Hl); rewrite Hp, Hl; [left; auto|right; left; exists id; auto].
  Qed.

  Lemma step_push_shape : forall s, Inv s ->
    push_shape (length (tasks _ _ _ s)) (length (tasks _ _ _ (fst (step s)))) (pushes (snd (step s))).
  Proof.
    assert (Hrange : forall s id, Inv s -> In id (queue _ _ _ s ++ exec _ _ _ s) -> 1 <= id <= length (tasks _ _ _ s)).
    { intros s id (_ & _ & _ & Hlive) Hin. apply Hlive in Hin. eapply live_range; eauto. }
    apply (step_cases L G C len code clock dflt main_code
             (fun s r => Inv s -> push_shape (length (tasks _ _ _ s)) (length (tasks _ _ _ (fst r))) (pushes (snd r)))).
    - intros s k' _ _. left. auto.
    - intros s id q k' Hq _ _ HI. right. left. exists id. repeat split; auto; apply (Hrange s id HI); rewrite Hq; left; reflexivity.
    - intros s id q k' b Hq _ HI. pose proof (begin_turn_settles s id q k') as Hs.
      apply settles_push_shape in Hs; [|apply (Hrange s id HI); rewrite Hq; left; reflexivity].
      destruct (begin_turn s id q k'). exact Hs.
    - intros s id o l rest Hk HI. apply (settles_push_shape id (queue _ _ _ s)); [|apply end_step_settles].
      apply (Hrange s id HI). destruct HI as (_ & Hex & _). rewrite Hex, Hk, in_app_iff. right. left. reflexivity.
    - intros s p rest _. destruct p; try exact I; intros _; simpl.
      + left. auto.
      + right. right. rewrite app_length. simpl. split; auto. lia.
      + right. right. rewrite app_length. simpl. split; auto. lia.
      + left. auto.
      + left. split; auto. destruct (exec _ _ _ s); auto. apply update_length.
      + left. split; auto. apply update_length.
      + destruct (k (glob _ _ _ s)). left. auto.
  Qed.

  (* the push sequence of a run from the start: every registered id, and no id before all smaller ones *)
  Definition ordered (l : list nat) (n : nat) : Prop :=
    (forall x, 1 <= x <= n -> In x l) /\
    (forall l1 b l2, l = l1 ++ b :: l2 -> forall a, 1 <= a < b -> In a l1).

  Lemma snoc_split : forall (l : list nat) x l1 b l2, l ++ [x] = l1 ++ b :: l2 ->
    (l2 = [] /\ l = l1 /\ x = b) \/ (exists l2', l2 = l2' ++ [x] /\ l = l1 ++ b :: l2').
  Proof.
    intros l x l1 b l2 E. destruct l2 as [|z l2].
    - left. apply app_inj_tail in E. tauto.
    - right. destruct (@exists_last _ (z :: l2)) as (l' & a & El); [discriminate|].
      rewrite El in E. change (l1 ++ b :: l' ++ [a]) with (l1 ++ (b :: l') ++ [a]) in E.
      rewrite app_assoc in E. apply app_inj_tail in E. destruct E as [-> ->].
      exists l'. rewrite El. auto.
  Qed.

  Lemma ordered_snoc : forall l n x, ordered l n -> 1 <= x <= n -> ordered (l ++ [x]) n.
  Proof.
    intros l n x (H2 & H3) Hx. split.
    - intros y Hy. apply in_app_iff. auto.
    - intros l1 b l2 E a Ha. apply snoc_split in E. destruct E as [(-> & -> & ->)|(l2' & -> & ->)].
      + apply H2. lia.
      + eapply H3; eauto.
  Qed.

  Lemma ordered_new : forall l n, ordered l n -> ordered (l ++ [S n]) (S n).
  Proof.
    intros l n (H2 & H3). split.
    - intros y Hy. apply in_app_iff. destruct (Nat.eq_dec y (S n)); [subst; right; left; reflexivity|].
      left. apply H2. lia.
    - intros l1 b l2 E a Ha. apply snoc_split in E. destruct E as [(-> & -> & <-)|(l2' & -> & ->)].
      + apply H2. lia.
      + eapply H3; eauto.
  Qed.

  Lemma run_ordered : forall n s s' tr acc,
    Inv s -> ordered acc (length (tasks _ _ _ s)) -> run n s = (s', tr) ->
    ordered (acc ++ pushes tr) (length (tasks _ _ _ s')).
  Proof.
    induction n; intros s s' tr acc HI Ho H; simpl in H.
    - inversion H; subst. simpl. rewrite app_nil_r. assumption.
    - destruct (step s) as [s1 e1] eqn:E1. destruct (run n s1) as [s2 e2] eqn:E2. inversion H; subst.
      rewrite pushes_app, app_assoc.
      pose proof (step_inv L G C len code clock dflt main_code s HI) as HI1. rewrite E1 in HI1. simpl in HI1.
      eapply IHn; eauto.
      pose proof (step_push_shape s HI) as Hs. rewrite E1 in Hs. simpl in Hs.
      destruct Hs as [[-> ->]|[(x & -> & Hx & ->)|[-> ->]]].
      + rewrite app_nil_r. assumption.
      + apply ordered_snoc; assumption.
      + apply ordered_new; assumption.
  Qed.

  (* the ids registered along a trace (register_task hands out 1, 2, 3, ...: S (length tasks) in step_prog) *)
  Fixpoint spawns (tr : list event) : list nat :=
    match tr with [] => [] | ESpawn id :: r => id :: spawns r | _ :: r => spawns r end.
End Fifo.
