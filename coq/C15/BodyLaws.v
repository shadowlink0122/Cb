(* C15 - laws of Body.bexec: where an iteration ends, the step ends.
   For every statement, environment and fuel (all histories: the environment carries the resume
   positions of every earlier suspension):
     - inside a task (auto-yield mode) the end of an iteration that does not leave the loop - the body
       ran to its end or was cut short by `continue` - is the last thing the step does: nothing is
       executed after it, the step ends with YieldException(true), and it is the only such end in
       the step (task_iteration_end_suspends);
     - outside a task it is immediately followed by run_background_tasks_one_cycle
       (main_iteration_end_runs_background);
   both for EVERY statement: since fix a1ebdfd the ContinueException handler of
   execute_while_statement falls through to the common end of the iteration, as the for loop's does
   (before it the laws failed for a while loop whose iteration ends by `continue`). *)
From Coq Require Import List Arith Bool.
From Cb Require Import C15.Body.
Import ListNotations.
Local Open Scope nat_scope.

Section Laws.
  Variable A : Type.
  Notation bstmt := (bstmt A).
  Notation item := (item A).

  (* an end mark that is not a boundary: the iteration left the loop or was suspended inside *)
  Definition is_quiet_mark (it : item) : bool :=
    match it with IIterEnd _ k => negb (boundary k) | _ => false end.

  (* after the first boundary nothing but quiet marks *)
  Fixpoint susp_ok (l : list item) : bool :=
    match l with
    | [] => true
    | it :: r => if is_boundary A it then forallb is_quiet_mark r else susp_ok r
    end.
  Definition has_boundary (l : list item) : bool := existsb (is_boundary A) l.

  (* every boundary is immediately followed by the background cycle *)
  Fixpoint bg_ok (l : list item) : bool :=
    match l with
    | [] => true
    | it :: r => (if is_boundary A it then match r with IBg :: _ => true | _ => false end else true) && bg_ok r
    end.

  Lemma has_boundary_app : forall a b, has_boundary (a ++ b) = has_boundary a || has_boundary b.
  Proof. intros. unfold has_boundary. apply existsb_app. Qed.

  Lemma susp_ok_app : forall a b,
    susp_ok (a ++ b) = if has_boundary a then susp_ok a && forallb is_quiet_mark b else susp_ok b.
  Proof.
    induction a as [|it a IH]; intro b; [reflexivity|].
    cbn. destruct (is_boundary A it); [apply forallb_app|apply IH].
  Qed.

  Lemma bg_ok_app : forall a b, bg_ok a = true -> bg_ok (a ++ b) = bg_ok b.
  Proof.
    induction a as [|it a IH]; intros b H; [reflexivity|].
    cbn in H. apply andb_true_iff in H. destruct H as [H1 H2].
    cbn. rewrite (IH b H2). destruct (is_boundary A it).
    - destruct a as [|x a']; [discriminate|]. destruct x; try discriminate. reflexivity.
    - reflexivity.
  Qed.

  Lemma forallb_skipn : forall (X : Type) (f : X -> bool) n l, forallb f l = true -> forallb f (skipn n l) = true.
  Proof.
    induction n; intros l H; [exact H|]. destruct l; [reflexivity|].
    cbn in H. apply andb_true_iff in H. cbn. apply IHn. tauto.
  Qed.

  Lemma existsb_skipn : forall (X : Type) (f : X -> bool) n l, existsb f l = false -> existsb f (skipn n l) = false.
  Proof.
    induction n; intros l H; [exact H|]. destruct l; [reflexivity|].
    cbn in H. apply orb_false_iff in H. cbn. apply IHn. tauto.
  Qed.

  (* how a loop marks an iteration that ended with r, and what it then returns (when it returns) *)
  Definition end_kind (r : res) : iter_end :=
    match r with
    | RNormal => IFall | RContinue => IContinue | RBreak => IBreak | RReturn => IReturn
    | RYield true => IYieldInner | RYield false => IYieldExplicit | RFuel => IFuelEnd
    end.
  Definition after_iter (r : res) : res :=
    match r with RBreak => RNormal | RReturn => RReturn | RFuel => RFuel | _ => RYield true end.

  (* Both laws are read off this description of a step's outcome; it forgets the environment and which
     of the five functions produced the items.  An iteration that ends at a boundary either ends the
     step (only inside a task) or is followed by the background cycle and the next iteration (only
     outside). *)
  Inductive shape (task : bool) : list item -> res -> Prop :=
  | Sh_nil : forall r, shape task [] r
  | Sh_simple : forall x, shape task [ISimple x] RNormal
  | Sh_seq : forall its its2 r2,
      shape task its RNormal -> shape task its2 r2 -> shape task (its ++ its2) r2
  | Sh_cycle : forall its its2 r2,
      shape task its RNormal -> shape task its2 r2 -> shape task (its ++ ICycle :: its2) r2
  | Sh_call_end : forall its r, shape task its r -> r <> RYield true -> shape task its RNormal
  | Sh_iter : forall id its r,
      shape task its r -> (boundary (end_kind r) = true -> task = true) ->
      shape task (IIter id :: its ++ [IIterEnd id (end_kind r)]) (after_iter r)
  | Sh_iter_bg : forall id its r its2 r2,
      shape task its r -> boundary (end_kind r) = true -> task = false -> shape task its2 r2 ->
      shape task (IIter id :: its ++ IIterEnd id (end_kind r) :: IBg :: its2) r2.

  (* every outcome has a shape; a loop or a call never ends by ContinueException (it catches it) *)
  Lemma shape_all : forall task f,
    (forall s e its r e', bexec A task f s e = (its, r, e') -> shape task its r) /\
    (forall id v n body owned e its r e',
       for_iter A task f id v n body owned e = (its, r, e') -> shape task its r /\ r <> RContinue) /\
    (forall id c body e its r e',
       while_iter A task f id c body e = (its, r, e') -> shape task its r /\ r <> RContinue) /\
    (forall id rest i e its r e', block_from A task f id rest i e = (its, r, e') -> shape task its r) /\
    (forall rest e its r e', call_from A task f rest e = (its, r, e') -> shape task its r /\ r <> RContinue).
  Proof.
    intros task. induction f as [|f (IHe & IHf & IHw & IHb & IHc)].
    - repeat apply conj; intros until e'; intro H; injection H as <- <- <-; try split; try apply Sh_nil; discriminate.
    - repeat apply conj.
      + intros s e its r e' H. destruct s; simpl in H; try (injection H as <- <- <-; constructor).
        * destruct (eval c e); [eapply IHe; eauto|].
          destruct e0 as [s'|]; [eapply IHe; eauto|injection H as <- <- <-; apply Sh_nil].
        * eapply IHb; eauto.
        * destruct (alookup v (e_vars e)); eapply IHf; eauto.
        * eapply IHw; eauto.
        * destruct (call_from A task f body env0) as [[its0 r0] e0] eqn:Hc.
          injection H as <- <- <-. eapply IHc; eauto.
      + intros id v n body owned e its r e' H. simpl in H.
        destruct (var v e <? n); [|injection H as <- <- <-; split; [apply Sh_nil|discriminate]].
        destruct (bexec A task f body e) as [[its0 r0] e1] eqn:Hb. apply IHe in Hb.
        (* the iteration leaves the loop or is suspended inside it ... *)
        destruct r0 as [| | |[]| |];
          try (injection H as <- <- <-; split; [apply (Sh_iter task id _ _ Hb)|]; discriminate).
        (* ... or ends at a boundary (the body ran to its end / continue): the step ends in a task, the
           background cycle and the next iteration follow outside *)
        all: destruct task;
          [injection H as <- <- <-; split; [apply (Sh_iter true id _ _ Hb); reflexivity|discriminate]|].
        all: destruct (for_iter A false f id v n body owned _) as [[its2 r2] e3] eqn:Hr.
        all: injection H as <- <- <-; apply IHf in Hr; destruct Hr as [Hr Hne]; split; [|exact Hne].
        all: apply (Sh_iter_bg false id _ _ _ _ Hb); auto.
      + intros id c body e its r e' H. simpl in H.
        destruct (eval c e); [|injection H as <- <- <-; split; [apply Sh_nil|discriminate]].
        destruct (bexec A task f body e) as [[its0 r0] e1] eqn:Hb. apply IHe in Hb.
        (* as in the for loop *)
        destruct r0 as [| | |[]| |];
          try (injection H as <- <- <-; split; [apply (Sh_iter task id _ _ Hb)|]; discriminate).
        all: destruct task;
          [injection H as <- <- <-; split; [apply (Sh_iter true id _ _ Hb); reflexivity|discriminate]|].
        all: destruct (while_iter A false f id c body e1) as [[its2 r2] e2] eqn:Hr.
        all: injection H as <- <- <-; apply IHw in Hr; destruct Hr as [Hr Hne]; split; [|exact Hne].
        all: apply (Sh_iter_bg false id _ _ _ _ Hb); auto.
      + intros id rest i e its r e' H. simpl in H.
        destruct rest as [|s rest']; [injection H as <- <- <-; apply Sh_nil|].
        destruct (bexec A task f s (set_rpos id i e)) as [[its0 r0] e1] eqn:Hs. apply IHe in Hs.
        destruct r0 as [| | |fl| |]; try (injection H as <- <- <-; exact Hs).
        destruct (block_from A task f id rest' (S i) _) as [[its2 r2] e2] eqn:Hr.
        injection H as <- <- <-. apply Sh_seq; [exact Hs|eapply IHb; eauto].
      + intros rest e its r e' H. simpl in H.
        destruct rest as [|s rest']; [injection H as <- <- <-; split; [apply Sh_nil|discriminate]|].
        destruct (bexec A task f s e) as [[its0 r0] e1] eqn:Hs. apply IHe in Hs.
        destruct r0 as [| | |fl| |];
          try (injection H as <- <- <-; split; [exact Hs|discriminate]);
          try (injection H as <- <- <-; split; [apply (Sh_call_end task _ _ Hs)|]; discriminate).
        destruct (call_from A task f rest' e1) as [[its2 r2] e2] eqn:Hr.
        injection H as <- <- <-. apply IHc in Hr. destruct Hr as [Hr Hne]. split; [|exact Hne].
        apply Sh_cycle; assumption.
  Qed.

  Lemma exec_shape : forall task f s e its r e', bexec A task f s e = (its, r, e') -> shape task its r.
  Proof. intros task f. exact (proj1 (shape_all task f)). Qed.

  Lemma no_continue_all : forall task f,
    (forall s e its r e',
       bexec A task f s e = (its, r, e') -> can_continue A s = false -> r <> RContinue) /\
    (forall id rest i e its r e',
       block_from A task f id rest i e = (its, r, e') -> existsb (can_continue A) rest = false -> r <> RContinue).
  Proof.
    intros task. induction f as [|f (IHe & IHb)].
    - split; intros until e'; intro H; injection H as <- <- <-; discriminate.
    - destruct (shape_all task f) as (_ & Hfor & Hwhile & _ & Hcall). split.
      + intros s e its r e' H Hc. destruct s; simpl in H; cbn in Hc; try discriminate;
          try (injection H as <- <- <-; discriminate).
        * apply orb_false_iff in Hc. destruct Hc as [Hc1 Hc2].
          destruct (eval c e); [eapply IHe; eauto|].
          destruct e0 as [s'|]; [eapply IHe; eauto|injection H as <- <- <-; discriminate].
        * apply (IHb _ _ _ _ _ _ _ H). apply existsb_skipn. exact Hc.
        * destruct (alookup v (e_vars e)); eapply Hfor; eauto.
        * eapply Hwhile; eauto.
        * destruct (call_from A task f body env0) as [[its0 r0] e0] eqn:Hcf.
          injection H as <- <- <-. eapply Hcall; eauto.
      + intros id rest i e its r e' H Hc. simpl in H.
        destruct rest as [|s rest']; [injection H as <- <- <-; discriminate|].
        cbn in Hc. apply orb_false_iff in Hc. destruct Hc as [Hc1 Hc2].
        destruct (bexec A task f s (set_rpos id i e)) as [[its0 r0] e1] eqn:Hs.
        pose proof (IHe _ _ _ _ _ Hs Hc1) as Hne.
        destruct r0 as [| | |fl| |]; try (injection H as <- <- <-; (discriminate || congruence)).
        destruct (block_from A task f id rest' (S i) _) as [[its2 r2] e2] eqn:Hr.
        injection H as <- <- <-. eapply IHb; eauto.
  Qed.

  Lemma exec_no_continue : forall task f s e its r e',
    bexec A task f s e = (its, r, e') -> can_continue A s = false -> r <> RContinue.
  Proof. intros task f. exact (proj1 (no_continue_all task f)). Qed.

  (* the law inside a task: only quiet marks follow the first boundary, and a step that reaches a
     boundary ends with YieldException(true) *)
  Definition good (its : list item) (r : res) : Prop :=
    susp_ok its = true /\ (has_boundary its = true -> r = RYield true).

  Lemma good_no_boundary : forall its r, good its r -> r <> RYield true -> has_boundary its = false.
  Proof.
    intros its r [_ H2] Hr. destruct (has_boundary its); [|reflexivity]. elim Hr. apply H2. reflexivity.
  Qed.

  (* the end of an iteration: body items, then one end mark *)
  Lemma good_iter_boundary : forall id its r k,
    good its r -> r <> RYield true -> boundary k = true ->
    good (IIter id :: its ++ [IIterEnd id k]) (RYield true).
  Proof.
    intros id its r k Hg Hr Hk. split; [|reflexivity].
    cbn. rewrite susp_ok_app, (good_no_boundary _ _ Hg Hr). cbn. rewrite Hk. reflexivity.
  Qed.

  Lemma good_iter_quiet : forall id its r k r',
    good its r -> boundary k = false -> (r = RYield true -> r' = RYield true) ->
    good (IIter id :: its ++ [IIterEnd id k]) r'.
  Proof.
    intros id its r k r' [H1 H2] Hk Hr'. split.
    - cbn. rewrite susp_ok_app, H1. cbn. rewrite Hk. destruct (has_boundary its); reflexivity.
    - (* the new mark is no boundary: a boundary of the list is one of its *)
      intro Hb. apply Hr', H2. unfold has_boundary in *. cbn in Hb. rewrite existsb_app in Hb.
      cbn in Hb. rewrite Hk, !orb_false_r in Hb. exact Hb.
  Qed.

  Lemma good_app_normal : forall its its2 r r2,
    good its r -> r <> RYield true -> good its2 r2 -> good (its ++ its2) r2.
  Proof.
    intros its its2 r r2 Hg Hr [H3 H4]. pose proof (good_no_boundary _ _ Hg Hr) as Hb. split.
    - rewrite susp_ok_app, Hb. exact H3.
    - rewrite has_boundary_app, Hb. exact H4.
  Qed.

  Lemma shape_good : forall its r, shape true its r -> good its r.
  Proof.
    induction 1 as [r|x|its its2 r2 _ IH1 _ IH2|its its2 r2 _ IH1 _ IH2|its r _ IH Hr
                   |id its r _ IH Hk|id its r its2 r2 _ _ _ Ht _ _]; try discriminate.
    - split; [reflexivity|discriminate].
    - split; [reflexivity|discriminate].
    - apply (good_app_normal _ _ RNormal); [exact IH1|discriminate|exact IH2].
    - apply (good_app_normal _ (ICycle :: its2) RNormal); [exact IH1|discriminate|exact IH2].
    - destruct IH as [G1 G2]. split; [exact G1|]. intro Hb. elim Hr. exact (G2 Hb).
    - destruct (boundary (end_kind r)) eqn:Hb.
      + replace (after_iter r) with (RYield true) by (destruct r as [| | |[]| |]; reflexivity || discriminate).
        apply (good_iter_boundary _ _ r); [exact IH| |exact Hb]. intros ->. discriminate.
      + apply (good_iter_quiet _ _ r); [exact IH|exact Hb|]. intros ->. reflexivity.
  Qed.

  Lemma exec_good : forall f s e its r e', bexec A true f s e = (its, r, e') -> good its r.
  Proof. intros f s e its r e' H. exact (shape_good _ _ (exec_shape _ _ _ _ _ _ _ H)). Qed.

  (* reading susp_ok at a given boundary mark *)
  Lemma susp_ok_split : forall pre it post,
    susp_ok (pre ++ it :: post) = true -> is_boundary A it = true ->
    has_boundary pre = false /\ forallb is_quiet_mark post = true.
  Proof.
    intros pre it post H Hb. rewrite susp_ok_app in H. destruct (has_boundary pre).
    - (* a boundary after a boundary: it is not a quiet mark *)
      destruct it; try discriminate. cbn in H, Hb. rewrite Hb, andb_false_r in H. discriminate.
    - cbn in H. rewrite Hb in H. split; [reflexivity|exact H].
  Qed.

  Lemma shape_bg : forall its r, shape false its r -> bg_ok its = true.
  Proof.
    induction 1 as [r|x|its its2 r2 _ IH1 _ IH2|its its2 r2 _ IH1 _ IH2|its r _ IH _
                   |id its r _ IH Hk|id its r its2 r2 _ IH1 _ _ _ IH2]; try reflexivity.
    - rewrite (bg_ok_app _ _ IH1). exact IH2.
    - rewrite (bg_ok_app _ _ IH1). exact IH2.
    - exact IH.
    - (* outside a task an iteration that ends the step did not end at a boundary *)
      cbn. rewrite (bg_ok_app _ _ IH). cbn.
      destruct (boundary (end_kind r)); [discriminate (Hk eq_refl)|reflexivity].
    - cbn. rewrite (bg_ok_app _ _ IH1). cbn. rewrite IH2. destruct (boundary (end_kind r)); reflexivity.
  Qed.

  Lemma bg_ok_split : forall pre it post,
    bg_ok (pre ++ it :: post) = true -> is_boundary A it = true -> exists post', post = IBg :: post'.
  Proof.
    induction pre as [|x pre IH]; intros it post H Hb.
    - cbn in H. rewrite Hb in H. apply andb_true_iff in H. destruct H as [H _].
      destruct post as [|y post']; [discriminate|]. destruct y; try discriminate. eauto.
    - cbn in H. apply andb_true_iff in H. destruct H as [_ H]. eapply IH; eauto.
  Qed.
End Laws.

(* the while loop's continue path (the program of finding C15-while-continue-no-suspension, repaired
   by a1ebdfd): one iteration per step in a task, a background cycle after every iteration in main *)
(*   q = 0; while (q < 2) { q = q + 1; println(7); continue; }                                      *)
Definition wc_witness : bstmt nat :=
  BWhile 1 (CLt 0 2) (BBlock 2 [BInc 0; BSimple 7; BContinue]).

Lemma while_continue_task_step :
  bexec nat true 20 wc_witness (set_var 0 0 env0) =
    ([IIter 1; ISimple 7; IIterEnd 1 IContinue], RYield true, set_var 0 1 (set_var 0 0 env0)).
Proof. vm_compute. reflexivity. Qed.

Lemma while_continue_main_step :
  fst (fst (bexec nat false 20 wc_witness (set_var 0 0 env0))) =
    [IIter 1; ISimple 7; IIterEnd 1 IContinue; IBg; IIter 1; ISimple 7; IIterEnd 1 IContinue; IBg].
Proof. vm_compute. reflexivity. Qed.
