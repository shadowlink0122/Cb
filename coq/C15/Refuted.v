(* C15 - two laws the faithful model does NOT satisfy (the pinned code does not either; both are
   reproduced on the binary as known findings).  Witnesses are concrete task programs of Prog.v. *)
From Coq Require Import List ZArith Bool.
From Cb Require Import C15.Model C15.Prog.
Import ListNotations.
Local Open Scope nat_scope.

Definition nth_state (funs : list (list stmt)) (stepms : Z) (n : nat) : cstate :=
  fst (crun funs stepms n cinit).

(* what the boolean observer of Prog.v means: the loop of run_until_complete(w) is on top, w is a
   registered unfinished task, and the very next step leaves the loop *)
Lemma until_exit_undone_spec : forall funs stepms (s : cstate),
  until_exit_undone s = true ->
  exists w rest tw,
    kont _ _ _ s = FUntil _ _ _ w :: rest /\
    lookup _ _ w (tasks _ _ _ s) = Some tw /\ t_done _ _ tw = false /\
    kont _ _ _ (fst (cstep funs stepms s)) = rest.
Proof.
  intros funs stepms s H. unfold until_exit_undone in H.
  destruct (kont _ _ _ s) as [|[] rest] eqn:Hk; try discriminate.
  destruct (lookup _ _ w (tasks _ _ _ s)) as [tw|] eqn:Hl; [|discriminate].
  apply andb_true_iff in H. destruct H as [Hd Hq]. apply negb_true_iff in Hd.
  exists w, rest, tw. repeat split; auto.
  unfold cstep, step. rewrite Hk, Hl, Hd. destruct (queue _ _ _ s); [reflexivity|discriminate].
Qed.

(* W1:  async int f2() { h(); return 102; }            h: plain function with two statements
        async int f1() { Future<int> v = f2(); yield; int r = await v; return 101; }
        void main()    { Future<int> v = f1(); println(1); println(2); println(3); }
   f1's third statement runs from inside f2's call of h (the cycle after h's second statement), so
   the task it awaits is suspended beneath it; the queue is empty; the await returns at once. *)
Definition w1 : list (list stmt) :=
  [ [SSimple (XSpawn 1 0); SSimple (XPrint 1); SSimple (XPrint 2); SSimple (XPrint 3)];
    [SSimple (XSpawn 2 0); SYield; SSimple (XAwait 0); SReturn];
    [SSimple (XCall [901%Z; 902%Z]); SReturn] ].

Lemma w1_early_exit : until_exit_undone (nth_state w1 5 18) = true.
Proof. vm_compute. reflexivity. Qed.

(* W2:  async int f3() { println(300); return 103; }
        async int f2() { println(200); await sleep(50); println(201); return 102; }
        async int f1() { println(100); int r = await f3(); println(101); return 101; }
        void main()    { Future<int> a = f1(); Future<int> b = f2(); println(1); int r = await a; }
   f1 awaits f3; f2's turn comes from inside that loop and awaits its sleep; f3 finishes at once, but
   f1 (whose target is done) is not resumed while f2's loop polls the sleeper. *)
Definition w2 : list (list stmt) :=
  [ [SSimple (XSpawn 1 0); SSimple (XSpawn 2 1); SSimple (XPrint 1); SSimple (XAwait 0)];
    [SSimple (XPrint 100); SSimple (XAwaitCall 3); SSimple (XPrint 101); SReturn];
    [SSimple (XPrint 200); SSimple (XSleep 50); SSimple (XPrint 201); SReturn];
    [SSimple (XPrint 300); SReturn] ].

Fixpoint asleeps (tr : list event) : nat :=
  match tr with [] => 0 | EAsleep _ _ _ :: r => S (asleeps r) | _ :: r => asleeps r end.
