(* C15 - invariants of every reachable state of the scheduler machine (any program, any clock):
   the continuation stack is well formed, [exec] is the chain of FStep frames, queue ++ exec has no
   duplicate and holds exactly the registered, unfinished tasks.
   Two laws carry every proof about the machine, here and in Fifo.v / Sleep.v: [step_cases], the five
   kinds of machine step, and [pre_ok], what a turn's prelude does to the task record. *)
From Coq Require Import List ZArith Bool Lia Permutation.
From Cb Require Import C15.Model.
Import ListNotations.
Local Open Scope nat_scope.

Section Inv.
  Variables (L G C : Type).
  Variable len : C -> nat.
  Variable code : C -> nat -> L -> prog L G C.
  Variable clock : nat -> Z.
  Variable dflt : L.
  Variable main_code : C.

  Notation task := (task L C).
  Notation frame := (frame L G C).
  Notation state := (state L G C).
  Notation step := (step L G C len code clock dflt main_code).
  Notation run := (run L G C len code clock dflt main_code).
  Notation begin_turn := (begin_turn L G C len code clock).
  Notation end_step := (end_step L G C len).
  Notation step_prog := (step_prog L G C len clock dflt).
  Notation prelude := (prelude L C len clock).
  Notation lookup := (lookup L C).
  Notation update := (update L C).

  Lemma nth_error_upd_nth : forall k k' f (ts : list task),
    nth_error (upd_nth L C k f ts) k' =
    if Nat.eqb k' k then option_map f (nth_error ts k) else nth_error ts k'.
  Proof.
    induction k as [|k IH]; intros k' f [|t r]; destruct k' as [|k']; simpl; try reflexivity.
    - destruct (Nat.eqb k' k); reflexivity.
    - apply IH.
  Qed.

  Lemma lookup_update : forall id id' f (ts : list task),
    lookup id' (update id f ts) =
    if Nat.eqb id' id then option_map f (lookup id ts) else lookup id' ts.
  Proof.
    intros id id' f ts. destruct id as [|k]; destruct id' as [|k']; simpl; auto.
    apply nth_error_upd_nth.
  Qed.

  Lemma upd_nth_length : forall k f (ts : list task), length (upd_nth L C k f ts) = length ts.
  Proof. induction k; intros f [|t r]; simpl; auto. Qed.

  Lemma update_length : forall id f (ts : list task), length (update id f ts) = length ts.
  Proof. intros [|k] f ts; simpl; auto using upd_nth_length. Qed.

  Lemma upd_nth_id : forall k (ts : list task) t,
    nth_error ts k = Some t -> upd_nth L C k (fun _ => t) ts = ts.
  Proof.
    induction k; intros [|x r] t H; simpl in *; try discriminate.
    - inversion H; reflexivity.
    - f_equal. apply IHk. assumption.
  Qed.

  Lemma update_id : forall id ts t, lookup id ts = Some t -> update id (fun _ => t) ts = ts.
  Proof. intros [|k] ts t H; simpl in *; [discriminate|]. apply upd_nth_id. assumption. Qed.

  Lemma lookup_some_range : forall id (ts : list task) t, lookup id ts = Some t -> 1 <= id <= length ts.
  Proof.
    intros [|k] ts t H; simpl in H; [discriminate|].
    assert (k < length ts) by (apply nth_error_Some; congruence). lia.
  Qed.

  Lemma lookup_none_range : forall id (ts : list task), lookup id ts = None -> id = 0 \/ length ts < id.
  Proof.
    intros [|k] ts H; [left; reflexivity|]. simpl in H. apply nth_error_None in H. right. lia.
  Qed.

  Lemma lookup_app : forall id (ts : list task) t,
    lookup id (ts ++ [t]) = if Nat.eqb id (S (length ts)) then Some t else lookup id ts.
  Proof.
    intros [|k] ts t; simpl; [reflexivity|].
    destruct (Nat.eqb k (length ts)) eqn:E.
    - apply Nat.eqb_eq in E. subst. rewrite nth_error_app2 by lia. rewrite Nat.sub_diag. reflexivity.
    - apply Nat.eqb_neq in E. destruct (Nat.lt_ge_cases k (length ts)).
      + apply nth_error_app1; assumption.
      + transitivity (@None task); [|symmetry]; apply nth_error_None; rewrite ?app_length; simpl; lia.
  Qed.

  Definition live (ts : list task) (id : nat) : bool :=
    match lookup id ts with Some t => negb (t_done L C t) | None => false end.

  Lemma live_update_pres : forall ts id f id',
    (forall t, t_done L C (f t) = t_done L C t) -> live (update id f ts) id' = live ts id'.
  Proof.
    intros ts id f id' Hf. unfold live. rewrite lookup_update.
    destruct (Nat.eqb id' id) eqn:E; [|reflexivity].
    apply Nat.eqb_eq in E. subst. destruct (lookup id ts); simpl; [rewrite Hf|]; reflexivity.
  Qed.

  Lemma live_update_set : forall ts id t t' id',
    lookup id ts = Some t ->
    live (update id (fun _ => t') ts) id' = if Nat.eqb id' id then negb (t_done L C t') else live ts id'.
  Proof.
    intros ts id t t' id' H. unfold live. rewrite lookup_update.
    destruct (Nat.eqb id' id); [rewrite H|]; reflexivity.
  Qed.

  Lemma live_app : forall ts t id',
    live (ts ++ [t]) id' = if Nat.eqb id' (S (length ts)) then negb (t_done L C t) else live ts id'.
  Proof.
    intros. unfold live. rewrite lookup_app. destruct (Nat.eqb id' (S (length ts))); reflexivity.
  Qed.

  Lemma live_range : forall ts id, live ts id = true -> 1 <= id <= length ts.
  Proof.
    intros ts id H. unfold live in H. destruct (lookup id ts) eqn:E; [|discriminate].
    eapply lookup_some_range; eauto.
  Qed.

  Fixpoint steps_of (k : list frame) : list nat :=
    match k with
    | [] => []
    | FStep _ _ _ id :: r => id :: steps_of r
    | _ :: r => steps_of r
    end.

  (* every statement frame sits directly on the step (or main) frame it belongs to, those are never
     exposed, and main's frames are the bottom of the stack *)
  Fixpoint wf (k : list frame) : Prop :=
    match k with
    | [] => True
    | FProg _ _ _ _ :: FStep _ _ _ _ :: r => wf r
    | FProg _ _ _ _ :: FMainK _ _ _ _ :: r => r = []
    | FProg _ _ _ _ :: _ => False
    | FStep _ _ _ _ :: _ => False
    | FMainK _ _ _ _ :: _ => False
    | FMain _ _ _ _ _ :: r => r = []
    | _ :: r => wf r
    end.

  Definition loop_frame (f : frame) : Prop :=
    match f with FUntil _ _ _ _ | FCycle _ _ _ | FBg _ _ _ _ | FRunAll _ _ _ => True | _ => False end.

  Lemma wf_prog_swap : forall p p' rest, wf (FProg _ _ _ p :: rest) -> wf (FProg _ _ _ p' :: rest).
  Proof. intros p p' [|[] r] H; simpl in *; auto. Qed.

  Lemma steps_prog : forall p rest, steps_of (FProg _ _ _ p :: rest) = steps_of rest.
  Proof. reflexivity. Qed.

  Lemma wf_loop_push : forall f k, loop_frame f -> wf k -> wf (f :: k).
  Proof. intros [] k Hf H; simpl in *; try contradiction; assumption. Qed.

  Lemma wf_loop_pop : forall f k, loop_frame f -> wf (f :: k) -> wf k.
  Proof. intros [] k Hf H; simpl in *; try contradiction; assumption. Qed.

  Lemma steps_loop : forall f k, loop_frame f -> steps_of (f :: k) = steps_of k.
  Proof. intros [] k Hf; simpl in *; try contradiction; reflexivity. Qed.

  Lemma wf_loops_app : forall pre k, Forall loop_frame pre -> wf k -> wf (pre ++ k).
  Proof. induction 1; intro Hk; simpl; auto. apply wf_loop_push; auto. Qed.

  Lemma steps_loops_app : forall pre k, Forall loop_frame pre -> steps_of (pre ++ k) = steps_of k.
  Proof. induction 1; simpl; auto. rewrite <- IHForall. apply steps_loop. assumption. Qed.

  Lemma with_kont_id : forall s : state, with_kont L G C s (kont _ _ _ s) = s.
  Proof. intros []. reflexivity. Qed.

  (* the stack k' may replace k: it is well formed if k was, with the same step frames *)
  Definition stack_ok (k k' : list frame) : Prop := wf k -> wf k' /\ steps_of k' = steps_of k.

  (* A property of [step s] follows from five cases: only the stack changes; run_one_cycle skips the
     head; the head of the queue gets its turn; a statement of a task ends; a statement asks something
     of the scheduler (the requests that only push frames count as stack changes). *)
  Lemma step_cases : forall P : state -> state * list event -> Prop,
    (forall s k', stack_ok (kont _ _ _ s) k' -> P s (with_kont L G C s k', [])) ->
    (forall s id q k', queue _ _ _ s = id :: q -> cur_is L G C s id = true -> stack_ok (kont _ _ _ s) k' ->
       P s (mkState L G C (q ++ [id]) (tasks _ _ _ s) (exec _ _ _ s) (reads _ _ _ s) (glob _ _ _ s) k',
            [ETurn id false; ESkip id])) ->
    (forall s id q k' b, queue _ _ _ s = id :: q -> stack_ok (kont _ _ _ s) k' ->
       P s (let '(s', evs) := begin_turn s id q k' in (s', ETurn id b :: evs))) ->
    (forall s id o l rest, kont _ _ _ s = FProg _ _ _ (PDone _ _ _ o l) :: FStep _ _ _ id :: rest ->
       P s (end_step s id o l rest)) ->
    (forall s p rest, kont _ _ _ s = FProg _ _ _ p :: rest ->
       match p with
       | PDone _ _ _ _ _ | PCycle _ _ _ _ | PBg _ _ _ _ | PRunAll _ _ _ _ => True
       | _ => P s (step_prog s p rest)
       end) ->
    forall s, P s (step s).
  Proof.
    intros P Hstack Hskip Hturn Hend Hreq s. unfold step.
    destruct (kont _ _ _ s) as [|f rest] eqn:Hk.
    { rewrite <- (with_kont_id s) at 2. apply Hstack. rewrite Hk. intro. auto. }
    assert (Hloop : loop_frame f -> forall pre, Forall loop_frame pre -> P s (with_kont L G C s (pre ++ rest), [])).
    { intros Hf pre Hpre. apply Hstack. rewrite Hk. intro Hwf.
      rewrite (steps_loop f rest Hf), steps_loops_app by assumption. eauto using wf_loops_app, wf_loop_pop. }
    assert (Hpop : loop_frame f -> P s (with_kont L G C s rest, [])).
    { intro Hf. exact (Hloop Hf [] (Forall_nil _)). }
    destruct f.
    - specialize (Hreq s p rest Hk). destruct p; try exact Hreq; simpl.
      + destruct rest as [|[] rest']; try (apply Hstack; rewrite Hk; intros []).
        * apply Hend. exact Hk.
        * destruct o; apply Hstack; rewrite Hk; intro Hwf; simpl in Hwf; subst rest';
            [destruct (has_tasks L G C s)|..]; simpl; auto.
      + apply Hstack. rewrite Hk. intro Hwf. destruct (has_tasks L G C s); simpl; eauto using wf_prog_swap.
      + apply Hstack. rewrite Hk. intro Hwf. simpl. eauto using wf_prog_swap.
      + apply Hstack. rewrite Hk. intro Hwf. simpl. eauto using wf_prog_swap.
    - apply Hstack. rewrite Hk. intros [].
    - destruct (lookup w (tasks _ _ _ s)) as [t|]; [|exact (Hpop I)].
      destruct (t_done L C t); [exact (Hpop I)|]. destruct (queue _ _ _ s); [exact (Hpop I)|].
      apply (Hloop I [FCycle _ _ _; FUntil _ _ _ w]). repeat constructor.
    - assert (Hst : stack_ok (kont _ _ _ s) rest) by (rewrite Hk; intro Hwf; auto).
      destruct (queue _ _ _ s) as [|id q] eqn:Hq; [exact (Hpop I)|].
      destruct (cur_is L G C s id) eqn:Hc; [apply Hskip; assumption|]. apply Hturn; assumption.
    - destruct n; [exact (Hpop I)|]. destruct (queue _ _ _ s); [exact (Hpop I)|].
      apply (Hloop I [FCycle _ _ _; FBg _ _ _ n]). repeat constructor.
    - destruct (queue _ _ _ s) as [|id q] eqn:Hq; [exact (Hpop I)|].
      apply Hturn; [assumption|]. rewrite Hk. intro Hwf. auto.
    - destruct (i <? len main_code); apply Hstack; rewrite Hk; intro Hwf; simpl in Hwf; subst rest; simpl; auto.
    - apply Hstack. rewrite Hk. intros [].
  Qed.

  (* the ids in l are exactly the registered unfinished tasks, each once *)
  Definition ready_ok (l : list nat) (ts : list task) : Prop :=
    NoDup l /\ forall id, In id l <-> live ts id = true.

  Definition Inv (s : state) : Prop :=
    wf (kont _ _ _ s) /\
    exec _ _ _ s = steps_of (kont _ _ _ s) /\
    ready_ok (queue _ _ _ s ++ exec _ _ _ s) (tasks _ _ _ s).

  Lemma Inv_init : forall g0 l0, Inv (init L G C g0 l0).
  Proof.
    intros. unfold Inv, init; simpl. split; [reflexivity|]. split; [reflexivity|]. split; [constructor|].
    intro id. split; [intros []|]. unfold live. destruct id as [|[|k]]; simpl; discriminate.
  Qed.

  Lemma ready_perm : forall l l' ts ts',
    ready_ok l ts -> Permutation l l' -> (forall id, live ts' id = live ts id) -> ready_ok l' ts'.
  Proof.
    intros l l' ts ts' [Hnd Hin] Hp Hl. split; [eapply Permutation_NoDup; eauto|].
    intro id. rewrite Hl, <- (Hin id). split; apply Permutation_in; [apply Permutation_sym|]; assumption.
  Qed.

  (* an unfinished task gets the record t': its id stays if t' is unfinished, goes if t' is finished *)
  Lemma ready_set : forall id l l' ts t t',
    ready_ok l ts -> lookup id ts = Some t -> t_done L C t = false ->
    Permutation l (if t_done L C t' then id :: l' else l') ->
    ready_ok l' (update id (fun _ => t') ts).
  Proof.
    intros id l l' ts t t' HR Hlk Hd Hp.
    assert (Hl : live ts id = true) by (unfold live; rewrite Hlk, Hd; reflexivity).
    destruct (t_done L C t') eqn:Hd'.
    - pose proof (ready_perm _ _ _ ts HR Hp (fun _ => eq_refl)) as [Hnd Hin].
      apply NoDup_cons_iff in Hnd. destruct Hnd as [Hn Hnd]. split; [exact Hnd|].
      intro x. rewrite (live_update_set _ _ _ _ _ Hlk), Hd'. specialize (Hin x). simpl in *.
      destruct (Nat.eqb_spec x id) as [->|Hne]; [intuition discriminate|intuition congruence].
    - apply (ready_perm _ _ _ _ HR Hp). intro x. rewrite (live_update_set _ _ _ _ _ Hlk), Hd'.
      destruct (Nat.eqb_spec x id) as [->|Hne]; [rewrite Hl|]; reflexivity.
  Qed.

  (* a new task gets the next id *)
  Lemma ready_add : forall l l' ts t,
    ready_ok l ts -> t_done L C t = false -> Permutation (S (length ts) :: l) l' -> ready_ok l' (ts ++ [t]).
  Proof.
    intros l l' ts t [Hnd Hin] Ht Hp.
    assert (Hnew : ~ In (S (length ts)) l) by (intro H; apply Hin, live_range in H; lia).
    split; [eapply Permutation_NoDup; [exact Hp|constructor; assumption]|].
    intro x. rewrite live_app, <- (Permutation_in' eq_refl Hp). specialize (Hin x). simpl.
    destruct (Nat.eqb_spec x (S (length ts))) as [->|Hne]; [rewrite Ht|]; intuition congruence.
  Qed.

  Definition pre_task (p : pre L C) : task :=
    match p with PreRet _ _ _ t _ _ | PreGo _ _ _ t _ _ => t end.
  Definition pre_evs (p : pre L C) : list event :=
    match p with PreRet _ _ _ _ evs _ | PreGo _ _ _ _ evs _ => evs end.
  Definition pre_reads (p : pre L C) : nat :=
    match p with PreRet _ _ _ _ _ rd | PreGo _ _ _ _ _ rd => rd end.

  (* Every stage of the prelude, started on the record t at reading position rd: body and deadline are
     kept, the clock is read forwards, the task is finished exactly when the stage says "do not
     continue", and a statement starts only of a task that has a body. *)
  Definition pre_ok (t : task) (rd : nat) (p : pre L C) : Prop :=
    t_code L C (pre_task p) = t_code L C t /\ t_wake L C (pre_task p) = t_wake L C t /\ rd <= pre_reads p /\
    match p with
    | PreRet _ _ sc t' _ _ => t_done L C t' = t_done L C t || negb sc
    | PreGo _ _ c t' _ _ => t_done L C t' = t_done L C t /\ t_code L C t' = Some c
    end.

  Lemma pre_ok_reads : forall t rd p, pre_ok t rd p -> rd <= pre_reads p.
  Proof. intros t rd p (_ & _ & H & _). exact H. Qed.

  (* a stage may first change fields the law does not mention, and take readings *)
  Lemma pre_ok_trans : forall t t1 rd rd1 p,
    t_code L C t1 = t_code L C t -> t_wake L C t1 = t_wake L C t -> t_done L C t1 = t_done L C t ->
    rd <= rd1 -> pre_ok t1 rd1 p -> pre_ok t rd p.
  Proof.
    intros t t1 rd rd1 p Hc Hw Hd Hr (H1 & H2 & H3 & H4). unfold pre_ok. rewrite <- Hc, <- Hw, <- Hd.
    split; [exact H1|]. split; [exact H2|]. split; [lia|exact H4].
  Qed.

  Lemma pre_body_ok : forall id t evs rd, pre_ok t rd (pre_body L C len id t evs rd).
  Proof.
    intros. unfold pre_body, pre_ok. simpl.
    destruct (t_code L C t) eqn:Ec; [destruct (_ <? _)|]; simpl; rewrite ?orb_true_r; auto.
  Qed.

  Lemma pre_timeout_ok : forall id t evs rd, pre_ok t rd (pre_timeout L C len clock id t evs rd).
  Proof.
    intros. unfold pre_timeout. destruct (_ && _); [|apply pre_body_ok].
    destruct (_ <=? _)%Z; [unfold pre_ok; simpl; rewrite orb_true_r; auto|].
    apply (pre_ok_trans _ t _ (S rd)); auto. apply pre_body_ok.
  Qed.

  Lemma pre_sleep_ok : forall id t evs rd, pre_ok t rd (pre_sleep L C len clock id t evs rd).
  Proof.
    intros. unfold pre_sleep. destruct (t_sleeping L C t); [|apply pre_timeout_ok].
    destruct (_ <? _)%Z; [unfold pre_ok; simpl; rewrite orb_false_r; auto|].
    destruct (t_code L C t); [|unfold pre_ok; simpl; rewrite orb_true_r; auto].
    apply (pre_ok_trans _ (clear_sleeping L C t) _ (S rd)); auto. apply pre_timeout_ok.
  Qed.

  Lemma prelude_ok : forall ts id t rd, pre_ok t rd (prelude ts id t rd).
  Proof.
    intros. unfold prelude, pre_wait. destruct (t_done L C t) eqn:Hd; [unfold pre_ok; simpl; rewrite Hd; auto|].
    destruct (t_wait L C t) as [w|]; [|apply pre_sleep_ok].
    destruct (is_done L C w ts); [|unfold pre_ok; simpl; rewrite orb_false_r; auto].
    apply (pre_ok_trans _ (set_wait L C None t) _ rd); auto. apply pre_sleep_ok.
  Qed.

  (* the same for the end of a statement *)
  Lemma end_stmt_ok : forall id o l t t' sc evs,
    end_stmt L C len id o l t = (t', sc, evs) ->
    t_code L C t' = t_code L C t /\ t_wake L C t' = t_wake L C t /\ t_done L C t' = t_done L C t || negb sc.
  Proof.
    intros id o l t t' sc evs H. unfold end_stmt in H.
    destruct o; [destruct (t_code L C t) eqn:?; [destruct (_ <? _)|]|..];
      inversion H; subst; simpl; rewrite ?orb_true_r, ?orb_false_r; auto.
  Qed.

  (* a turn or a statement of task id ends with verdict sc and record t': id is at the back of the queue
     if it should continue, and nowhere if it is finished *)
  Lemma requeue_perm : forall sc id q ex (t' : task),
    t_done L C t' = negb sc ->
    Permutation (id :: q ++ ex) (if t_done L C t' then id :: requeue sc id q ++ ex else requeue sc id q ++ ex).
  Proof.
    intros sc id q ex t' ->. destruct sc; simpl; [|reflexivity].
    rewrite <- app_assoc. apply Permutation_middle.
  Qed.

  Lemma begin_turn_inv : forall s id q rest,
    Inv s -> queue _ _ _ s = id :: q -> stack_ok (kont _ _ _ s) rest -> Inv (fst (begin_turn s id q rest)).
  Proof.
    intros s id q rest (Hwf & Hex & HR) Hq Hst. destruct (Hst Hwf) as [Hwf' Hst']. rewrite Hq in HR.
    assert (Hl : live (tasks _ _ _ s) id = true) by (apply HR; left; reflexivity).
    unfold begin_turn. unfold live in Hl. destruct (lookup id (tasks _ _ _ s)) as [t|] eqn:Elk; [|discriminate].
    apply negb_true_iff in Hl.
    destruct (prelude_ok (tasks _ _ _ s) id t (reads _ _ _ s)) as (_ & _ & _ & Hp). rewrite Hl in Hp.
    destruct (prelude (tasks _ _ _ s) id t (reads _ _ _ s)) as [sc t' ev rd|c t' ev rd];
      unfold Inv; simpl; (split; [assumption|]).
    - (* the step ends at once *)
      split; [congruence|]. apply (ready_set _ _ _ _ _ _ HR Elk Hl). apply requeue_perm. exact Hp.
    - (* the statement starts *)
      split; [congruence|]. apply (ready_set _ _ _ _ _ _ HR Elk Hl). rewrite (proj1 Hp). apply Permutation_middle.
  Qed.

  Lemma end_step_inv : forall s id o l rest p,
    Inv s -> kont _ _ _ s = FProg _ _ _ p :: FStep _ _ _ id :: rest ->
    Inv (fst (end_step s id o l rest)).
  Proof.
    intros s id o l rest p (Hwf & Hex & HR) Hk. rewrite Hk in *. simpl in Hwf, Hex. rewrite Hex in HR.
    assert (Hl : live (tasks _ _ _ s) id = true) by (apply HR; rewrite in_app_iff; right; left; reflexivity).
    unfold end_step. unfold live in Hl. destruct (lookup id (tasks _ _ _ s)) as [t|] eqn:Elk; [|discriminate].
    apply negb_true_iff in Hl.
    destruct (end_stmt L C len id o l t) as [[t' sc] evs] eqn:Ee.
    destruct (end_stmt_ok _ _ _ _ _ _ _ Ee) as (_ & _ & Hd). rewrite Hl in Hd.
    rewrite Hex. unfold Inv; simpl. split; [assumption|]. split; [reflexivity|].
    apply (ready_set _ _ _ _ _ _ HR Elk Hl).
    eapply Permutation_trans; [apply Permutation_sym, Permutation_middle|]. apply requeue_perm. exact Hd.
  Qed.

  (* the statement on top goes on as p', possibly under new loop frames *)
  Lemma stack_ok_prog : forall p rest pre p',
    Forall loop_frame pre -> stack_ok (FProg _ _ _ p :: rest) (pre ++ FProg _ _ _ p' :: rest).
  Proof.
    intros p rest pre p' Hpre Hwf. rewrite steps_loops_app by assumption.
    split; [|reflexivity]. apply wf_loops_app; [assumption|]. eapply wf_prog_swap; eauto.
  Qed.

  Theorem step_inv : forall s, Inv s -> Inv (fst (step s)).
  Proof.
    assert (Hpres : forall s ts' k' rd g, Inv s -> stack_ok (kont _ _ _ s) k' ->
              (forall id, live ts' id = live (tasks _ _ _ s) id) ->
              Inv (mkState L G C (queue _ _ _ s) ts' (exec _ _ _ s) rd g k')).
    { intros s ts' k' rd g (Hwf & Hex & HR) Hst Hl. destruct (Hst Hwf) as [Hwf' Hst']. unfold Inv; simpl.
      split; [assumption|]. split; [congruence|]. exact (ready_perm _ _ _ _ HR (Permutation_refl _) Hl). }
    assert (Hprog : forall s p rest pre p' ts' rd g, Inv s -> kont _ _ _ s = FProg _ _ _ p :: rest ->
              Forall loop_frame pre -> (forall id, live ts' id = live (tasks _ _ _ s) id) ->
              Inv (mkState L G C (queue _ _ _ s) ts' (exec _ _ _ s) rd g (pre ++ FProg _ _ _ p' :: rest))).
    { intros s p rest pre p' ts' rd g HI Hk Hpre Hl. apply Hpres; [assumption| |assumption].
      rewrite Hk. apply stack_ok_prog. assumption. }
    assert (Hspawn : forall s p rest p' t rd g, Inv s -> kont _ _ _ s = FProg _ _ _ p :: rest ->
              t_done L C t = false ->
              Inv (mkState L G C (queue _ _ _ s ++ [S (length (tasks _ _ _ s))]) (tasks _ _ _ s ++ [t])
                           (exec _ _ _ s) rd g (FProg _ _ _ p' :: rest))).
    { intros s p rest p' t rd g (Hwf & Hex & HR) Hk Ht. rewrite Hk in Hwf, Hex. unfold Inv; simpl.
      split; [exact (wf_prog_swap p p' rest Hwf)|]. split; [assumption|].
      apply (ready_add _ _ _ _ HR Ht). rewrite <- app_assoc. apply Permutation_middle. }
    apply (step_cases (fun s r => Inv s -> Inv (fst r))).
    - intros s k' Hst HI. exact (Hpres s _ k' _ _ HI Hst (fun _ => eq_refl)).
    - (* the skip branch contradicts the invariant: a queued task is not executing *)
      intros s id q k' Hq Hc _ (_ & _ & Hnd & _). exfalso. unfold cur_is in Hc.
      destruct (exec _ _ _ s) as [|cur ex]; [discriminate|]. apply Nat.eqb_eq in Hc. subst cur.
      rewrite Hq in Hnd. simpl in Hnd. apply NoDup_cons_iff in Hnd. apply (proj1 Hnd).
      rewrite in_app_iff. right. left. reflexivity.
    - intros s id q k' b Hq Hst HI. pose proof (begin_turn_inv s id q k' HI Hq Hst) as H.
      destruct (begin_turn s id q k'). exact H.
    - intros s id o l rest Hk HI. eapply end_step_inv; eauto.
    - intros s p rest Hk. destruct p; try exact I; intro HI; simpl.
      + exact (Hprog s _ rest [] p _ _ _ HI Hk (Forall_nil _) (fun _ => eq_refl)).
      + eapply Hspawn; eauto.
      + eapply Hspawn; eauto.
      + exact (Hprog s _ rest [] _ _ _ _ HI Hk (Forall_nil _) (fun _ => eq_refl)).
      + refine (Hprog s _ rest [FUntil _ _ _ w] p _ _ _ HI Hk _ _); [repeat constructor|].
        intro id. destruct (exec _ _ _ s); [reflexivity|]. apply live_update_pres. reflexivity.
      + refine (Hprog s _ rest [] p _ _ _ HI Hk (Forall_nil _) _).
        intro id. apply live_update_pres. reflexivity.
      + destruct (k (glob _ _ _ s)) as [g' p']. simpl.
        exact (Hprog s _ rest [] p' _ _ _ HI Hk (Forall_nil _) (fun _ => eq_refl)).
  Qed.

  Lemma run_invariant : forall I : state -> Prop,
    (forall s, I s -> I (fst (step s))) -> forall n s, I s -> I (fst (run n s)).
  Proof.
    intros I Hstep. induction n; intros s HI; simpl; [assumption|].
    pose proof (Hstep s HI) as H1. destruct (step s) as [s1 e1]. simpl in H1.
    pose proof (IHn s1 H1) as H2. destruct (run n s1) as [s2 e2]. exact H2.
  Qed.

  Theorem run_inv : forall n s, Inv s -> Inv (fst (run n s)).
  Proof. exact (run_invariant Inv step_inv). Qed.

  (* a state reachable from the start of some program *)
  Definition reachable (s : state) : Prop := exists g0 l0 n, s = fst (run n (init L G C g0 l0)).

  Theorem reachable_inv : forall s, reachable s -> Inv s.
  Proof. intros s (g0 & l0 & n & ->). apply run_inv. apply Inv_init. Qed.

  Lemma run_app : forall n m s,
    run (n + m) s = let '(s1, e1) := run n s in let '(s2, e2) := run m s1 in (s2, e1 ++ e2).
  Proof.
    induction n; intros m s; simpl.
    - destruct (run m s); reflexivity.
    - destruct (step s) as [s1 e1]. rewrite IHn. destruct (run n s1) as [s2 e2].
      destruct (run m s2) as [s3 e3]. rewrite app_assoc. reflexivity.
  Qed.

  Lemma reachable_run : forall m s, reachable s -> reachable (fst (run m s)).
  Proof.
    intros m s (g0 & l0 & n & ->). exists g0, l0, (n + m).
    rewrite run_app. destruct (run n (init L G C g0 l0)) as [s1 e1]. simpl.
    destruct (run m s1). reflexivity.
  Qed.

  Lemma reachable_step : forall s, reachable s -> reachable (fst (step s)).
  Proof. intros s H. apply (reachable_run 1) in H. simpl in H. destruct (step s). exact H. Qed.

  Lemma nodup_app_l : forall (a b : list nat), NoDup (a ++ b) -> NoDup a.
  Proof.
    induction a; intros b H; [constructor|]. simpl in H. apply NoDup_cons_iff in H. destruct H as [Hn Hd].
    constructor; [|eapply IHa; eauto]. intro Hin. apply Hn. apply in_app_iff. auto.
  Qed.
End Inv.
