(* C15 - sleep and the clock: a sleeping task is neither stepped nor completed on a clock reading
   below its deadline; the deadline is immutable; with a monotone clock every reading after the
   completion of sleep(ms)'s task is >= (reading taken by sleep) + ms; and a run depends on the clock
   only through the readings it takes (last section). *)
From Coq Require Import List ZArith Bool Lia.
From Cb Require Import C15.Model C15.Invariants.
Import ListNotations.
Local Open Scope nat_scope.

Section Sleep.
  Variables (L G C : Type).
  Variable len : C -> nat.
  Variable code : C -> nat -> L -> prog L G C.
  Variable clock : nat -> Z.
  Variable dflt : L.
  Variable main_code : C.

  Notation task := (task L C).
  Notation state := (state L G C).
  Notation step := (step L G C len code clock dflt main_code).
  Notation run := (run L G C len code clock dflt main_code).
  Notation begin_turn := (begin_turn L G C len code clock).
  Notation end_step := (end_step L G C len).
  Notation step_prog := (step_prog L G C len clock dflt).
  Notation prelude := (prelude L C len clock).
  Notation reachable := (reachable L G C len code clock dflt main_code).
  Notation lookup := (lookup L C).
  Notation update := (update L C).

  (* the turn on which a body-less sleeper is completed reads the clock at or after its deadline *)
  Theorem sleeper_wakes_at_deadline_l : forall s rest id q t,
    kont _ _ _ s = FCycle _ _ _ :: rest -> queue _ _ _ s = id :: q -> cur_is L G C s id = false ->
    lookup id (tasks _ _ _ s) = Some t -> t_done L C t = false -> t_wait L C t = None ->
    t_sleeping L C t = true -> t_code L C t = None -> (t_wake L C t <= clock (reads _ _ _ s))%Z ->
    snd (step s) = [ETurn id false; EClock (clock (reads _ _ _ s));
                    EWoke id (clock (reads _ _ _ s)) (t_wake L C t); EComplete id] /\
    is_done L C id (tasks _ _ _ (fst (step s))) = true /\ queue _ _ _ (fst (step s)) = q.
  Proof.
    intros s rest id q t Hk Hq Hc Hlk Hd Hw Hs Hcode Hle. unfold step. rewrite Hk, Hq, Hc.
    unfold begin_turn. rewrite Hlk. unfold prelude. rewrite Hd. unfold pre_wait. rewrite Hw.
    unfold pre_sleep. rewrite Hs. assert (Hnlt : (clock (reads _ _ _ s) <? t_wake L C t)%Z = false) by (apply Z.ltb_ge; assumption).
    rewrite Hnlt, Hcode. simpl. repeat split; auto.
    unfold is_done. rewrite lookup_update, Nat.eqb_refl, Hlk. reflexivity.
  Qed.

  Definition stab (t t' : task) : Prop :=
    t_code L C t' = t_code L C t /\ t_wake L C t' = t_wake L C t /\
    (t_done L C t = true -> t_done L C t' = true).

  Lemma stab_refl : forall t, stab t t.
  Proof. intro t. repeat split; auto. Qed.

  Lemma stab_trans : forall a b c, stab a b -> stab b c -> stab a c.
  Proof. intros a b c (A1 & A2 & A3) (B1 & B2 & B3). repeat split; try congruence. auto. Qed.

  (* a body-less (sleep) task after rd clock reads: asleep until it is finished, and finished only on a
     reading at or after its deadline *)
  Definition sleeper_ok (rd : nat) (t : task) : Prop :=
    t_code L C t = None ->
    (t_done L C t = false -> t_sleeping L C t = true) /\
    (t_done L C t = true -> exists r, r < rd /\ (t_wake L C t <= clock r)%Z).

  Lemma sleeper_ok_mono : forall rd rd' t, rd <= rd' -> sleeper_ok rd t -> sleeper_ok rd' t.
  Proof.
    intros rd rd' t Hle H Hc. destruct (H Hc) as [H1 H2]. split; auto.
    intro Hd. destruct (H2 Hd) as (r & Hr & Hw). exists r. split; [lia|assumption].
  Qed.

  (* what a stage of the prelude (Invariants.pre_ok) or the end of a statement leaves of the record *)
  Lemma pre_ok_stab : forall t rd p, pre_ok L C t rd p -> stab t (pre_task L C p).
  Proof.
    intros t rd p (Hc & Hw & _ & Hd). split; [exact Hc|]. split; [exact Hw|]. intro E.
    destruct p; simpl in *; [|destruct Hd as [Hd _]]; rewrite Hd, E; reflexivity.
  Qed.

  (* a body-less task is finished by the prelude only on a clock reading >= its deadline: the stage
     that polls a sleeper either leaves it asleep or finishes it on such a reading *)
  Lemma pre_sleep_sleeper_ok : forall id t evs rd,
    t_code L C t = None -> t_sleeping L C t = true -> t_done L C t = false ->
    sleeper_ok (pre_reads L C (pre_sleep L C len clock id t evs rd))
               (pre_task L C (pre_sleep L C len clock id t evs rd)).
  Proof.
    intros id t evs rd Hc Hs Hd. unfold pre_sleep. rewrite Hs.
    destruct (clock rd <? t_wake L C t)%Z eqn:Hlt.
    - intros _. simpl. split; [intros _; exact Hs|congruence].
    - rewrite Hc. intros _. simpl. split; [discriminate|]. intros _.
      exists rd. split; [lia|]. apply Z.ltb_ge in Hlt. exact Hlt.
  Qed.

  Lemma prelude_sleeper_ok : forall ts id t rd, sleeper_ok rd t ->
    sleeper_ok (pre_reads L C (prelude ts id t rd)) (pre_task L C (prelude ts id t rd)).
  Proof.
    intros ts id t rd Htp.
    destruct (t_code L C t) as [c|] eqn:Ec.
    - (* a task with a body: sleeper_ok is vacuous before and after *)
      destruct (prelude_ok L C len clock ts id t rd) as (Hc & _). intro Hn. congruence.
    - destruct (Htp Ec) as [Hs _]. unfold prelude.
      destruct (t_done L C t) eqn:Hd; [exact Htp|]. specialize (Hs eq_refl).
      unfold pre_wait. destruct (t_wait L C t) as [w|].
      + destruct (is_done L C w ts); [apply pre_sleep_sleeper_ok; assumption|exact Htp].
      + apply pre_sleep_sleeper_ok; assumption.
  Qed.

  Lemma end_stmt_stab : forall id o l t t' sc evs,
    end_stmt L C len id o l t = (t', sc, evs) -> stab t t'.
  Proof.
    intros id o l t t' sc evs H. destruct (end_stmt_ok _ _ _ _ _ _ _ _ _ _ H) as (Hc & Hw & Hd).
    repeat split; auto. intro E. rewrite Hd, E. reflexivity.
  Qed.

  (* tasks are never removed; code and deadline never change; a finished task stays finished;
     the number of clock reads never decreases *)
  Definition evolves (s s' : state) : Prop :=
    (reads _ _ _ s <= reads _ _ _ s') /\
    (forall id t, lookup id (tasks _ _ _ s) = Some t ->
      exists t', lookup id (tasks _ _ _ s') = Some t' /\ stab t t').

  Lemma evolves_refl_tasks : forall s s', tasks _ _ _ s' = tasks _ _ _ s -> reads _ _ _ s <= reads _ _ _ s' -> evolves s s'.
  Proof. intros s s' Ht Hr. split; auto. intros id t H. exists t. rewrite Ht. split; [assumption|apply stab_refl]. Qed.

  Lemma evolves_update : forall s s' id f,
    tasks _ _ _ s' = update id f (tasks _ _ _ s) -> reads _ _ _ s <= reads _ _ _ s' ->
    (forall t, lookup id (tasks _ _ _ s) = Some t -> stab t (f t)) -> evolves s s'.
  Proof.
    intros s s' id f Ht Hr Hf. split; auto. intros id' t H. rewrite Ht, lookup_update.
    destruct (Nat.eqb id' id) eqn:E.
    - apply Nat.eqb_eq in E. subst. rewrite H. simpl. exists (f t). split; auto.
    - exists t. split; [assumption|apply stab_refl].
  Qed.

  Lemma evolves_app : forall s s' t0,
    tasks _ _ _ s' = tasks _ _ _ s ++ [t0] -> reads _ _ _ s <= reads _ _ _ s' -> evolves s s'.
  Proof.
    intros s s' t0 Ht Hr. split; auto. intros id t H. exists t. split; [|apply stab_refl].
    rewrite Ht, lookup_app. pose proof (lookup_some_range L C _ _ _ H).
    destruct (Nat.eqb id (S (length (tasks _ _ _ s)))) eqn:E; [apply Nat.eqb_eq in E; lia|assumption].
  Qed.

  Lemma begin_turn_evolves : forall s id q rest, evolves s (fst (begin_turn s id q rest)).
  Proof.
    intros s id q rest. unfold begin_turn.
    destruct (lookup id (tasks _ _ _ s)) as [t|] eqn:Elk; [|apply evolves_refl_tasks; auto].
    pose proof (prelude_ok L C len clock (tasks _ _ _ s) id t (reads _ _ _ s)) as Hp.
    pose proof (pre_ok_stab _ _ _ Hp) as Hs. apply pre_ok_reads in Hp.
    destruct (prelude (tasks _ _ _ s) id t (reads _ _ _ s)) as [sc t' ev rd|c t' ev rd];
      (eapply evolves_update; simpl; eauto); intros t0 H0; replace t0 with t by congruence; assumption.
  Qed.

  Lemma end_step_evolves : forall s id o l rest, evolves s (fst (end_step s id o l rest)).
  Proof.
    intros s id o l rest. unfold end_step.
    destruct (lookup id (tasks _ _ _ s)) as [t|] eqn:Elk; [|apply evolves_refl_tasks; auto].
    destruct (end_stmt L C len id o l t) as [[t' sc] ev] eqn:Ee.
    eapply evolves_update; simpl; eauto. intros t0 H0. replace t0 with t by congruence.
    eapply end_stmt_stab; eauto.
  Qed.

  Theorem step_evolves : forall s, evolves s (fst (step s)).
  Proof.
    apply (step_cases L G C len code clock dflt main_code (fun s r => evolves s (fst r))).
    - intros s k' _. apply evolves_refl_tasks; auto.
    - intros s id q k' _ _ _. apply evolves_refl_tasks; auto.
    - intros s id q k' b _ _. pose proof (begin_turn_evolves s id q k') as H.
      destruct (begin_turn s id q k'). exact H.
    - intros s id o l rest _. apply end_step_evolves.
    - intros s p rest _. destruct p; try exact I; simpl.
      + apply evolves_refl_tasks; auto.
      + eapply evolves_app; simpl; eauto.
      + eapply evolves_app; simpl; eauto.
      + apply evolves_refl_tasks; simpl; auto.
      + destruct (exec _ _ _ s) as [|cur ex]; [apply evolves_refl_tasks; simpl; auto|].
        eapply evolves_update; simpl; eauto. intros. repeat split; auto.
      + eapply evolves_update; simpl; eauto. intros. repeat split; auto.
      + destruct (k (glob _ _ _ s)) as [g' p']. apply evolves_refl_tasks; simpl; auto.
  Qed.

  Lemma evolves_trans : forall a b c, evolves a b -> evolves b c -> evolves a c.
  Proof.
    intros a b c [R1 H1] [R2 H2]. split; [lia|]. intros id t H.
    destruct (H1 _ _ H) as (t1 & L1 & S1). destruct (H2 _ _ L1) as (t2 & L2 & S2).
    exists t2. split; auto. eapply stab_trans; eauto.
  Qed.

  Theorem run_evolves : forall n s, evolves s (fst (run n s)).
  Proof.
    induction n; intro s; simpl.
    - apply evolves_refl_tasks; auto.
    - pose proof (step_evolves s) as H1. destruct (step s) as [s1 e1]. simpl in H1.
      pose proof (IHn s1) as H2. destruct (run n s1) as [s2 e2]. simpl in *. eapply evolves_trans; eauto.
  Qed.

  Definition SleepInv (s : state) : Prop :=
    (forall id t, lookup id (tasks _ _ _ s) = Some t -> sleeper_ok (reads _ _ _ s) t) /\
    (forall id t, In id (exec _ _ _ s) -> lookup id (tasks _ _ _ s) = Some t -> t_code L C t <> None).

  Lemma SleepInv_init : forall g0 l0, SleepInv (init L G C g0 l0).
  Proof.
    intros. split; simpl.
    - intros id t H. destruct id as [|[|k]]; discriminate.
    - intros id t [].
  Qed.

  Lemma SleepInv_weaken : forall s ex' rd' q g k,
    SleepInv s -> reads _ _ _ s <= rd' -> incl ex' (exec _ _ _ s) ->
    SleepInv (mkState L G C q (tasks _ _ _ s) ex' rd' g k).
  Proof.
    intros s ex' rd' q g k [H1 H2] Hr Hex. split; simpl.
    - intros id t Hlk. eapply sleeper_ok_mono; eauto.
    - intros id t Hin. apply H2. apply Hex. assumption.
  Qed.

  (* the record of task id changes by f: the new record satisfies sleeper_ok and keeps a body if it had
     one; id may join the executing tasks if the new record has a body *)
  Lemma SleepInv_update : forall s id f ex' rd' q g k,
    SleepInv s -> reads _ _ _ s <= rd' ->
    (forall t, lookup id (tasks _ _ _ s) = Some t -> sleeper_ok (reads _ _ _ s) t ->
       sleeper_ok rd' (f t) /\ (t_code L C t <> None -> t_code L C (f t) <> None)) ->
    (forall x, In x ex' -> In x (exec _ _ _ s) \/
       x = id /\ forall t, lookup id (tasks _ _ _ s) = Some t -> t_code L C (f t) <> None) ->
    SleepInv (mkState L G C q (update id f (tasks _ _ _ s)) ex' rd' g k).
  Proof.
    intros s id f ex' rd' q g k [H1 H2] Hr Hf Hex. split; simpl.
    - intros id' t0 H0. rewrite lookup_update in H0. destruct (Nat.eqb_spec id' id) as [->|Hne].
      + destruct (lookup id (tasks _ _ _ s)) as [t|] eqn:Hlk; inversion H0. apply Hf; eauto.
      + eapply sleeper_ok_mono; eauto.
    - intros id' t0 Hin H0. rewrite lookup_update in H0. destruct (Nat.eqb_spec id' id) as [->|Hne].
      + destruct (lookup id (tasks _ _ _ s)) as [t|] eqn:Hlk; inversion H0.
        destruct (Hex _ Hin) as [Hin'|[_ Hn]]; [|apply Hn; reflexivity]. apply Hf; eauto.
      + destruct (Hex _ Hin) as [Hin'|[Hx _]]; [eapply H2; eauto|contradiction].
  Qed.

  Lemma SleepInv_app : forall s t0 rd' q g k,
    SleepInv s -> reads _ _ _ s <= rd' -> sleeper_ok rd' t0 ->
    Inv L G C s ->
    SleepInv (mkState L G C q (tasks _ _ _ s ++ [t0]) (exec _ _ _ s) rd' g k).
  Proof.
    intros s t0 rd' q g k [H1 H2] Hr Htp (_ & _ & _ & Hlive). split; simpl.
    - intros id t H. rewrite lookup_app in H. destruct (Nat.eqb id (S (length (tasks _ _ _ s)))).
      + inversion H; subst. assumption.
      + eapply sleeper_ok_mono; eauto.
    - intros id t Hin H. rewrite lookup_app in H. destruct (Nat.eqb id (S (length (tasks _ _ _ s)))) eqn:E.
      + exfalso. apply Nat.eqb_eq in E. subst id.
        assert (Hl : live L C (tasks _ _ _ s) (S (length (tasks _ _ _ s))) = true) by (apply Hlive; apply in_app_iff; auto).
        apply live_range in Hl. lia.
      + eapply H2; eauto.
  Qed.

  Lemma begin_turn_sleepinv : forall s id q rest, SleepInv s -> SleepInv (fst (begin_turn s id q rest)).
  Proof.
    intros s id q rest HS. unfold begin_turn.
    destruct (lookup id (tasks _ _ _ s)) as [t|] eqn:Elk; [|apply SleepInv_weaken; auto using incl_refl].
    destruct (prelude_ok L C len clock (tasks _ _ _ s) id t (reads _ _ _ s)) as (Hc & _ & Hr & Hd).
    pose proof (prelude_sleeper_ok (tasks _ _ _ s) id t (reads _ _ _ s) (proj1 HS _ _ Elk)) as Ht.
    destruct (prelude (tasks _ _ _ s) id t (reads _ _ _ s)) as [sc t' ev rd|c t' ev rd]; simpl in *.
    - apply SleepInv_update; auto.
      intros t0 E _. split; [assumption|congruence].
    - destruct Hd as [_ Hcode]. apply SleepInv_update; auto.
      + intros t0 E _. split; [assumption|congruence].
      + intros x [<-|Hin]; [right; split; [reflexivity|congruence]|left; assumption].
  Qed.

  Lemma end_step_sleepinv : forall s id o l rest,
    SleepInv s -> In id (exec _ _ _ s) -> SleepInv (fst (end_step s id o l rest)).
  Proof.
    intros s id o l rest HS Hin. unfold end_step.
    assert (Htl : incl (tl (exec _ _ _ s)) (exec _ _ _ s))
      by (destruct (exec _ _ _ s); auto using incl_tl, incl_refl).
    destruct (lookup id (tasks _ _ _ s)) as [t|] eqn:Elk; [|apply SleepInv_weaken; auto].
    destruct (end_stmt L C len id o l t) as [[t' sc] ev] eqn:Ee. simpl.
    destruct (end_stmt_stab _ _ _ _ _ _ _ Ee) as (Hc & _).
    apply SleepInv_update; auto.
    (* the task was executing, so it has a body: sleeper_ok says nothing about it *)
    intros t0 E _. split; [|congruence]. intro Hn. exfalso. rewrite Hc in Hn. exact (proj2 HS _ _ Hin Elk Hn).
  Qed.

  Theorem step_sleepinv : forall s, Inv L G C s -> SleepInv s -> SleepInv (fst (step s)).
  Proof.
    apply (step_cases L G C len code clock dflt main_code
             (fun s r => Inv L G C s -> SleepInv s -> SleepInv (fst r))).
    - intros s k' _ _ HS. apply SleepInv_weaken; auto using incl_refl.
    - intros s id q k' _ _ _ _ HS. apply SleepInv_weaken; auto using incl_refl.
    - intros s id q k' b _ _ _ HS. pose proof (begin_turn_sleepinv s id q k' HS) as H.
      destruct (begin_turn s id q k'). exact H.
    - intros s id o l rest Hk (_ & Hex & _) HS. apply end_step_sleepinv; [assumption|].
      rewrite Hex, Hk. simpl. auto.
    - intros s p rest _. destruct p; try exact I; intros HI HS; simpl.
      + apply SleepInv_weaken; auto using incl_refl.
      + eapply SleepInv_app; eauto. intro Hn. discriminate.
      + eapply SleepInv_app; eauto. intros _. simpl. split; [reflexivity|discriminate].
      + apply SleepInv_weaken; auto using incl_refl.
      + destruct (exec _ _ _ s) as [|cur ex] eqn:He; [rewrite <- He; apply SleepInv_weaken; auto using incl_refl|].
        apply SleepInv_update; auto. rewrite He. auto.
      + apply SleepInv_update; auto.
        intros t _ Htp. split; [exact (sleeper_ok_mono _ _ _ (Nat.le_succ_diag_r _) Htp)|auto].
      + destruct (k (glob _ _ _ s)) as [g' p']. apply SleepInv_weaken; auto using incl_refl.
  Qed.

  Theorem reachable_sleepinv : forall s, reachable s -> SleepInv s.
  Proof.
    intros s (g0 & l0 & n & ->).
    refine (proj2 (run_invariant L G C len code clock dflt main_code (fun s => Inv L G C s /\ SleepInv s) _ n _ _)).
    - intros s [HI HS]. split; [apply step_inv|apply step_sleepinv]; assumption.
    - split; [apply Inv_init|apply SleepInv_init].
  Qed.

  Definition monotone : Prop := forall a b, a <= b -> (clock a <= clock b)%Z.

  (* a finished body-less (sleep) task: every clock reading from now on is >= its deadline *)
  Theorem no_early_wake_state_l : monotone -> forall s id t,
    reachable s -> lookup id (tasks _ _ _ s) = Some t -> t_code L C t = None -> t_done L C t = true ->
    forall r, reads _ _ _ s <= r -> (t_wake L C t <= clock r)%Z.
  Proof.
    intros Hm s id t Hr Hlk Hc Hd r Hle. apply reachable_sleepinv in Hr. destruct Hr as [H1 _].
    destruct (H1 _ _ Hlk Hc) as [_ H2]. destruct (H2 Hd) as (r0 & Hr0 & Hw).
    eapply Z.le_trans; [exact Hw|]. apply Hm. lia.
  Qed.
End Sleep.

(* The machine is a function, and the clock enters it only through the readings it takes: two clocks
   that agree on the readings a run takes under the first give the same run (same states, same
   trace).  Agreement everywhere and a run that takes no reading are the two extreme cases. *)
Section Readings.
  Variables (L G C : Type).
  Variable len : C -> nat.
  Variable code : C -> nat -> L -> prog L G C.
  Variable dflt : L.
  Variable main_code : C.
  Variables clock1 clock2 : nat -> Z.

  Notation state := (state L G C).
  Notation step1 := (step L G C len code clock1 dflt main_code).
  Notation step2 := (step L G C len code clock2 dflt main_code).
  Notation run1 := (run L G C len code clock1 dflt main_code).
  Notation run2 := (run L G C len code clock2 dflt main_code).

  (* the two clocks return the same readings at positions a .. b-1 *)
  Definition agree (a b : nat) : Prop := forall r, a <= r < b -> clock1 r = clock2 r.

  (* each stage of the prelude comes out the same under clock2 if the clocks agree on the readings it
     takes under clock1: it reads at its current position, then goes on from the next *)
  Lemma pre_timeout_local : forall id t evs rd,
    agree rd (pre_reads L C (pre_timeout L C len clock1 id t evs rd)) ->
    pre_timeout L C len clock2 id t evs rd = pre_timeout L C len clock1 id t evs rd.
  Proof.
    intros id t evs rd. unfold pre_timeout. destruct (_ && _); [|reflexivity]. intro A.
    rewrite <- (A rd); [reflexivity|]. split; [lia|].
    destruct (_ <=? _)%Z; [apply le_n|]. exact (pre_ok_reads _ _ _ _ _ (pre_body_ok L C len id t _ (S rd))).
  Qed.

  Lemma pre_sleep_local : forall id t evs rd,
    agree rd (pre_reads L C (pre_sleep L C len clock1 id t evs rd)) ->
    pre_sleep L C len clock2 id t evs rd = pre_sleep L C len clock1 id t evs rd.
  Proof.
    intros id t evs rd. unfold pre_sleep. destruct (t_sleeping L C t); [|apply pre_timeout_local]. intro A.
    assert (E : clock1 rd = clock2 rd).
    { apply A. split; [lia|]. destruct (_ <? _)%Z; [apply le_n|].
      destruct (t_code L C t); [exact (pre_ok_reads _ _ _ _ _ (pre_timeout_ok L C len clock1 id _ _ (S rd)))|apply le_n]. }
    rewrite <- E. destruct (_ <? _)%Z; [reflexivity|]. destruct (t_code L C t); [|reflexivity].
    apply pre_timeout_local. intros r Hr. apply A. lia.
  Qed.

  Lemma prelude_local : forall ts id t rd,
    agree rd (pre_reads L C (prelude L C len clock1 ts id t rd)) ->
    prelude L C len clock2 ts id t rd = prelude L C len clock1 ts id t rd.
  Proof.
    intros ts id t rd. unfold prelude, pre_wait. destruct (t_done L C t); [reflexivity|].
    destruct (t_wait L C t) as [w|]; [destruct (is_done L C w ts); [|reflexivity]|]; apply pre_sleep_local.
  Qed.

  Lemma begin_turn_local : forall s id q rest,
    agree (reads _ _ _ s) (reads _ _ _ (fst (begin_turn L G C len code clock1 s id q rest))) ->
    begin_turn L G C len code clock2 s id q rest = begin_turn L G C len code clock1 s id q rest.
  Proof.
    intros s id q rest. unfold begin_turn. destruct (lookup L C id (tasks _ _ _ s)) as [t|]; [|reflexivity].
    intro A. rewrite prelude_local; [reflexivity|]. destruct (prelude L C len clock1 _ id t _); exact A.
  Qed.

  Lemma step_prog_local : forall s p rest,
    agree (reads _ _ _ s) (reads _ _ _ (fst (step_prog L G C len clock1 dflt s p rest))) ->
    step_prog L G C len clock2 dflt s p rest = step_prog L G C len clock1 dflt s p rest.
  Proof.
    intros s p rest. destruct p; simpl; intro A; try reflexivity; rewrite <- (A (reads _ _ _ s)) by lia; reflexivity.
  Qed.

  Lemma step_same_readings : forall s, agree (reads _ _ _ s) (reads _ _ _ (fst (step1 s))) -> step2 s = step1 s.
  Proof.
    intro s. unfold step. destruct (kont _ _ _ s) as [|[] rest]; try reflexivity.
    - apply step_prog_local.
    - destruct (queue _ _ _ s) as [|id q]; [reflexivity|]. destruct (cur_is L G C s id); [reflexivity|].
      intro A. rewrite begin_turn_local; [reflexivity|]. destruct (begin_turn _ _ _ _ _ clock1 _ _ _ _); exact A.
    - destruct (queue _ _ _ s) as [|id q]; [reflexivity|].
      intro A. rewrite begin_turn_local; [reflexivity|]. destruct (begin_turn _ _ _ _ _ clock1 _ _ _ _); exact A.
  Qed.

  (* A RUN depends on the clock only through the readings it takes *)
  Theorem run_same_readings : forall n s, agree (reads _ _ _ s) (reads _ _ _ (fst (run1 n s))) -> run2 n s = run1 n s.
  Proof.
    induction n; intros s A; simpl in *; [reflexivity|].
    pose proof (proj1 (step_evolves L G C len code clock1 dflt main_code s)) as M1.
    pose proof (step_same_readings s) as S1. destruct (step1 s) as [s1 e1]. simpl in M1, S1.
    pose proof (proj1 (run_evolves L G C len code clock1 dflt main_code n s1)) as M2.
    pose proof (IHn s1) as IH. destruct (run1 n s1) as [s2 e2]. simpl in *.
    rewrite S1 by (intros r Hr; apply A; lia). rewrite IH by (intros r Hr; apply A; lia). reflexivity.
  Qed.
End Readings.

