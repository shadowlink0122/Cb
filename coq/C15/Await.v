(* C15 - the loop of run_until_complete while it is on top of the stack: which tasks are executing
   beneath it, and what it does while it waits.  (When it is entered and left: Properties_C15.v.) *)
From Coq Require Import List ZArith.
From Cb Require Import C15.Model C15.Invariants.
Import ListNotations.
Local Open Scope nat_scope.

Section Await.
  Variables (L G C : Type).
  Variable len : C -> nat.
  Variable code : C -> nat -> L -> prog L G C.
  Variable clock : nat -> Z.
  Variable dflt : L.
  Variable main_code : C.

  Notation step := (step L G C len code clock dflt main_code).
  Notation reachable := (reachable L G C len code clock dflt main_code).
  Notation lookup := (lookup L C).

  (* the chain of executing tasks is a property of the frames beneath the loop, so it is the same
     when the loop is entered and whenever the loop frame is on top again *)
  Theorem exec_is_frames_beneath_l : forall s w rest,
    reachable s -> kont _ _ _ s = FUntil _ _ _ w :: rest -> exec _ _ _ s = steps_of L G C rest.
  Proof.
    intros s w rest Hr Hk. apply reachable_inv in Hr. destruct Hr as (_ & Hex & _). rewrite Hex, Hk. reflexivity.
  Qed.

  (* while the loop waits (target unfinished, queue not empty) it does nothing but run_one_cycle *)
  Theorem await_loop_cycles_l : forall s w rest tw h q,
    kont _ _ _ s = FUntil _ _ _ w :: rest -> lookup w (tasks _ _ _ s) = Some tw ->
    t_done L C tw = false -> queue _ _ _ s = h :: q ->
    step s = (with_kont L G C s (FCycle _ _ _ :: FUntil _ _ _ w :: rest), []).
  Proof. intros s w rest tw h q Hk Hlk Hd Hq. unfold step. rewrite Hk, Hlk, Hd, Hq. reflexivity. Qed.
End Await.
