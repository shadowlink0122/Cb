(* C15 - from Body.bexec to the scheduler machine: a step of a task that reaches an iteration
   boundary ends its top-level statement with YieldException(true), and the machine then puts the
   task at the back of the ready queue (so that, by the FIFO / round-robin theorems of Fifo.v, every
   queued task gets exactly one turn before it runs again). *)
From Coq Require Import List.
From Cb Require Import C15.Model C15.Body C15.BodyLaws C15.Prog.
Import ListNotations.
Local Open Scope nat_scope.

(* [leaf p o l]: for SOME replies of the scheduler the request tree p ends with PDone o l *)
Inductive leaf : cprog -> outcome -> locals -> Prop :=
| LDone : forall o l, leaf (PDone _ _ _ o l) o l
| LOut : forall v k o l, leaf k o l -> leaf (POut _ _ _ v k) o l
| LSpawn : forall c l0 k id o l, leaf (k id) o l -> leaf (PSpawn _ _ _ c l0 k) o l
| LSleep : forall ms k id o l, leaf (k id) o l -> leaf (PSleep _ _ _ ms k) o l
| LNow : forall k t o l, leaf (k t) o l -> leaf (PNow _ _ _ k) o l
| LAwait : forall w k o l, leaf k o l -> leaf (PAwait _ _ _ w k) o l
| LTimeout : forall w ms k o l, leaf k o l -> leaf (PTimeout _ _ _ w ms k) o l
| LCycle : forall k o l, leaf k o l -> leaf (PCycle _ _ _ k) o l
| LBg : forall k o l, leaf k o l -> leaf (PBg _ _ _ k) o l
| LRunAll : forall k o l, leaf k o l -> leaf (PRunAll _ _ _ k) o l
| LGlob : forall f g o l, leaf (snd (f g)) o l -> leaf (PGlob _ _ _ f) o l.

(* what a leaf of a request tree is a leaf of, one request down *)
Lemma leaf_inv : forall p o l, leaf p o l ->
  match p with
  | PDone _ _ _ o' l' => o' = o /\ l' = l
  | POut _ _ _ _ k | PAwait _ _ _ _ k | PTimeout _ _ _ _ _ k | PCycle _ _ _ k | PBg _ _ _ k | PRunAll _ _ _ k =>
      leaf k o l
  | PSpawn _ _ _ _ _ k | PSleep _ _ _ _ k => exists id, leaf (k id) o l
  | PNow _ _ _ k => exists t, leaf (k t) o l
  | PGlob _ _ _ f => exists g, leaf (snd (f g)) o l
  end.
Proof. destruct 1; eauto. Qed.

(* goes down through the requests that are spelled out in H, as far as they are *)
Ltac inv_leaf :=
  repeat match goal with
  | H : leaf (POut _ _ _ _ _) _ _ |- _ => apply leaf_inv in H
  | H : leaf (PAwait _ _ _ _ _) _ _ |- _ => apply leaf_inv in H
  | H : leaf (PTimeout _ _ _ _ _ _) _ _ |- _ => apply leaf_inv in H
  | H : leaf (PCycle _ _ _ _) _ _ |- _ => apply leaf_inv in H
  | H : leaf (PBg _ _ _ _) _ _ |- _ => apply leaf_inv in H
  | H : leaf (PRunAll _ _ _ _) _ _ |- _ => apply leaf_inv in H
  | H : leaf (PSpawn _ _ _ _ _ _) _ _ |- _ => apply leaf_inv in H; destruct H as [? H]
  | H : leaf (PSleep _ _ _ _ _) _ _ |- _ => apply leaf_inv in H; destruct H as [? H]
  | H : leaf (PNow _ _ _ _) _ _ |- _ => apply leaf_inv in H; destruct H as [? H]
  | H : leaf (PGlob _ _ _ _) _ _ |- _ => apply leaf_inv in H; destruct H as [? H]; cbn [snd] in H
  end.

Lemma leaf_call : forall tags (p : cprog) o l',
  leaf (fold_right (fun t p => POut _ _ _ t (PCycle _ _ _ p)) p tags) o l' -> leaf p o l'.
Proof.
  induction tags as [|t tags IH]; intros p o l' H; [exact H|].
  cbn in H. inv_leaf. apply IH; assumption.
Qed.

Lemma leaf_do_simple : forall x l k o l',
  leaf (do_simple x l k) o l' -> exists l1, leaf (k l1) o l'.
Proof.
  intros x l k o l' H. destruct x; cbn [do_simple] in H;
    try (apply leaf_call in H); inv_leaf; eauto.
Qed.

Lemma leaf_do_items : forall its l k o l',
  leaf (do_items its l k) o l' -> exists l1, leaf (k l1) o l'.
Proof.
  induction its as [|it its IH]; intros l k o l' H; [cbn in H; eauto|].
  destruct it; cbn [do_items] in H.
  - apply leaf_do_simple in H. destruct H as [l1 H]. eapply IH; eauto.
  - inv_leaf. eapply IH; eauto.
  - inv_leaf. eapply IH; eauto.
  - eapply IH; eauto.
  - eapply IH; eauto.
Qed.

(* a step of a task's structured statement that reaches an iteration boundary can only end with
   YieldException(true), whatever the scheduler replies on the way *)
Lemma denote_body_boundary_yields : forall fuel (b : bstmt simple) l o l',
  has_boundary simple (fst (fst (bexec simple true fuel b (l_env l)))) = true ->
  leaf (denote_body_f fuel true b l) o l' -> o = OYield true.
Proof.
  intros fuel b l o l' Hb H. unfold denote_body_f in H.
  destruct (bexec simple true fuel b (l_env l)) as [[its r] e'] eqn:He. cbn [fst] in Hb.
  destruct (exec_good simple _ _ _ _ _ _ He) as [_ G].
  specialize (G Hb). subst r.
  apply leaf_do_items in H. destruct H as [l1 H]. cbn [out_of] in H. inversion H; subst. reflexivity.
Qed.
