(* C15 - the property theorems.  Statements are about the small-step machine of Model.v (the
   re-entrant SimpleEventLoop and the places the interpreter enters it); each is proved here from the
   invariants and laws of Invariants.v / Fifo.v / Sleep.v / Refuted.v / BodyLaws.v / LoopLaws.v.
   Every theorem quantifies over the statement semantics [code] (any program), the shared and local
   state types, and the clock; "reachable" = reachable from the start of main by machine steps. *)
From Coq Require Import List ZArith Bool Arith Lia.
From Cb Require Import C15.Model C15.Body C15.Prog C15.Invariants C15.Fifo C15.Sleep C15.Refuted
  C15.BodyLaws C15.LoopLaws.
Import ListNotations.
Local Open Scope nat_scope.

(* The interleaving is a function of the program and of the clock readings: two clocks returning the
   same readings give the same states and the same trace after any number of steps. *)
Theorem sched_deterministic :
  forall (L G C : Type) (len : C -> nat) (code : C -> nat -> L -> prog L G C) (dflt : L) (main_code : C)
         (clock1 clock2 : nat -> Z),
  (forall r, clock1 r = clock2 r) ->
  forall n s, run L G C len code clock1 dflt main_code n s = run L G C len code clock2 dflt main_code n s.
Proof.
  intros L G C len code dflt main_code clock1 clock2 H n s. symmetry.
  apply run_same_readings. intros r _. apply H.
Qed.
Print Assumptions sched_deterministic.

(* A run that never reads the clock (no sleep / timeout / now) is the same under every clock: such a
   program has exactly one interleaving. *)
Theorem untimed_schedule_independent_of_time :
  forall (L G C : Type) (len : C -> nat) (code : C -> nat -> L -> prog L G C) (dflt : L) (main_code : C)
         (clock1 clock2 : nat -> Z) n s,
  reads _ _ _ (fst (run L G C len code clock1 dflt main_code n s)) = reads _ _ _ s ->
  run L G C len code clock2 dflt main_code n s = run L G C len code clock1 dflt main_code n s.
Proof.
  intros L G C len code dflt main_code clock1 clock2 n s H.
  apply run_same_readings. intros r Hr. rewrite H in Hr. lia.
Qed.
Print Assumptions untimed_schedule_independent_of_time.

Theorem queue_nodup :
  forall (L G C : Type) len code clock (dflt : L) (main_code : C) (s : state L G C),
  reachable L G C len code clock dflt main_code s -> NoDup (queue _ _ _ s).
Proof.
  intros L G C len code clock dflt main_code s H.
  apply reachable_inv in H. destruct H as (_ & _ & Hnd & _). exact (nodup_app_l _ _ Hnd).
Qed.
Print Assumptions queue_nodup.

(* the queue holds exactly the registered, unfinished tasks that are not executing *)
Theorem queue_is_live_non_executing :
  forall (L G C : Type) len code clock (dflt : L) (main_code : C) (s : state L G C) id,
  reachable L G C len code clock dflt main_code s ->
  (In id (queue _ _ _ s) <->
   (exists t, lookup L C id (tasks _ _ _ s) = Some t /\ t_done L C t = false) /\ ~ In id (exec _ _ _ s)).
Proof.
  intros L G C len code clock dflt main_code s id H.
  apply reachable_inv in H. destruct H as (_ & _ & Hnd & Hlive). unfold live in Hlive. split.
  - intro Hin. split.
    + assert (Hl : In id (queue _ _ _ s ++ exec _ _ _ s)) by (rewrite in_app_iff; auto).
      apply Hlive in Hl. destruct (lookup L C id (tasks _ _ _ s)) as [t|]; [|discriminate].
      exists t. split; [reflexivity|]. apply negb_true_iff. assumption.
    + intro Hex. apply in_split in Hin. destruct Hin as (l1 & l2 & Hq). rewrite Hq in Hnd.
      rewrite <- app_assoc in Hnd. simpl in Hnd. apply NoDup_remove_2 in Hnd. apply Hnd.
      rewrite !in_app_iff. auto.
  - intros [(t & Hlk & Hd) Hnex].
    assert (Hin : In id (queue _ _ _ s ++ exec _ _ _ s)) by (apply Hlive; rewrite Hlk, Hd; reflexivity).
    rewrite in_app_iff in Hin. tauto.
Qed.
Print Assumptions queue_is_live_non_executing.

Theorem executing_not_in_queue :
  forall (L G C : Type) len code clock (dflt : L) (main_code : C) (s : state L G C) id,
  reachable L G C len code clock dflt main_code s -> In id (exec _ _ _ s) -> ~ In id (queue _ _ _ s).
Proof.
  intros L G C len code clock dflt main_code s id H Hex Hq.
  apply (queue_is_live_non_executing L G C len code clock dflt main_code s id H) in Hq. tauto.
Qed.
Print Assumptions executing_not_in_queue.

(* whenever run_one_cycle pops a head, the head is not the executing task: "skip" is dead code *)
Theorem skip_branch_dead :
  forall (L G C : Type) len code clock (dflt : L) (main_code : C) (s : state L G C) rest id q,
  reachable L G C len code clock dflt main_code s ->
  kont _ _ _ s = FCycle _ _ _ :: rest -> queue _ _ _ s = id :: q -> cur_is L G C s id = false.
Proof.
  intros L G C len code clock dflt main_code s rest id q H Hk Hq.
  destruct (cur_is L G C s id) eqn:Hc; [|reflexivity]. exfalso.
  unfold cur_is in Hc. destruct (exec _ _ _ s) as [|cur ex] eqn:He; [discriminate|].
  apply Nat.eqb_eq in Hc. subst cur.
  apply (executing_not_in_queue L G C len code clock dflt main_code s id H); [rewrite He|rewrite Hq]; left; reflexivity.
Qed.
Print Assumptions skip_branch_dead.

(* one step, ANY state: ids leave the queue at the front - exactly those that get a turn - and
   enter it at the back - exactly the spawned / re-queued ones *)
Theorem queue_is_fifo_step :
  forall (L G C : Type) len code clock (dflt : L) (main_code : C) (s s' : state L G C) evs,
  step L G C len code clock dflt main_code s = (s', evs) ->
  exists qr, queue _ _ _ s = turns evs ++ qr /\ queue _ _ _ s' = qr ++ pushes evs.
Proof.
  intros L G C len code clock dflt main_code s s' evs H.
  pose proof (step_fifo L G C len code clock dflt main_code s) as Hs. rewrite H in Hs. exact Hs.
Qed.
Print Assumptions queue_is_fifo_step.

(* any number of steps, ANY state: turns are served in exactly the order ids were pushed *)
Theorem fifo_law :
  forall (L G C : Type) len code clock (dflt : L) (main_code : C) n (s s' : state L G C) tr,
  run L G C len code clock dflt main_code n s = (s', tr) ->
  turns tr ++ queue _ _ _ s' = queue _ _ _ s ++ pushes tr.
Proof. exact fifo_law_l. Qed.
Print Assumptions fifo_law.

(* Between now and the next turn of a queued task x, exactly the tasks queued in front of x get a
   turn: each of them once, in queue order, nobody else, nobody twice (so a task re-queued at a yield
   or loop boundary sees every other queued task run exactly once before it runs again, and no task is
   overtaken twice). *)
Theorem round_robin :
  forall (L G C : Type) len code clock (dflt : L) (main_code : C) n (s s' : state L G C)
         pre x post tr1 b tr2,
  reachable L G C len code clock dflt main_code s ->
  queue _ _ _ s = pre ++ x :: post ->
  run L G C len code clock dflt main_code n s = (s', tr1 ++ ETurn x b :: tr2) ->
  ~ In x (turns tr1) ->
  turns tr1 = pre /\ NoDup (turns tr1) /\ ~ In x (turns tr1 ++ post).
Proof.
  intros L G C len code clock dflt main_code n s s' pre x post tr1 b tr2 Hr Hq Hrun Hfirst.
  pose proof (queue_nodup L G C len code clock dflt main_code s Hr) as Hnd. rewrite Hq in Hnd.
  assert (Hx : ~ In x (pre ++ post)) by (apply NoDup_remove_2 in Hnd; assumption).
  assert (Hpre : ~ In x pre) by (intro; apply Hx; apply in_app_iff; auto).
  assert (E : turns tr1 = pre) by (eapply round_robin_l; eauto).
  rewrite E. repeat split; auto. eapply nodup_app_l; eauto.
Qed.
Print Assumptions round_robin.

(* From the start of any program: when task b gets a turn, every task spawned before it (ids are
   handed out 1, 2, 3.. in spawn order) has already had one. *)
Theorem first_runs_in_spawn_order :
  forall (L G C : Type) len code clock (dflt : L) (main_code : C) n g0 l0 (s : state L G C) tr l1 b l2,
  run L G C len code clock dflt main_code n (init L G C g0 l0) = (s, tr) ->
  turns tr = l1 ++ b :: l2 -> forall a, 1 <= a < b -> In a l1.
Proof.
  intros L G C len code clock dflt main_code n g0 l0 s tr l1 b l2 Hrun Ht a Ha.
  pose proof (fifo_law_l L G C len code clock dflt main_code _ _ _ _ Hrun) as Hlaw. simpl in Hlaw.
  assert (Ho : ordered ([] ++ pushes tr) (length (tasks _ _ _ s))).
  { eapply run_ordered; eauto; [apply Inv_init|]. simpl. split; intros; [lia|]. destruct l3; discriminate. }
  simpl in Ho. destruct Ho as (_ & H3).
  rewrite Ht, <- app_assoc in Hlaw. simpl in Hlaw. eapply H3; eauto.
Qed.
Print Assumptions first_runs_in_spawn_order.

(* the turn of a task marked as waiting for an unfinished task: "blocked", back of the queue, and
   nothing else changes (its body is not run) *)
Theorem waiting_task_not_stepped_until_done :
  forall (L G C : Type) len code clock (dflt : L) (main_code : C) (s : state L G C) rest id q t w,
  kont _ _ _ s = FCycle _ _ _ :: rest -> queue _ _ _ s = id :: q -> cur_is L G C s id = false ->
  lookup L C id (tasks _ _ _ s) = Some t -> t_done L C t = false ->
  t_wait L C t = Some w -> is_done L C w (tasks _ _ _ s) = false ->
  step L G C len code clock dflt main_code s =
    (mkState L G C (q ++ [id]) (tasks _ _ _ s) (exec _ _ _ s) (reads _ _ _ s) (glob _ _ _ s) rest,
     [ETurn id false; EBlocked id w; ERequeue id]).
Proof.
  intros L G C len code clock dflt main_code s rest id q t w Hk Hq Hc Hlk Hd Hw Hdone.
  unfold step. rewrite Hk, Hq, Hc. unfold begin_turn. rewrite Hlk.
  unfold prelude. rewrite Hd. unfold pre_wait. rewrite Hw, Hdone. simpl.
  rewrite (update_id _ _ _ _ _ Hlk). reflexivity.
Qed.
Print Assumptions waiting_task_not_stepped_until_done.

(* ... and once the target is done the same turn unblocks it and starts its next statement *)
Theorem resumes_after_done :
  forall (L G C : Type) len code clock (dflt : L) (main_code : C) (s : state L G C) rest id q t w c,
  kont _ _ _ s = FCycle _ _ _ :: rest -> queue _ _ _ s = id :: q -> cur_is L G C s id = false ->
  lookup L C id (tasks _ _ _ s) = Some t -> t_done L C t = false ->
  t_wait L C t = Some w -> is_done L C w (tasks _ _ _ s) = true ->
  t_sleeping L C t = false -> t_has_to L C t = false ->
  t_code L C t = Some c -> t_idx L C t < len c ->
  exists ts',
  step L G C len code clock dflt main_code s =
    (mkState L G C q ts' (id :: exec _ _ _ s) (reads _ _ _ s) (glob _ _ _ s)
             (FProg _ _ _ (code c (t_idx L C t) (t_local L C t)) :: FStep _ _ _ id :: rest),
     [ETurn id false; EUnblocked id; EExec id (t_idx L C t)]) /\
  (forall t', lookup L C id ts' = Some t' -> t_wait L C t' = None).
Proof.
  intros L G C len code clock dflt main_code s rest id q t w c Hk Hq Hc Hlk Hd Hw Hdone Hs Hto Hcode Hidx.
  exists (update L C id (fun _ => set_started L C (set_wait L C None t)) (tasks _ _ _ s)). split.
  - unfold step. rewrite Hk, Hq, Hc. unfold begin_turn. rewrite Hlk.
    unfold prelude. rewrite Hd. unfold pre_wait. rewrite Hw, Hdone.
    unfold pre_sleep. simpl. rewrite Hs. unfold pre_timeout. simpl. rewrite Hto. simpl.
    unfold pre_body. simpl. rewrite Hcode. apply Nat.ltb_lt in Hidx. rewrite Hidx. reflexivity.
  - intros t' Ht'. rewrite lookup_update, Nat.eqb_refl, Hlk in Ht'. simpl in Ht'.
    inversion Ht'. reflexivity.
Qed.
Print Assumptions resumes_after_done.

(* `await` = the loop of run_until_complete(w).  When the loop is left, w is done - provided w is a
   registered task that is not suspended beneath the awaiting one (not on the chain of executing
   tasks, which is fixed while the loop runs: exec = the FStep frames beneath it). *)
Theorem await_loop_exit_means_done :
  forall (L G C : Type) len code clock (dflt : L) (main_code : C) (s : state L G C) w rest tw,
  reachable L G C len code clock dflt main_code s ->
  kont _ _ _ s = FUntil _ _ _ w :: rest ->
  lookup L C w (tasks _ _ _ s) = Some tw -> ~ In w (exec _ _ _ s) ->
  kont _ _ _ (fst (step L G C len code clock dflt main_code s)) = rest -> t_done L C tw = true.
Proof.
  intros L G C len code clock dflt main_code s w rest tw Hr Hk Hlk Hnex Hpop.
  destruct (t_done L C tw) eqn:Hd; [reflexivity|]. exfalso.
  unfold step in Hpop. rewrite Hk, Hlk, Hd in Hpop.
  destruct (queue _ _ _ s) as [|h q] eqn:Hq.
  - (* the queue is empty: an unfinished registered task is queued or executing *)
    apply reachable_inv in Hr. destruct Hr as (_ & _ & _ & Hlive).
    assert (Hin : In w (queue _ _ _ s ++ exec _ _ _ s)).
    { apply Hlive. unfold live. rewrite Hlk, Hd. reflexivity. }
    rewrite Hq in Hin. simpl in Hin. contradiction.
  - (* the loop goes on: two frames are pushed *)
    simpl in Hpop. apply (f_equal (@length _)) in Hpop. simpl in Hpop. lia.
Qed.
Print Assumptions await_loop_exit_means_done.

Theorem await_enters_loop :
  forall (L G C : Type) len code clock (dflt : L) (main_code : C) (s : state L G C) w k rest,
  kont _ _ _ s = FProg _ _ _ (PAwait _ _ _ w k) :: rest ->
  kont _ _ _ (fst (step L G C len code clock dflt main_code s)) = FUntil _ _ _ w :: FProg _ _ _ k :: rest /\
  exec _ _ _ (fst (step L G C len code clock dflt main_code s)) = exec _ _ _ s /\
  snd (step L G C len code clock dflt main_code s) = [].
Proof.
  intros L G C len code clock dflt main_code s w k rest Hk. unfold step. rewrite Hk. simpl. auto.
Qed.
Print Assumptions await_enters_loop.

(* REFUTED (known finding C15-await-target-beneath): without the side condition the law fails - a
   concrete program reaches an await loop that is left while its (registered) target is unfinished. *)
Theorem await_returns_before_completion_refuted :
  exists funs stepms n w rest tw,
    let s := nth_state funs stepms n in
    kont _ _ _ s = FUntil _ _ _ w :: rest /\
    lookup _ _ w (tasks _ _ _ s) = Some tw /\ t_done _ _ tw = false /\
    kont _ _ _ (fst (cstep funs stepms s)) = rest.
Proof.
  destruct (until_exit_undone_spec w1 5%Z _ w1_early_exit) as (w & rest & tw & H).
  exists w1, 5%Z, 18, w, rest, tw. exact H.
Qed.
Print Assumptions await_returns_before_completion_refuted.

(* REFUTED (known finding C15-await-lifo): "then resumes" / "runnable tasks keep being scheduled":
   a task whose awaited task is done is not resumed while an await loop above it on the stack still
   waits - here for a sleeper that is polled again and again. *)
Theorem finished_await_not_resumed_refuted :
  exists funs stepms n m,
    let s := nth_state funs stepms n in
    let '(s', tr) := crun funs stepms m s in
    lifo_delay s = true /\ lifo_delay s' = true /\ 3 <= asleeps tr.
Proof.
  (* witness W2 of Refuted.v: in state 27 an await loop deeper in the stack has a finished target while
     a loop above it still waits; 8 steps later this is still so, and the sleeper has been polled at
     least 3 more times *)
  exists w2, 10%Z, 27, 8. vm_compute. repeat split; try reflexivity; lia.
Qed.
Print Assumptions finished_await_not_resumed_refuted.

(* sleep(ms) reads the clock once and registers a body-less sleeping task with deadline now + ms *)
Theorem sleep_sets_deadline :
  forall (L G C : Type) len code clock (dflt : L) (main_code : C) (s : state L G C) ms k rest,
  kont _ _ _ s = FProg _ _ _ (PSleep _ _ _ ms k) :: rest ->
  let id := S (length (tasks _ _ _ s)) in
  let s' := fst (step L G C len code clock dflt main_code s) in
  lookup L C id (tasks _ _ _ s') = Some (new_task L C None dflt true true (clock (reads _ _ _ s) + ms)%Z) /\
  reads _ _ _ s' = S (reads _ _ _ s) /\ queue _ _ _ s' = queue _ _ _ s ++ [id] /\
  kont _ _ _ s' = FProg _ _ _ (k id) :: rest.
Proof.
  intros L G C len code clock dflt main_code s ms k rest Hk id s'. subst id s'. unfold step. rewrite Hk.
  unfold step_prog. cbn [fst tasks reads queue kont]. split; [|auto].
  rewrite lookup_app, Nat.eqb_refl. reflexivity.
Qed.
Print Assumptions sleep_sets_deadline.

(* SLEEPERS DO NOT BLOCK: the turn of a sleeper whose deadline is ahead of the reading only moves it
   to the back of the queue (one clock read; no task state changes, nobody else is touched), so by
   round_robin the other queued tasks keep getting their turns *)
Theorem sleepers_do_not_block :
  forall (L G C : Type) len code clock (dflt : L) (main_code : C) (s : state L G C) rest id q t,
  kont _ _ _ s = FCycle _ _ _ :: rest -> queue _ _ _ s = id :: q -> cur_is L G C s id = false ->
  lookup L C id (tasks _ _ _ s) = Some t -> t_done L C t = false -> t_wait L C t = None ->
  t_sleeping L C t = true -> (clock (reads _ _ _ s) < t_wake L C t)%Z ->
  step L G C len code clock dflt main_code s =
    (mkState L G C (q ++ [id]) (tasks _ _ _ s) (exec _ _ _ s) (S (reads _ _ _ s)) (glob _ _ _ s) rest,
     [ETurn id false; EClock (clock (reads _ _ _ s));
      EAsleep id (clock (reads _ _ _ s)) (t_wake L C t); ERequeue id]).
Proof.
  intros L G C len code clock dflt main_code s rest id q t Hk Hq Hc Hlk Hd Hw Hs Hlt.
  unfold step. rewrite Hk, Hq, Hc. unfold begin_turn. rewrite Hlk.
  unfold prelude. rewrite Hd. unfold pre_wait. rewrite Hw.
  unfold pre_sleep. rewrite Hs. apply Z.ltb_lt in Hlt. rewrite Hlt. simpl.
  rewrite (update_id _ _ _ _ _ Hlk). reflexivity.
Qed.
Print Assumptions sleepers_do_not_block.

(* ANY clock: a finished sleep task was finished on a reading >= its deadline *)
Theorem sleeper_completed_only_at_deadline :
  forall (L G C : Type) len code clock (dflt : L) (main_code : C) (s : state L G C) id t,
  reachable L G C len code clock dflt main_code s ->
  lookup L C id (tasks _ _ _ s) = Some t -> t_code L C t = None -> t_done L C t = true ->
  exists r, r < reads _ _ _ s /\ (t_wake L C t <= clock r)%Z.
Proof.
  intros L G C len code clock dflt main_code s id t Hr Hlk Hc Hd.
  apply reachable_sleepinv in Hr. destruct Hr as [H1 _]. destruct (H1 _ _ Hlk Hc) as [_ H2]. auto.
Qed.
Print Assumptions sleeper_completed_only_at_deadline.

(* NO EARLY WAKE, any monotone clock: sleep(ms) is called in a reachable state and reads t0; whenever
   its task is later found finished (that is what lets `await sleep(ms)` return:
   await_loop_exit_means_done), every clock reading from then on is >= t0 + ms *)
Theorem no_early_wake :
  forall (L G C : Type) len code clock (dflt : L) (main_code : C),
  monotone clock ->
  forall (s0 : state L G C) ms k rest n,
  reachable L G C len code clock dflt main_code s0 ->
  kont _ _ _ s0 = FProg _ _ _ (PSleep _ _ _ ms k) :: rest ->
  let id := S (length (tasks _ _ _ s0)) in
  let s := fst (run L G C len code clock dflt main_code n (fst (step L G C len code clock dflt main_code s0))) in
  is_done L C id (tasks _ _ _ s) = true ->
  forall r, reads _ _ _ s <= r -> (clock (reads _ _ _ s0) + ms <= clock r)%Z.
Proof.
  intros L G C len code clock dflt main_code Hm s0 ms k rest n Hr Hk id s Hdone r Hle.
  destruct (sleep_sets_deadline L G C len code clock dflt main_code s0 ms k rest Hk) as (Hlk & _).
  destruct (run_evolves L G C len code clock dflt main_code n (fst (step L G C len code clock dflt main_code s0)))
    as [_ Hev].
  destruct (Hev _ _ Hlk) as (t' & Hlk' & Hc & Hw & _). fold s in Hlk'. simpl in Hc, Hw.
  unfold is_done in Hdone. fold id in Hlk'. rewrite Hlk' in Hdone.
  rewrite <- Hw. eapply (no_early_wake_state_l L G C len code clock dflt main_code Hm s id t'); eauto.
  apply reachable_run. apply reachable_step. assumption.
Qed.
Print Assumptions no_early_wake.

(* tasks are never removed; body and deadline never change; a finished task stays finished; the
   number of clock reads never decreases *)
Theorem task_facts_are_stable :
  forall (L G C : Type) len code clock (dflt : L) (main_code : C) n (s : state L G C),
  evolves L G C s (fst (run L G C len code clock dflt main_code n s)).
Proof. exact run_evolves. Qed.
Print Assumptions task_facts_are_stable.

(* Body.bexec = one step of a structured statement (blocks, if, for, while, continue, break, yield,
   return, calls), as execute_for_statement / execute_while_statement / execute_compound_statement run
   and resume it; [its] = what the step does, with ghost marks IIter / IIterEnd id k for the start and
   the end of an iteration.  k = IFall (the body ran to its end) and k = IContinue are the ends that do
   not leave the loop: the loop-iteration boundaries.  The theorems quantify over the statement, the
   fuel and the environment (variables + resume positions left by ANY earlier suspensions) - EVERY
   statement: since fix a1ebdfd (finding C15-while-continue-no-suspension) the ContinueException handler
   of execute_while_statement reaches the common end of the iteration too, so no hypothesis about
   while loops whose iteration can end by `continue` is needed. *)

(* Inside a task (auto-yield mode): however the iteration ended - falling off the end of the body or
   `continue` from any depth of blocks / if branches - the boundary is the last thing the step does:
   the step ends with YieldException(true), only marks of enclosing loops follow (none of them a
   boundary) and no boundary precedes it: a task never runs two iterations in one turn.
   Exit kinds that leave the loop (break, return) or suspend inside it are not boundaries. *)
Theorem task_iteration_end_suspends :
  forall (A : Type) fuel (s : bstmt A) e its r e',
  bexec A true fuel s e = (its, r, e') ->
  forall pre id k post, its = pre ++ IIterEnd id k :: post -> boundary k = true ->
    r = RYield true /\
    Forall (fun it => exists id' k', it = IIterEnd id' k' /\ boundary k' = false) post /\
    Forall (fun it => is_boundary A it = false) pre.
Proof.
  intros A fuel s e its r e' H pre id k post Hits Hk.
  destruct (exec_good A _ _ _ _ _ _ H) as [G1 G2]. subst its.
  destruct (susp_ok_split A _ _ _ G1 Hk) as [S1 S2].
  split; [|split].
  - apply G2. rewrite has_boundary_app. cbn. rewrite Hk. apply orb_true_r.
  - apply Forall_forall. intros it Hin.
    rewrite forallb_forall in S2. specialize (S2 _ Hin).
    destruct it as [x| | |lp|id' k']; cbn in S2; try discriminate. exists id', k'. split; [reflexivity|].
    apply negb_true_iff in S2. exact S2.
  - apply Forall_forall. intros it Hin.
    destruct (is_boundary A it) eqn:E; [|reflexivity].
    assert (existsb (is_boundary A) pre = true) by (apply existsb_exists; exists it; split; assumption).
    unfold has_boundary in S1. congruence.
Qed.
Print Assumptions task_iteration_end_suspends.

(* Outside a task (main, a plain function called by main): every boundary is immediately followed by
   run_background_tasks_one_cycle. *)
Theorem main_iteration_end_runs_background :
  forall (A : Type) fuel (s : bstmt A) e its r e',
  bexec A false fuel s e = (its, r, e') ->
  forall pre id k post, its = pre ++ IIterEnd id k :: post -> boundary k = true ->
    exists post', post = IBg :: post'.
Proof.
  intros A fuel s e its r e' H pre id k post Hits Hk. subst its.
  apply (bg_ok_split A pre (IIterEnd id k)); [|exact Hk]. exact (shape_bg A _ _ (exec_shape A _ _ _ _ _ _ _ H)).
Qed.
Print Assumptions main_iteration_end_runs_background.

(* the request tree the machine runs for such a step: whatever the scheduler replies, a step that
   reaches a boundary ends its statement with YieldException(true) *)
Theorem boundary_step_ends_with_loop_yield :
  forall (b : bstmt simple) l o l',
  has_boundary simple (fst (fst (bexec simple true body_fuel b (l_env l)))) = true ->
  leaf (denote true (SBody b) l) o l' -> o = OYield true.
Proof. intros b l o l'. exact (denote_body_boundary_yields body_fuel b l o l'). Qed.
Print Assumptions boundary_step_ends_with_loop_yield.

(* ... and the machine ends the turn: the task keeps its statement index, leaves the executing chain
   and is appended at the BACK of the ready queue; with [round_robin] every queued task gets exactly
   one turn before it runs its next iteration *)
Theorem loop_yield_requeues_at_back :
  forall (L G C : Type) (len : C -> nat) (code : C -> nat -> L -> prog L G C) (clock : nat -> Z)
         (dflt : L) (main_code : C) (s : state L G C) l id rest t,
  kont _ _ _ s = FProg _ _ _ (PDone _ _ _ (OYield true) l) :: FStep _ _ _ id :: rest ->
  lookup _ _ id (tasks _ _ _ s) = Some t ->
  step L G C len code clock dflt main_code s =
    (mkState _ _ _ (queue _ _ _ s ++ [id])
             (update _ _ id (fun _ => set_pos _ _ l (t_idx _ _ t) t) (tasks _ _ _ s))
             (tl (exec _ _ _ s)) (reads _ _ _ s) (glob _ _ _ s) rest,
     [EYield id true (t_idx _ _ t); ERequeue id]).
Proof.
  intros L G C len code clock dflt main_code s l id rest t Hk Hl.
  unfold step. rewrite Hk. cbn [step_prog]. unfold end_step. rewrite Hl. reflexivity.
Qed.
Print Assumptions loop_yield_requeues_at_back.

(* two tasks with two yields each, started by main and awaited: the model's turn order *)
Example two_workers_alternate :
  let w := [SSimple (XPrint 100); SYield; SSimple (XPrint 101); SYield; SSimple (XPrint 102); SReturn] in
  let funs := [[SSimple (XSpawn 1 0); SSimple (XSpawn 1 1); SSimple (XPrint 1); SSimple (XPrint 2);
                SSimple (XAwait 0); SSimple (XPrint 3); SSimple (XAwait 1); SSimple (XPrint 4)]; w] in
  turns (snd (crun funs 10 200 cinit)) = [1; 1; 2; 1; 2; 1; 2; 1; 2; 1; 2; 2].
Proof. vm_compute. reflexivity. Qed.

(* the hypotheses of sleepers_do_not_block / no_early_wake are met by a run of a sleeping program *)
Example sleeper_is_polled_then_completed :
  let funs := [[SSimple (XSpawn 1 0); SSimple (XAwait 0)]; [SSimple (XSleep 20); SReturn]] in
  let tr := snd (crun funs 10 60 cinit) in
  asleeps tr = 1 /\ In (EWoke 2 1000030 1000030) tr /\ In (EComplete 1) tr.
Proof. vm_compute. repeat split; auto 30. Qed.

(* a for loop in a task whose every iteration ends by `continue` from inside an if and a nested block:
   three turns print one line each, every turn ends at the boundary (hypotheses of
   task_iteration_end_suspends / boundary_step_ends_with_loop_yield are met) *)
Example continue_loop_suspends_every_iteration :
  let body := BBlock 2 [BSimple (XPrint 7); BIf (CLt 0 9) (BBlock 3 [BBlock 4 [BContinue]]) None; BSimple (XPrint 8)] in
  let lp : bstmt simple := BFor 1 0 3 body in
  has_boundary simple (fst (fst (bexec simple true body_fuel lp env0))) = true /\
  (let funs := [[SSimple (XSpawn 1 0); SSimple (XAwait 0)]; [SBody lp; SReturn]] in
   filter (fun ev => match ev with EOut _ | EYield _ _ _ => true | _ => false end) (snd (crun funs 5 200 cinit))
   = [EOut 7; EYield 1 true 0; EOut 7; EYield 1 true 0; EOut 7; EYield 1 true 0]).
Proof. vm_compute. repeat split; reflexivity. Qed.

(* the same for a WHILE loop whose every iteration ends by `continue` (the program shape of the repaired
   finding C15-while-continue-no-suspension): one line per turn, every turn ends with a loop yield *)
Example while_continue_loop_suspends_every_iteration :
  let body := BBlock 2 [BInc 0; BSimple (XPrint 7); BContinue] in
  let lp : bstmt simple := BWhile 1 (CLt 0 3) body in
  has_boundary simple (fst (fst (bexec simple true body_fuel lp env0))) = true /\
  (let funs := [[SSimple (XSpawn 1 0); SSimple (XAwait 0)]; [SBody lp; SReturn]] in
   filter (fun ev => match ev with EOut _ | EYield _ _ _ => true | _ => false end) (snd (crun funs 5 200 cinit))
   = [EOut 7; EYield 1 true 0; EOut 7; EYield 1 true 0; EOut 7; EYield 1 true 0]).
Proof. vm_compute. repeat split; reflexivity. Qed.
