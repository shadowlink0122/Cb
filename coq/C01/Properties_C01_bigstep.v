(* C01 - "the documented C-like semantics" as two artefacts that must agree: the inference rules of
   [Lang.BigStep] (written from docs/spec.md and the property texts; no fuel, no monad) and the executable
   reference interpreter [Lang.Sem.eval/exec] / [Lang.Print.run] (the one compared with the implementation).
   The agreement of the two on expressions, statements and statement lists is proved in Lang/BigStepEquiv.v; here it is
   carried over to whole programs ([bmeans] against [run]). *)
From Coq Require Import List ZArith.
From Cb Require Import Lang.Syntax Lang.Sem Lang.Print Lang.BigStep Lang.BigStepEquiv.
Import ListNotations.
Local Open Scope Z_scope.

(* whatever transcript and outcome the interpreter computes without running out of fuel is what the rules say
   the program means *)
Theorem run_sound : forall n p out oc,
  run n p = (out, oc) -> oc <> Failed ENoFuel -> bmeans p out oc.
Proof.
  unfold run, bmeans. intros n p out oc. destruct (init_state p) as [s0|].
  - destruct (exec_list (exec (pfuncs p) n) (pmain p) s0) as [c s] eqn:E. intros [= <- <-] N.
    exists c, s. repeat split. eapply exec_list_sound; [exact E|].
    intros ->. apply N. reflexivity.
  - intros [= <- <-] _. split; reflexivity.
Qed.
Print Assumptions run_sound.

(* whatever the rules say a program means is computed by the interpreter for every sufficiently large fuel *)
Theorem run_complete_every_larger_fuel : forall p out oc,
  bmeans p out oc -> exists n, forall m, (n <= m)%nat -> run m p = (out, oc).
Proof.
  unfold run, bmeans. intros p out oc. destruct (init_state p) as [s0|].
  - intros (c & s & H & -> & ->). destruct (bexecs_complete_strong _ _ _ _ _ H) as [n Hn].
    exists n. intros m L. rewrite (Hn m L). reflexivity.
  - intros [-> ->]. exists O. reflexivity.
Qed.
Print Assumptions run_complete_every_larger_fuel.

Theorem run_complete : forall p out oc, bmeans p out oc -> exists n, run n p = (out, oc).
Proof. intros p out oc H. exact (ev_now _ (run_complete_every_larger_fuel _ _ _ H)). Qed.
Print Assumptions run_complete.

(* both directions in one statement: the rules and the interpreter define the same meaning of programs *)
Theorem run_sound_complete : forall p out oc,
  bmeans p out oc <-> exists n, run n p = (out, oc) /\ oc <> Failed ENoFuel.
Proof.
  intros p out oc. split.
  - intros H. destruct (run_complete _ _ _ H) as [n Hn]. exists n. split; [exact Hn|].
    exact (bmeans_never_out_of_fuel _ _ _ H).
  - intros (n & Hn & N). exact (run_sound _ _ _ _ Hn N).
Qed.
Print Assumptions run_sound_complete.

(* the same at the level of single expressions and statements, for every function table and start state *)
Theorem eval_sound_complete : forall funcs,
  (forall e s c s', beval funcs e s c s' <-> exists n, eval funcs n e s = (c, s') /\ c <> Fail ENoFuel) /\
  (forall st s c s', bexec funcs st s c s' <-> exists n, exec funcs n st s = (c, s') /\ c <> Fail ENoFuel).
Proof.
  intros funcs. split; intros x s c s'; split.
  - intros H. destruct (beval_complete _ _ _ _ _ H) as [n Hn]. exists n. split; [exact Hn|].
    exact (proj1 (BigStepEquiv.bigstep_never_out_of_fuel funcs) _ _ _ _ H).
  - intros (n & Hn & N). exact (proj1 (exec_sound funcs n) _ _ _ _ Hn N).
  - intros H. destruct (bexec_complete _ _ _ _ _ H) as [n Hn]. exists n. split; [exact Hn|].
    exact (proj1 (proj2 (BigStepEquiv.bigstep_never_out_of_fuel funcs)) _ _ _ _ H).
  - intros (n & Hn & N). exact (proj2 (exec_sound funcs n) _ _ _ _ Hn N).
Qed.
Print Assumptions eval_sound_complete.

(* the rules determine at most one outcome and final state (expressions, statements) and at most one
   transcript and exit status (programs) *)
Theorem bigstep_deterministic :
  (forall funcs e s c1 s1 c2 s2, beval funcs e s c1 s1 -> beval funcs e s c2 s2 -> c1 = c2 /\ s1 = s2) /\
  (forall funcs st s c1 s1 c2 s2, bexec funcs st s c1 s1 -> bexec funcs st s c2 s2 -> c1 = c2 /\ s1 = s2) /\
  (forall p o1 c1 o2 c2, bmeans p o1 c1 -> bmeans p o2 c2 -> o1 = o2 /\ c1 = c2).
Proof. exact (conj beval_deterministic (conj bexec_deterministic bmeans_deterministic)). Qed.
Print Assumptions bigstep_deterministic.

(* no rule concludes "out of fuel": a program without a finite derivation simply has no meaning *)
Theorem bigstep_never_out_of_fuel : forall funcs,
  (forall e s c s', beval funcs e s c s' -> c <> Fail ENoFuel) /\
  (forall st s c s', bexec funcs st s c s' -> c <> Fail ENoFuel) /\
  (forall ss s c s', bexecs funcs ss s c s' -> c <> Fail ENoFuel).
Proof. exact BigStepEquiv.bigstep_never_out_of_fuel. Qed.
Print Assumptions bigstep_never_out_of_fuel.

(* non-vacuity: the sample programs of Properties_C01.v have a derivation - obtained through [run_sound] from
   a computed run - with exactly the computed transcript and outcome; a for loop with `continue`, then a
   division by zero inside println ... *)
Example sample_run_has_derivation :
  let p := {| pglobals := []; pfuncs := [];
              pmain := [ SFor [SDecl false false {| base := TInt; uns := false |} 1%nat (Some (ENum 0))]
                              (EBin Lt (EVar 1%nat) (ENum 3)) [SIncDec false true (LVar 1%nat)]
                              [ SIf (EBin Eq (EVar 1%nat) (ENum 1)) [SContinue] []; SPrint true [EVar 1%nat] ];
                         SPrint true [EBin Div (ENum 1) (ENum 0)];
                         SPrint true [ENum 9] ] |} in
  bmeans p [OInt 0; ONl; OInt 2; ONl] (Failed EDiv0).
Proof. intros p. apply (run_sound 100). - vm_compute. reflexivity. - discriminate. Qed.

(* ... and struct declaration, member stores, whole-struct copy, then an out-of-bounds member read *)
Example sample_struct_run_has_derivation :
  let tl := {| base := TLong; uns := false |} in
  let fl := [ {| fty := tl; fdims := [] |}; {| fty := tl; fdims := [2%nat] |} ] in
  let p := {| pglobals := []; pfuncs := [];
              pmain := [ SStruct 1%nat 2%nat fl; SStruct 1%nat 3%nat fl;
                         SAssign (LVar (mkey 2%nat 0%nat)) None (ENum 5); SAssign (LIdx (mkey 2%nat 1%nat) [ENum 1]) None (ENum 7);
                         SCopy 3%nat 2%nat fl;
                         SAssign (LVar (mkey 2%nat 0%nat)) None (ENum 100);
                         SPrint true [EVar (mkey 3%nat 0%nat); EIdx (mkey 3%nat 1%nat) [ENum 1]; EVar (mkey 2%nat 0%nat); EIdx (mkey 3%nat 1%nat) [ENum 0]];
                         SPrint true [EIdx (mkey 3%nat 1%nat) [ENum 2]] ] |} in
  bmeans p [OInt 5; OSp; OInt 7; OSp; OInt 100; OSp; OInt 0; ONl] (Failed EBounds).
Proof. intros tl fl p. apply (run_sound 100). - vm_compute. reflexivity. - discriminate. Qed.

(* a recursive function with a default argument, a static counter and a short-circuit guard; the derivation
   exists and, by determinism, its transcript is the only one the rules allow *)
Example sample_call_run_is_the_meaning :
  let ti := {| base := TInt; uns := false |} in
  let f := {| fname := 1%nat; fret := Some ti;
              fparams := [ {| pty := ti; pname := 1%nat; pdef := None |}; {| pty := ti; pname := 2%nat; pdef := Some (ENum 1) |} ];
              fbody := [ SDecl false true ti 3%nat (Some (ENum 0)); SIncDec false true (LVar 3%nat);
                         SIf (EAnd (EBin Ne (EVar 1%nat) (ENum 0)) (EBin Gt (EBin Div (ENum 6) (EVar 1%nat)) (ENum 0)))
                             [ SReturn (Some (ECall 1%nat [EBin Sub (EVar 1%nat) (ENum 1); EBin Mul (EVar 2%nat) (EVar 1%nat)])) ] [];
                         SPrint true [EVar 3%nat];
                         SReturn (Some (EVar 2%nat)) ] |} in
  let p := {| pglobals := []; pfuncs := [f]; pmain := [ SPrint true [ECall 1%nat [ENum 4]] ] |} in
  bmeans p [OInt 5; ONl; OInt 24; ONl] Finished /\
  (forall out oc, bmeans p out oc -> out = [OInt 5; ONl; OInt 24; ONl] /\ oc = Finished).
Proof.
  intros ti f p.
  assert (H : bmeans p [OInt 5; ONl; OInt 24; ONl] Finished).
  { apply (run_sound 100). - vm_compute. reflexivity. - discriminate. }
  split; [exact H|]. intros out oc H2. exact (proj2 (proj2 bigstep_deterministic) p _ _ _ _ H2 H).
Qed.
