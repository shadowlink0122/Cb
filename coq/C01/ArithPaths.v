(* C01 - Mech: the two arithmetic paths of the implementation.
   [eval_i64]: ExpressionHelpers::evaluate_arithmetic_binary / evaluate_bitwise_binary / evaluate_comparison_binary
     (helpers.cpp) - int64_t arithmetic as the code computes it since fixes 7af444c / 4ed6b21 / 57fff8e: + - * wrap
     around (computed in uint64_t), truncating / and %, INT64_MIN / -1 is reported, x % -1 = 0, shift counts are taken
     modulo 64, << shifts the unsigned representation, >> is arithmetic.  This closed form is not a hand-written
     model only: C01/HelpersGen.v proves that the definitions GENERATED from the C++ text by translators/cxx_pure.py
     (C01/Gen_Helpers.v, semantics Cxx/Cxx.v) compute exactly [eval_i64] (theorem helpers_wraparound of Properties_C01_helpers.v).
   [eval_ld] : BinaryUnaryTypedHelpers::evaluate_binary_op_typed (binary_unary.cpp) - operands
     converted to x87 long double (64-bit significand), + - * computed there (one rounding to
     nearest-even), result cast back to int64_t (an out-of-range cast yields INT64_MIN on x86);
     / % and the bitwise operators work on the integer views.
   Theorem: whenever the exact result fits int64 both paths return exactly it. *)
From Coq Require Import ZArith Bool Lia.
From Cb Require Import Lang.Syntax Lang.Sem.
Local Open Scope Z_scope.

Inductive mres := MVal (z : Z) | MDiv0 | MOvf | MUB.
(* MDiv0: "Division by zero" / "Modulo by zero" is reported; MOvf: "Arithmetic overflow in division" is reported;
   MUB: undefined behaviour in the C++ (neither path produces it any more) *)

Definition wrap64 (z : Z) : Z := (z + 2 ^ 63) mod 2 ^ 64 - 2 ^ 63.

Definition eval_i64 (o : binop) (a b : Z) : mres :=
  match o with
  | Add => MVal (wrap64 (a + b)) | Sub => MVal (wrap64 (a - b)) | Mul => MVal (wrap64 (a * b))
  | Div => if b =? 0 then MDiv0 else if (a =? int64_min) && (b =? -1) then MOvf else MVal (Z.quot a b)
  | Mod => if b =? 0 then MDiv0 else if b =? -1 then MVal 0 else MVal (Z.rem a b)
  | BAnd => MVal (Z.land a b) | BOr => MVal (Z.lor a b) | BXor => MVal (Z.lxor a b)
  | Shl => MVal (wrap64 (a * 2 ^ (b mod 64)))
  | Shr => MVal (Z.shiftr a (b mod 64))
  | Lt => MVal (b2z (a <? b)) | Le => MVal (b2z (a <=? b)) | Gt => MVal (b2z (b <? a)) | Ge => MVal (b2z (b <=? a))
  | Eq => MVal (b2z (a =? b)) | Ne => MVal (b2z (negb (a =? b)))
  end.

(* round an integer to a 64-bit significand, ties to even *)
Definition ld_round (z : Z) : Z :=
  if Z.abs z <? 2 ^ 64 then z else
  let e := Z.log2 (Z.abs z) - 63 in
  let m := Z.abs z in
  let q := m / 2 ^ e in
  let r := m mod 2 ^ e in
  let half := 2 ^ (e - 1) in
  let q' := if r <? half then q else if half <? r then q + 1 else if Z.even q then q else q + 1 in
  Z.sgn z * (q' * 2 ^ e).
Definition cast64 (z : Z) : Z := if in64 z then z else int64_min.

Definition eval_ld (o : binop) (a b : Z) : mres :=
  match o with
  | Add => MVal (cast64 (ld_round (a + b)))
  | Sub => MVal (cast64 (ld_round (a - b)))
  | Mul => MVal (cast64 (ld_round (a * b)))
  | _ => eval_i64 o a b
  end.

Lemma wrap64_id z : in64 z = true -> wrap64 z = z.
Proof.
  unfold in64, int64_min, int64_max, wrap64. intros H. apply andb_true_iff in H as [H1 H2].
  apply Z.leb_le in H1, H2. rewrite Z.mod_small; lia.
Qed.
Lemma ld_round_id z : in64 z = true -> ld_round z = z.
Proof.
  unfold in64, int64_min, int64_max, ld_round. intros H. apply andb_true_iff in H as [H1 H2].
  apply Z.leb_le in H1, H2. destruct (Z.abs z <? 2 ^ 64) eqn:E; [reflexivity|].
  apply Z.ltb_ge in E. lia.
Qed.
Lemma cast64_id z : in64 z = true -> cast64 z = z.
Proof. unfold cast64. intros ->. reflexivity. Qed.

Lemma chk_val z r : chk z = Val r -> in64 z = true /\ r = z.
Proof. unfold chk. destruct (in64 z); [intros [= <-]; auto|discriminate]. Qed.

Lemma arith_paths_agree_l o a b r : arith o a b = Val r -> eval_i64 o a b = MVal r /\ eval_ld o a b = MVal r.
Proof.
  destruct o; cbn [arith eval_i64 eval_ld]; intros H;
    try (apply chk_val in H as [Hin ->]; rewrite ?wrap64_id, ?ld_round_id, ?cast64_id by assumption; split; reflexivity);
    try (injection H as <-; split; reflexivity).
  - (* Div *) destruct (b =? 0); [discriminate|]. apply chk_val in H as [Hin ->].
    destruct ((a =? int64_min) && (b =? -1)) eqn:E; [|split; reflexivity].
    apply andb_true_iff in E as [E1 E2]. apply Z.eqb_eq in E1, E2. subst. vm_compute in Hin. discriminate.
  - (* Mod *) destruct (b =? 0); [discriminate|]. destruct ((a =? int64_min) && (b =? -1)); [discriminate|].
    injection H as <-. destruct (b =? -1) eqn:E; [|split; reflexivity].
    apply Z.eqb_eq in E. subst b. change (-1) with (- (1)). rewrite Z.rem_opp_r, Z.rem_1_r by discriminate. split; reflexivity.
  - (* Shl *) destruct ((0 <=? b) && (b <? 64)) eqn:E; [|discriminate].
    apply andb_true_iff in E as [E1 E2]. apply Z.leb_le in E1. apply Z.ltb_lt in E2. rewrite Z.mod_small by lia.
    apply chk_val in H as [Hin ->]. rewrite wrap64_id by assumption. split; reflexivity.
  - (* Shr *) destruct ((0 <=? b) && (b <? 64)) eqn:E; [|discriminate].
    apply andb_true_iff in E as [E1 E2]. apply Z.leb_le in E1. apply Z.ltb_lt in E2. rewrite Z.mod_small by lia.
    injection H as <-. split; reflexivity.
Qed.

(* only / and % report a zero divisor, and there the reference and both paths test `b =? 0` first *)
Lemma div0_iff o a b : arith o a b = Fail EDiv0 <-> eval_i64 o a b = MDiv0.
Proof.
  destruct o; cbn [arith eval_i64]; unfold chk;
    repeat match goal with |- context [if ?c then _ else _] => destruct c end;
    split; intros H; (discriminate H || reflexivity).
Qed.

(* the typed path is NOT exact outside int64: 2^63 + 2^63 is cast to INT64_MIN, the wrap-around path
   gives 0 - the two paths differ on overflowing operands (such programs are not well-formed) *)
Lemma paths_differ_on_overflow :
  eval_i64 Add int64_min int64_min = MVal 0 /\ eval_ld Add int64_min int64_min = MVal int64_min.
Proof. vm_compute. split; reflexivity. Qed.
