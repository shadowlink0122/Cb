(* C01 - plain structs in the reference semantics (Lang): a struct variable is the group of its member
   cells [mkey x j].  A whole-struct copy MEANS the member-by-member, cell-by-cell assignments
   `v<x>.m<j>[i..] = v<y>.m<j>[i..]` ([copy_stmts]); this file proves that for the cells of one member and for the
   members of one struct.  The theorems about the encoding (distinct members are distinct cells, disjoint from the plain
   variables; a store to one member never shows through any other) are in Properties_C01.v. *)
From Coq Require Import List ZArith.
From Cb Require Import Lang.Syntax Lang.Sem Lang.Theorems C01.CoreLemmas.
Import ListNotations.
Local Open Scope Z_scope.

Definition cell_assign (dst src : ident) (i : list Z) : stmt :=
  SAssign (LIdx dst (map ENum i)) None (EIdx src (map ENum i)).
Fixpoint copy_stmts (x y : ident) (j : nat) (flds : list fld) : list stmt :=
  match flds with
  | [] => []
  | f :: r => map (cell_assign (mkey x j) (mkey y j)) (all_idx (fdims f)) ++ copy_stmts x y (S j) r
  end.

Lemma cell_assign_eq funcs k dst src i :
  exec funcs (S (S (S k))) (cell_assign dst src i) = (v <- m_read src i ;; m_write dst i v).
Proof.
  unfold cell_assign. rewrite exec_S_assign, eval_S_idx, lval_idx_eq, !eval_list_nums. reflexivity.
Qed.

Lemma copy_cells_desugar funcs k dst src idxs s :
  copy_cells dst src idxs s = exec_list (exec funcs (S (S (S k)))) (map (cell_assign dst src) idxs) s.
Proof.
  revert s. induction idxs as [|i r IH]; intros s; [reflexivity|].
  cbn [copy_cells map exec_list]. rewrite cell_assign_eq.
  unfold bind. destruct (m_read src i s) as [c s1]. destruct c; try reflexivity.
  destruct (m_write dst i a s1) as [c2 s2]. destruct c2; try reflexivity. apply IH.
Qed.

Lemma copy_members_desugar funcs k x y flds : forall j s,
  copy_members x y j flds s = exec_list (exec funcs (S (S (S k)))) (copy_stmts x y j flds) s.
Proof.
  induction flds as [|f r IH]; intros j s; [reflexivity|].
  cbn [copy_members copy_stmts]. rewrite exec_list_app. unfold bind.
  rewrite (copy_cells_desugar funcs k). destruct (exec_list _ (map _ _) s) as [c s1]. destruct c; try reflexivity. apply IH.
Qed.

Lemma pad_nil_nth n k : nth k (pad n []) 0 = 0.
Proof. revert k. induction n as [|n IH]; intros k; cbn [pad]; destruct k; try reflexivity. apply IH. Qed.

(* a cell declared without initial values reads 0 at every index inside its shape and is a bounds error outside:
   the declaration puts the all-zero entry where [get_entry] looks first, in the global table or the innermost scope *)
Lemma fresh_cell_read t c dims idx s s' : m_declare false false t c dims [] s = (Val tt, s') ->
  fst (m_read c idx s') = match flat_index dims idx 0 with Some _ => Val 0 | None => Fail EBounds end.
Proof.
  unfold m_declare. cbn [coerce_all]. intros H.
  assert (E : get_entry c s' = Some {| ety := t; econst := false; edims := dims; evals := pad (size_of dims) [] |}).
  { unfold get_entry. destruct (sframes s) as [|f fr]; [|destruct (fscopes f); [discriminate|]]; injection H as <-;
      cbn [sframes sglob fscopes scopes_get assoc]; rewrite Nat.eqb_refl; reflexivity. }
  unfold m_read. rewrite E. cbn [edims evals]. destruct (flat_index dims idx 0); [|reflexivity].
  cbn [fst]. rewrite pad_nil_nth. reflexivity.
Qed.
