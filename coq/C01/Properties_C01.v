(* C01 - the property theorems (lemmas in Lang/*.v, C01/ArithPaths.v, C01/CoreLemmas.v, C01/Structs.v, C04/StoreLaws.v).
   Ref = the fuelled reference interpreter [Lang.Sem.eval/exec] and [Lang.Print.run]. *)
From Coq Require Import List ZArith Lia.
From Cb Require Import Lang.Syntax Lang.Sem Lang.Respect Lang.Theorems Lang.Print Lang.FuelMono C04.StoreLaws
  C01.ArithPaths C01.CoreLemmas C01.Structs.
Import ListNotations.
Local Open Scope Z_scope.

(* the interpreter is a function: same program, same fuel, same transcript *)
Theorem run_deterministic : forall fuel p r1 r2, run fuel p = r1 -> run fuel p = r2 -> r1 = r2.
Proof. congruence. Qed.
Print Assumptions run_deterministic.

(* fuel is only a termination device: once a run ends without exhausting it, any larger fuel gives
   exactly the same transcript and outcome - the meaning of a program does not depend on the fuel *)
Theorem run_fuel_independent : forall n m p out oc, (n <= m)%nat ->
  run n p = (out, oc) -> oc <> Failed ENoFuel -> run m p = (out, oc).
Proof.
  intros n m p out oc Hnm H Hoc. unfold run in *. destruct (init_state p) as [s0|]; [|exact H].
  destruct (exec_list (exec (pfuncs p) n) (pmain p) s0) as [c s] eqn:E.
  injection H as <- <-.
  assert (Nc : ~ nofuel c).
  { intros N. unfold nofuel in N. subst c. apply Hoc. reflexivity. }
  pose proof (le_exec_list _ _ (proj2 (fuel_monotone (pfuncs p) n m Hnm)) (pmain p) s0 c s E Nc) as E2.
  rewrite E2. reflexivity.
Qed.
Print Assumptions run_fuel_independent.

Theorem run_meaning_unique : forall n m p o1 c1 o2 c2,
  run n p = (o1, c1) -> run m p = (o2, c2) -> c1 <> Failed ENoFuel -> c2 <> Failed ENoFuel -> o1 = o2 /\ c1 = c2.
Proof.
  intros n m p o1 c1 o2 c2 H1 H2 N1 N2. destruct (Nat.le_ge_cases n m) as [L|L].
  - rewrite (run_fuel_independent n m p o1 c1 L H1 N1) in H2. injection H2 as <- <-. auto.
  - rewrite (run_fuel_independent m n p o2 c2 L H2 N2) in H1. injection H1 as <- <-. auto.
Qed.
Print Assumptions run_meaning_unique.

Theorem evaluation_fuel_monotone : forall funcs n m, (n <= m)%nat ->
  (forall e, le_m (eval funcs n e) (eval funcs m e)) /\ (forall s, le_m (exec funcs n s) (exec funcs m s)).
Proof. exact fuel_monotone. Qed.
Print Assumptions evaluation_fuel_monotone.

(* For every function table, fuel, expression / statement and start state: the output after the
   evaluation extends the output before it - nothing already delivered is ever taken back. *)
Theorem output_monotone : forall funcs n,
  (forall e, respects out_ext (eval funcs n e)) /\ (forall st, respects out_ext (exec funcs n st)).
Proof. exact output_monotone_l. Qed.
Print Assumptions output_monotone.

(* A runtime error ends the run at the failing statement: whatever follows it in the program
   contributes nothing (same final state, hence same transcript), and the outcome is the error. *)
Theorem error_cuts_output : forall ex ss1 ss2 s e s',
  exec_list ex ss1 s = (Fail e, s') -> exec_list ex (ss1 ++ ss2) s = (Fail e, s').
Proof. exact error_cuts_run. Qed.
Print Assumptions error_cuts_output.

Theorem div_truncates : forall a b q, arith Div a b = Val q -> b <> 0 /\ q = Z.quot a b /\ a = b * q + Z.rem a b.
Proof. exact Theorems.div_truncates. Qed.
Print Assumptions div_truncates.

Theorem rem_sign_of_dividend : forall a b r, arith Mod a b = Val r ->
  b <> 0 /\ r = Z.rem a b /\ Z.abs r < Z.abs b /\ (r = 0 \/ Z.sgn r = Z.sgn a).
Proof. exact Theorems.rem_sign_of_dividend. Qed.
Print Assumptions rem_sign_of_dividend.

Theorem shr_arithmetic : forall a n r, arith Shr a n = Val r -> 0 <= n < 64 /\ r = a / 2 ^ n.
Proof. exact Theorems.shr_arithmetic. Qed.
Print Assumptions shr_arithmetic.

Theorem division_by_zero_is_error : forall a, arith Div a 0 = Fail EDiv0 /\ arith Mod a 0 = Fail EDiv0.
Proof. split; reflexivity. Qed.
Print Assumptions division_by_zero_is_error.

(* both evaluators of the implementation (wrap-around int64 path, long-double typed path) return
   exactly the mathematically exact result whenever that result fits 64 bits *)
Theorem arith_paths_agree : forall o a b r,
  arith o a b = Val r -> eval_i64 o a b = MVal r /\ eval_ld o a b = MVal r.
Proof. exact arith_paths_agree_l. Qed.
Print Assumptions arith_paths_agree.

Theorem div0_paths_agree : forall o a b,
  arith o a b = Fail EDiv0 -> eval_i64 o a b = MDiv0 /\ eval_ld o a b = MDiv0.
Proof.
  intros o a b H. apply div0_iff in H. split; [exact H|].
  destruct o; try discriminate H; exact H.
Qed.
Print Assumptions div0_paths_agree.

(* `continue` and a normal end of the body both go on with the for-update; `break` and errors do not *)
Theorem continue_runs_update : forall body next s s',
  (body s = (Cnt, s') -> loop_step body next s = next s') /\
  (body s = (Val tt, s') -> loop_step body next s = next s') /\
  (body s = (Brk, s') -> loop_step body next s = (Val tt, s')) /\
  (forall e, body s = (Fail e, s') -> loop_step body next s = (Fail e, s')).
Proof. intros. unfold loop_step. repeat split; intros; rewrite H; reflexivity. Qed.
Print Assumptions continue_runs_update.

Theorem for_loop_shape : forall funcs k init c upd body,
  exec funcs (S k) (SFor init c upd body) =
  (m_push_scope ;;;
   finally (exec_list (exec funcs k) init ;;;
            x <- eval funcs k c ;;
            if x =? 0 then ret tt
            else loop_step (in_block (exec funcs k) body)
                           (exec_list (exec funcs k) upd ;;; exec funcs k (SFor [] c upd body))) pop_scope_st).
Proof. exact exec_S_for. Qed.
Print Assumptions for_loop_shape.

Theorem compound_desugar_equiv : forall funcs k x o e s,
  exec funcs (S (S k)) (SAssign (LVar x) (Some o) e) s =
  exec funcs (S (S (S k))) (SAssign (LVar x) None (EBin o (EVar x) e)) s.
Proof.
  intros funcs k x o e s. rewrite exec_S_compound, exec_S_assign, eval_S_bin, eval_S_var.
  apply (compound_as_assign (m_read x []) (eval funcs (S k) e) (m_write x [])).
Qed.
Print Assumptions compound_desugar_equiv.

Theorem compound_desugar_equiv_element : forall funcs k x i o e s,
  exec funcs (S (S (S k))) (SAssign (LIdx x [ENum i]) (Some o) e) s =
  exec funcs (S (S (S (S k)))) (SAssign (LIdx x [ENum i]) None (EBin o (EIdx x [ENum i]) e)) s.
Proof.
  intros funcs k x i o e s. exact (compound_desugar_cell funcs k x [i] o e s).
Qed.
Print Assumptions compound_desugar_equiv_element.

(* plain structs: a struct variable is the group of its member cells [mkey x j] *)
Theorem struct_members_are_distinct_cells : forall x j x' j', (j < 8)%nat -> (j' < 8)%nat ->
  mkey x j = mkey x' j' -> x = x' /\ j = j'.
Proof. unfold mkey. lia. Qed.
Print Assumptions struct_members_are_distinct_cells.

Theorem struct_members_disjoint_from_plain_variables : forall x j y, (y < 1000)%nat -> mkey x j <> y.
Proof. unfold mkey. lia. Qed.
Print Assumptions struct_members_disjoint_from_plain_variables.

(* `a = b;` on structs means the member-by-member, cell-by-cell assignments a.m_j[i..] = b.m_j[i..] *)
Theorem struct_copy_is_memberwise_assignment : forall funcs k n x y flds s,
  exec funcs (S n) (SCopy x y flds) s = exec_list (exec funcs (S (S (S k)))) (copy_stmts x y 0 flds) s.
Proof.
  intros funcs k n x y flds s. rewrite exec_S_copy. apply copy_members_desugar.
Qed.
Print Assumptions struct_copy_is_memberwise_assignment.

(* a store to one member changes no other member of any struct variable (a copy stays independent) ... *)
Theorem struct_member_store_is_private : forall x j idx v s s' x' j' idx',
  (j < 8)%nat -> (j' < 8)%nat -> (x <> x' \/ j <> j') ->
  m_write (mkey x j) idx v s = (Val tt, s') ->
  m_read (mkey x' j') idx' s' = (fst (m_read (mkey x' j') idx' s), s').
Proof.
  intros x j idx v s s' x' j' idx' Hj Hj' Hne Hw.
  apply (proj1 (store_touches_only_target_l _ _ _ _ _ (mkey x' j') idx' Hw)).
  intros E. destruct (struct_members_are_distinct_cells _ _ _ _ Hj Hj' E) as [-> ->]. destruct Hne as [H|H]; apply H; reflexivity.
Qed.
Print Assumptions struct_member_store_is_private.

(* ... and no plain variable *)
Theorem struct_member_store_leaves_plain_variables : forall x j idx v s s' y idx',
  (y < 1000)%nat -> m_write (mkey x j) idx v s = (Val tt, s') ->
  m_read y idx' s' = (fst (m_read y idx' s), s').
Proof.
  intros x j idx v s s' y idx' Hy Hw. apply (proj1 (store_touches_only_target_l _ _ _ _ _ y idx' Hw)).
  apply struct_members_disjoint_from_plain_variables. exact Hy.
Qed.
Print Assumptions struct_member_store_leaves_plain_variables.

(* a freshly declared member reads 0 at every index inside its shape (and is a bounds error outside) *)
Theorem struct_member_starts_zeroed : forall t c dims idx s s',
  m_declare false false t c dims [] s = (Val tt, s') ->
  fst (m_read c idx s') = Val 0 \/ fst (m_read c idx s') = Fail EBounds.
Proof.
  intros t c dims idx s s' H. rewrite (fresh_cell_read t c dims idx s s' H).
  destruct (flat_index dims idx 0); [left|right]; reflexivity.
Qed.
Print Assumptions struct_member_starts_zeroed.

(* non-vacuity for the struct theorems: declare two structs, store, copy, store to the source, read the copy *)
Example sample_struct_run :
  let tl := {| base := TLong; uns := false |} in
  let fl := [ {| fty := tl; fdims := [] |}; {| fty := tl; fdims := [2%nat] |} ] in
  let p := {| pglobals := []; pfuncs := [];
              pmain := [ SStruct 1%nat 2%nat fl; SStruct 1%nat 3%nat fl;
                         SAssign (LVar (mkey 2%nat 0%nat)) None (ENum 5); SAssign (LIdx (mkey 2%nat 1%nat) [ENum 1]) None (ENum 7);
                         SCopy 3%nat 2%nat fl;
                         SAssign (LVar (mkey 2%nat 0%nat)) None (ENum 100);
                         SPrint true [EVar (mkey 3%nat 0%nat); EIdx (mkey 3%nat 1%nat) [ENum 1]; EVar (mkey 2%nat 0%nat); EIdx (mkey 3%nat 1%nat) [ENum 0]];
                         SPrint true [EIdx (mkey 3%nat 1%nat) [ENum 2]] ] |} in
  run 100 p = ([OInt 5; OSp; OInt 7; OSp; OInt 100; OSp; OInt 0; ONl], Failed EBounds).
Proof. vm_compute. reflexivity. Qed.

(* non-vacuity: a program that prints, loops with continue, and then fails *)
Example sample_run :
  let p := {| pglobals := []; pfuncs := [];
              pmain := [ SFor [SDecl false false {| base := TInt; uns := false |} 1%nat (Some (ENum 0))]
                              (EBin Lt (EVar 1%nat) (ENum 3)) [SIncDec false true (LVar 1%nat)]
                              [ SIf (EBin Eq (EVar 1%nat) (ENum 1)) [SContinue] []; SPrint true [EVar 1%nat] ];
                         SPrint true [EBin Div (ENum 1) (ENum 0)];
                         SPrint true [ENum 9] ] |} in
  run 100 p = ([OInt 0; ONl; OInt 2; ONl], Failed EDiv0).
Proof. vm_compute. reflexivity. Qed.
