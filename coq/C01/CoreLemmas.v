(* C01 - about the reference interpreter: a statement list only adds to the output, and `a[i]..[j] op= e` at literal
   indices is `a[i]..[j] = a[i]..[j] op e` (associativity of bind). *)
From Coq Require Import List ZArith.
From Cb Require Import Lang.Syntax Lang.Sem Lang.Respect Lang.Theorems.
Import ListNotations.
Local Open Scope Z_scope.

(* whatever a program does, what it has printed stays printed: the transcript of a longer run
   extends the transcript of the state it started from *)
Lemma exec_list_out funcs n ss s : out_ext s (snd (exec_list (exec funcs n) ss s)).
Proof.
  apply (r_exec_list out_ext out_ext_refl out_ext_trans (exec funcs n)).
  apply (proj2 (output_monotone_l funcs n)).
Qed.

Lemma lval_idx_eq ev a idx : lval_target ev (LIdx a idx) = (is_ <- eval_list ev idx ;; ret (a, is_)).
Proof. reflexivity. Qed.
Lemma eval_list_nums funcs k is_ : eval_list (eval funcs (S k)) (map ENum is_) = ret is_.
Proof.
  induction is_ as [|i r IH]; [reflexivity|].
  cbn [map eval_list]. rewrite IH. reflexivity.
Qed.

(* read the target, evaluate e, compute, write - in one chain, or with the first three steps grouped as the value of
   `lv op e`: associativity of bind *)
Lemma compound_as_assign (rd E : M Z) (wr : Z -> M unit) o s :
  (old <- rd ;; v <- E ;; r <- lift (arith o old v) ;; wr r) s =
  (v <- (x <- rd ;; y <- E ;; lift (arith o x y)) ;; wr v) s.
Proof. unfold bind. destruct (rd s) as [[] s1]; try reflexivity. destruct (E s1) as [[] s2]; reflexivity. Qed.

(* an element named by literal indices, whatever their number: `a[i]..[j] op= e` is `a[i]..[j] = a[i]..[j] op e` *)
Lemma compound_desugar_cell funcs k x is_ o e s :
  exec funcs (S (S (S k))) (SAssign (LIdx x (map ENum is_)) (Some o) e) s =
  exec funcs (S (S (S (S k)))) (SAssign (LIdx x (map ENum is_)) None (EBin o (EIdx x (map ENum is_)) e)) s.
Proof.
  rewrite exec_S_compound, exec_S_assign, eval_S_bin, eval_S_idx, !lval_idx_eq, !eval_list_nums.
  apply (compound_as_assign (m_read x is_) (eval funcs (S (S k)) e) (m_write x is_)).
Qed.
