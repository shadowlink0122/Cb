(* C11 - the instantiation cache: generate_cache_key is injective on (function name, type-argument
   tuple) for names without '<' and type arguments that are non-empty and comma-free, hence a cache
   hit can only return the instance built for the same function and the same tuple, after any
   history of calls.  (call_impl.cpp has the cache switched off today; the theorems cover the code
   path that is commented out there, and the trivial purity of the path that is live.) *)
From Coq Require Import Ascii List.
Import ListNotations.
From Cb Require Import C11.Model.

Definition no_char (c : ascii) (s : str) : Prop := ~ In c s.
Definition good_targ (s : str) : Prop := s <> [] /\ no_char c_comma s.
Definition good_call (fn : str) (targs : list str) : Prop := no_char c_lt fn /\ Forall good_targ targs.

Lemma str_eqb_eq : forall a b, str_eqb a b = true <-> a = b.
Proof. intros a b. unfold str_eqb. destruct (list_eq_dec ascii_dec a b); split; congruence. Qed.

Lemma str_eqb_refl : forall a, str_eqb a a = true.
Proof. intros. apply str_eqb_eq. reflexivity. Qed.

(* a tail of a c-separated text: empty, or c followed by anything *)
Definition tail_shape (c : ascii) (t : str) : Prop := t = [] \/ exists t', t = c :: t'.

(* x ++ t determines x and t when c does not occur in x (nor in the other prefix) and t is such a tail *)
Lemma prefix_free : forall (c : ascii) x y t u,
  no_char c x -> no_char c y -> tail_shape c t -> tail_shape c u ->
  x ++ t = y ++ u -> x = y /\ t = u.
Proof.
  intros c. induction x as [|a x IH]; intros [|b y] t u Hx Hy Ht Hu E; simpl in *.
  - auto.
  - subst t. destruct Ht as [Ht|[t' Ht]]; [discriminate|]. inversion Ht; subst.
    exfalso. apply Hy. left. reflexivity.
  - subst u. destruct Hu as [Hu|[u' Hu]]; [discriminate|]. inversion Hu; subst.
    exfalso. apply Hx. left. reflexivity.
  - inversion E; subst. destruct (IH y t u) as [Ex Et]; auto.
    + intros H. apply Hx. right. exact H.
    + intros H. apply Hy. right. exact H.
    + subst. auto.
Qed.

Lemma join_comma_cons : forall x r,
  join_with [c_comma] (x :: r) = x ++ match r with [] => [] | _ => c_comma :: join_with [c_comma] r end.
Proof. intros x [|y r]; simpl; [rewrite app_nil_r|]; reflexivity. Qed.

Lemma join_comma_inj : forall a b,
  Forall good_targ a -> Forall good_targ b ->
  join_with [c_comma] a = join_with [c_comma] b -> a = b.
Proof.
  induction a as [|x r IH]; intros [|y s] Ha Hb E.
  - reflexivity.
  - exfalso. rewrite join_comma_cons in E. inversion Hb as [|? ? [Hy _] _]; subst.
    destruct y; [congruence|]. simpl in E. discriminate.
  - exfalso. rewrite join_comma_cons in E. inversion Ha as [|? ? [Hx _] _]; subst.
    destruct x; [congruence|]. simpl in E. discriminate.
  - rewrite !join_comma_cons in E.
    inversion Ha as [|? ? [_ Hx] Hr]; subst. inversion Hb as [|? ? [_ Hy] Hs]; subst.
    apply (prefix_free c_comma) in E; auto.
    + destruct E as [E1 E2]. subst y. destruct r as [|r0 r], s as [|s0 s]; try discriminate.
      * reflexivity.
      * inversion E2 as [E3]. f_equal. apply IH; auto.
    + destruct r; [left; reflexivity | right; eexists; reflexivity].
    + destruct s; [left; reflexivity | right; eexists; reflexivity].
Qed.

Lemma cache_key_injective_l : forall f1 a1 f2 a2,
  good_call f1 a1 -> good_call f2 a2 ->
  generate_cache_key f1 a1 = generate_cache_key f2 a2 -> f1 = f2 /\ a1 = a2.
Proof.
  intros f1 a1 f2 a2 [H1 G1] [H2 G2] E. unfold generate_cache_key in E. cbn [app] in E.
  apply (prefix_free c_lt) in E; auto; [|right; eexists; reflexivity ..].
  destruct E as [Ef E]. split; [exact Ef|].
  injection E as E. apply app_inv_tail in E. apply join_comma_inj; auto.
Qed.

Section Histories.
  (* the program's generic functions: function name -> its AST (find_function) *)
  Variable tbl : str -> node.

  Definition call := (str * list str)%type.

  Fixpoint run_cached (c : cache) (h : list call) : list result :=
    match h with
    | [] => []
    | (fn, ta) :: r => let cr := call_cached c fn (tbl fn) ta in snd cr :: run_cached (fst cr) r
    end.

  Fixpoint run_pinned (c : cache) (h : list call) : list result :=
    match h with
    | [] => []
    | (fn, ta) :: r => let cr := call_pinned c fn (tbl fn) ta in snd cr :: run_pinned (fst cr) r
    end.

  (* every cached instance is the instance of the (name, tuple) its key was made from *)
  Definition instance_cache_sound (c : cache) : Prop :=
    forall key v, get_cached_instance c key = Some v ->
      exists fn ta, good_call fn ta /\ key = generate_cache_key fn ta /\ instantiate (tbl fn) ta = Ok v.

  (* what a call may answer: the instance of exactly this function at exactly this tuple (fresh, or
     a clone of it on a hit), or the error instantiation itself gives *)
  Definition answer_ok (cl : call) (r : result) : Prop :=
    match r with
    | Ok x => exists i, instantiate (tbl (fst cl)) (snd cl) = Ok i /\ (x = i \/ x = clone i)
    | Err e => instantiate (tbl (fst cl)) (snd cl) = Err e
    end.

  Lemma instance_cache_sound_nil : instance_cache_sound [].
  Proof. intros key v H. discriminate. Qed.

  Lemma call_cached_step : forall c fn ta,
    instance_cache_sound c -> good_call fn ta ->
    instance_cache_sound (fst (call_cached c fn (tbl fn) ta)) /\ answer_ok (fn, ta) (snd (call_cached c fn (tbl fn) ta)).
  Proof.
    intros c fn ta Hc Hg. unfold call_cached.
    destruct (get_cached_instance c (generate_cache_key fn ta)) as [v|] eqn:Eg.
    - simpl. split; [exact Hc|].
      destruct (Hc _ _ Eg) as [fn' [ta' [Hg' [Ek Hi]]]].
      apply cache_key_injective_l in Ek; auto. destruct Ek; subst fn' ta'.
      exists v. split; [exact Hi | right; reflexivity].
    - destruct (instantiate (tbl fn) ta) as [i|e] eqn:Ei; simpl.
      + split.
        * intros key v. unfold cache_instance. simpl.
          destruct (str_eqb key (generate_cache_key fn ta)) eqn:Ek.
          -- intros Hv. inversion Hv; subst v. apply str_eqb_eq in Ek.
             exists fn, ta. auto.
          -- apply Hc.
        * exists i. auto.
      + split; [exact Hc | exact Ei].
  Qed.

  Lemma run_cached_sound : forall h c,
    instance_cache_sound c -> Forall (fun cl => good_call (fst cl) (snd cl)) h ->
    Forall2 answer_ok h (run_cached c h).
  Proof.
    induction h as [|[fn ta] r IH]; intros c Hc Hg; simpl.
    - constructor.
    - inversion Hg as [|? ? Hg1 Hg2]; subst. simpl in Hg1.
      destruct (call_cached_step c fn ta Hc Hg1) as [Hc' Ha].
      constructor; [exact Ha | apply IH; assumption].
  Qed.

  Lemma run_pinned_spec : forall h c,
    run_pinned c h = map (fun cl => instantiate (tbl (fst cl)) (snd cl)) h.
  Proof. induction h as [|[fn ta] r IH]; intros c; simpl; [reflexivity | rewrite IH; reflexivity]. Qed.

End Histories.
