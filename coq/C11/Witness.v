(* C11 - the boolean inclusion test by which Properties_C11.v reads the regenerated tables, and the
   witness tree.  It is the AST the repository's own parser builds for the Cb text quoted next to it
   (as dumped by harness/cpp/c11_driver.cpp); the harness replays the same function, spelled f<TT>, on
   the real binary (corpus/c11.json). *)
From Coq Require Import String List NArith.
Import ListNotations.
From Cb Require Import C11.Model C11.Tree.

Definition incl_b (a b : list string) : bool := forallb (fun f => in_list f b) a.

Lemma incl_b_incl : forall a b, incl_b a b = true <-> incl a b.
Proof.
  intros a b. unfold incl_b, incl. rewrite forallb_forall. split.
  - intros H x Hx. apply in_list_In. apply H. exact Hx.
  - intros H x Hx. apply in_list_In. apply H. exact Hx.
Qed.

Definition missing (all copied : list string) : list string :=
  filter (fun f => negb (in_list f copied)) all.

Lemma inst_fields_are_cloned_l : inst_child_fields = cloned_child_fields.
Proof. vm_compute. reflexivity. Qed.

Definition S (s : string) : str := s2l s.
Definition var (x : string) : node := Node 1 [("name"%string, S x)] [].
Definition param (x ty : string) : node :=
  Node 32 [("pointer_base_type_name"%string, S ty); ("name"%string, S x); ("type_name"%string, S ty)] [].

(*  T max<T>(T a, T b) { return a > b ? a : b; }     (C11-clone-third-segv in corpus/c11.json, repaired by 211b7a0) *)
Definition w_max : node :=
  Node 31 [("is_generic"%string, S "1"); ("name"%string, S "max"); ("return_type_name"%string, S "T");
           ("type_parameters"%string, S "T")]
    [("body"%string,
       Node 58 [] [("statements"%string,
         Node 20 [] [("left"%string,
           Node 7 [] [("left"%string, Node 5 [("op"%string, S ">")] [("left"%string, var "a"); ("right"%string, var "b")]);
                      ("right"%string, var "a");
                      ("third"%string, var "b")])])]);
     ("parameters"%string, param "a" "T");
     ("parameters"%string, param "b" "T")].

Definition m_T_int : tmap := build_map [S "T"] [S "int"].
