(* C11 - lemmas about clone / substitute on trees: clone = strip o prune, the trees on which clone is
   the identity, and instantiate = monomorphise on the trees whose child members are all copied
   and visited.  All statements are for every tree (structural induction, no depth bound). *)
From Coq Require Import String List Bool Arith NArith.
Import ListNotations.
From Cb Require Import C11.Model.

Section NodeInd.
  Variable P : node -> Prop.
  Hypothesis H : forall k sc kids, Forall (fun p => P (snd p)) kids -> P (Node k sc kids).
  Fixpoint node_ind' (n : node) : P n :=
    match n with
    | Node k sc kids =>
        H k sc kids
          ((fix go (l : list (string * node)) : Forall (fun p => P (snd p)) l :=
              match l with
              | [] => Forall_nil _
              | p :: r => Forall_cons p (node_ind' (snd p)) (go r)
              end) kids)
    end.
End NodeInd.

(* The Spec side: functions on trees that the theorems compare clone / instantiate with. *)
(* forget the scalar members clone_ast_node does not copy, keep every child *)
Fixpoint strip (n : node) : node :=
  match n with
  | Node k sc kids => Node k (filter keep_scalar sc) (map (fun p => (fst p, strip (snd p))) kids)
  end.

(* forget the child members clone_ast_node does not copy, keep every scalar *)
Fixpoint prune (n : node) : node :=
  match n with
  | Node k sc kids => Node k sc (filter keep_child (map (fun p => (fst p, prune (snd p))) kids))
  end.

(* the hand-monomorphised copy: the per-node type rewriting applied to EVERY node of the tree,
   every member kept *)
Fixpoint mono (m : tmap) (n : node) : node :=
  match n with
  | Node k sc kids => Node k (subst_scalars m sc) (map (fun p => (fst p, mono m (snd p))) kids)
  end.

(* every child member used anywhere in the tree is in `allowed` *)
Fixpoint kids_within (allowed : list string) (n : node) : bool :=
  match n with
  | Node _ _ kids => forallb (fun p => in_list (fst p) allowed && kids_within allowed (snd p)) kids
  end.

(* every scalar member used anywhere in the tree is in `allowed` *)
Fixpoint scalars_within (allowed : list string) (n : node) : bool :=
  match n with
  | Node _ sc kids => forallb (fun p => in_list (fst p) allowed) sc &&
                      forallb (fun p => scalars_within allowed (snd p)) kids
  end.

(* the child members that are both copied by clone_ast_node and visited by substitute_type_parameters *)
Definition inst_child_fields : list string :=
  filter (fun f => in_list f subst_child_fields) cloned_child_fields.

Lemma in_list_In : forall f l, in_list f l = true <-> In f l.
Proof.
  intros f l. unfold in_list. rewrite existsb_exists. split.
  - intros [x [Hx He]]. apply String.eqb_eq in He. subst. exact Hx.
  - intros H. exists f. split; [exact H | apply String.eqb_refl].
Qed.

Lemma in_list_filter : forall f (q : string -> bool) l,
  in_list f (filter q l) = true -> in_list f l = true /\ q f = true.
Proof.
  intros f q l H. apply in_list_In, filter_In in H. destruct H as [Hl Hq].
  split; [apply in_list_In; exact Hl | exact Hq].
Qed.

Lemma in_inst_child_fields : forall f,
  in_list f inst_child_fields = true ->
  in_list f cloned_child_fields = true /\ in_list f subst_child_fields = true.
Proof. intros f. apply in_list_filter. Qed.

Lemma filter_map_fst {A B : Type} (g : A -> B) (q : string -> bool) (l : list (string * A)) :
  filter (fun p => q (fst p)) (map (fun p => (fst p, g (snd p))) l) =
  map (fun p => (fst p, g (snd p))) (filter (fun p => q (fst p)) l).
Proof.
  induction l as [|p r IH]; simpl; [reflexivity|].
  destruct (q (fst p)); simpl; rewrite IH; reflexivity.
Qed.

Lemma filter_all {A : Type} (q : A -> bool) (l : list A) :
  forallb q l = true -> filter q l = l.
Proof.
  induction l as [|a r IH]; simpl; [reflexivity|].
  intros H. apply andb_true_iff in H. destruct H as [Ha Hr]. rewrite Ha, IH by exact Hr. reflexivity.
Qed.

Lemma map_kids_id : forall (g : node -> node) (kids : list (string * node)),
  Forall (fun p => g (snd p) = snd p) kids -> map (fun p => (fst p, g (snd p))) kids = kids.
Proof. induction 1 as [|[x c] l H _ IH]; cbn [map fst snd] in *; congruence. Qed.

Lemma filter_idem {A : Type} (q : A -> bool) (l : list A) : filter q (filter q l) = filter q l.
Proof.
  induction l as [|a r IH]; simpl; [reflexivity|].
  destruct (q a) eqn:E; simpl; [rewrite E, IH|]; auto.
Qed.

Lemma forallb_filter {A : Type} (q : A -> bool) (l : list A) : forallb q (filter q l) = true.
Proof.
  induction l as [|a r IH]; simpl; [reflexivity|].
  destruct (q a) eqn:E; simpl; [rewrite E|]; auto.
Qed.

Lemma clone_strip_prune_l : forall n, clone n = strip (prune n).
Proof.
  induction n as [k sc kids IH] using node_ind'. cbn [clone strip prune]. f_equal.
  unfold keep_child.
  rewrite (filter_map_fst clone (fun f => in_list f cloned_child_fields)).
  rewrite (filter_map_fst prune (fun f => in_list f cloned_child_fields)).
  rewrite map_map. cbn [fst snd].
  apply map_ext_Forall.
  apply Forall_forall. intros p Hp. apply filter_In in Hp. destruct Hp as [Hp _].
  rewrite Forall_forall in IH. rewrite (IH p Hp). reflexivity.
Qed.

Lemma prune_id_l : forall n, kids_within cloned_child_fields n = true -> prune n = n.
Proof.
  induction n as [k sc kids IH] using node_ind'. cbn [prune kids_within]. intros Hc. f_equal.
  rewrite forallb_forall in Hc. rewrite Forall_forall in IH. rewrite map_kids_id.
  - apply filter_all. apply forallb_forall. intros p Hp.
    destruct (proj1 (andb_true_iff _ _) (Hc p Hp)) as [H _]. exact H.
  - apply Forall_forall. intros p Hp. apply (IH p Hp).
    destruct (proj1 (andb_true_iff _ _) (Hc p Hp)) as [_ H]. exact H.
Qed.

Lemma strip_id_l : forall n, scalars_within copied_scalar_fields n = true -> strip n = n.
Proof.
  induction n as [k sc kids IH] using node_ind'. cbn [strip scalars_within]. intros Hc.
  apply andb_true_iff in Hc. destruct Hc as [Hs Hk]. rewrite forallb_forall in Hk. rewrite Forall_forall in IH.
  rewrite (filter_all keep_scalar sc Hs), map_kids_id; [reflexivity|].
  apply Forall_forall. intros p Hp. apply (IH p Hp), (Hk p Hp).
Qed.

(* clone is the identity exactly on what it copies: trees that use only copied members *)
Lemma clone_id_l : forall n,
  kids_within cloned_child_fields n = true -> scalars_within copied_scalar_fields n = true ->
  clone n = n.
Proof.
  intros n Hk Hs. rewrite clone_strip_prune_l, prune_id_l by exact Hk. apply strip_id_l. exact Hs.
Qed.

Lemma subst_clone_is_mono_l : forall m n,
  kids_within inst_child_fields n = true ->
  subst_node m (clone n) = mono m (strip n).
Proof.
  intros m. induction n as [k sc kids IH] using node_ind'. cbn [clone strip mono subst_node kids_within]. intros Hc. f_equal.
  rewrite forallb_forall in Hc.
  assert (Hall : forallb keep_child (map (fun p => (fst p, clone (snd p))) kids) = true).
  { apply forallb_forall. intros p Hp. apply in_map_iff in Hp. destruct Hp as [q [Hq Hin]]. subst p.
    unfold keep_child. cbn [fst]. specialize (Hc q Hin). apply andb_true_iff in Hc.
    destruct Hc as [Hc _]. apply in_inst_child_fields in Hc. tauto. }
  rewrite (filter_all _ _ Hall). rewrite !map_map.
  apply map_ext_Forall. rewrite Forall_forall in *. intros p Hp.
  specialize (Hc p Hp). apply andb_true_iff in Hc. destruct Hc as [Hf Hk].
  apply in_inst_child_fields in Hf. unfold visit_child. cbn [fst snd].
  destruct Hf as [_ Hf]. rewrite Hf. rewrite (IH p Hp Hk). reflexivity.
Qed.

Definition clear_generic (n : node) : node :=
  match n with
  | Node k sc kids => Node k (sdel "type_parameters" (sdel "is_generic" sc)) kids
  end.

Definition type_params_of (f : node) : list str := strvec (sget "type_parameters" (scalars_of f)).

Lemma instantiate_ok_shape : forall f targs r,
  instantiate f targs = Ok r ->
  r = clear_generic (subst_node (build_map (type_params_of f) targs) (clone f)) /\
  List.length (type_params_of f) = List.length targs.
Proof.
  intros [k sc kids] targs r. unfold instantiate, type_params_of, scalars_of.
  destruct (N.eqb k null_kind || negb (str_eqb (sget "is_generic" sc) (s2l "1"))); [discriminate|].
  destruct (List.length (strvec (sget "type_parameters" sc)) =? List.length targs) eqn:E; [|discriminate].
  cbn [negb]. destruct (subst_node _ _). intros [= <-]. split; [reflexivity | apply Nat.eqb_eq, E].
Qed.

Lemma instantiate_is_mono_l : forall f targs r,
  instantiate f targs = Ok r ->
  kids_within inst_child_fields f = true ->
  r = clear_generic (mono (build_map (type_params_of f) targs) (strip f)).
Proof.
  intros f targs r Hi Hc. apply instantiate_ok_shape in Hi. destruct Hi as [Hr _].
  rewrite Hr, subst_clone_is_mono_l by exact Hc. reflexivity.
Qed.

(* instantiation is a function of (function AST, type arguments) only: no hidden state *)
Lemma call_pinned_pure : forall c1 c2 fn f targs,
  snd (call_pinned c1 fn f targs) = snd (call_pinned c2 fn f targs) /\
  fst (call_pinned c1 fn f targs) = c1.
Proof. intros. unfold call_pinned. simpl. split; reflexivity. Qed.

Lemma in_list_incl : forall a b f, incl a b -> in_list f a = true -> in_list f b = true.
Proof. intros a b f H Hf. apply in_list_In. apply H. apply in_list_In. exact Hf. Qed.

Lemma kids_within_mono : forall a b, incl a b -> forall n, kids_within a n = true -> kids_within b n = true.
Proof.
  intros a b Hab. induction n as [k sc kids IH] using node_ind'. cbn [kids_within]. rewrite !forallb_forall.
  intros H p Hp. specialize (H p Hp). apply andb_true_iff in H. destruct H as [H1 H2].
  rewrite Forall_forall in IH. rewrite (in_list_incl a b _ Hab H1), (IH p Hp H2). reflexivity.
Qed.

Lemma scalars_within_mono : forall a b, incl a b -> forall n, scalars_within a n = true -> scalars_within b n = true.
Proof.
  intros a b Hab. induction n as [k sc kids IH] using node_ind'. cbn [scalars_within]. intros H.
  apply andb_true_iff in H. destruct H as [H1 H2]. apply andb_true_iff. split.
  - rewrite forallb_forall in *. intros p Hp. apply (in_list_incl a b _ Hab). apply H1. exact Hp.
  - rewrite forallb_forall in *. intros p Hp. rewrite Forall_forall in IH. apply (IH p Hp). apply H2. exact Hp.
Qed.

(* when the tables say that every member is copied and visited: clone is the identity and instantiate is the
   hand-monomorphised copy on EVERY tree built from members of ASTNode *)
Lemma clone_id_complete_l :
  incl ast_child_fields cloned_child_fields -> incl node_scalar_fields copied_scalar_fields ->
  forall n, kids_within ast_child_fields n = true -> scalars_within node_scalar_fields n = true -> clone n = n.
Proof.
  intros Hc Hs n Hk Hsc. apply clone_id_l.
  - apply (kids_within_mono _ _ Hc). exact Hk.
  - apply (scalars_within_mono _ _ Hs). exact Hsc.
Qed.

Lemma instantiate_is_mono_complete_l :
  incl ast_child_fields inst_child_fields -> incl node_scalar_fields copied_scalar_fields ->
  forall f targs r, instantiate f targs = Ok r ->
    kids_within ast_child_fields f = true -> scalars_within node_scalar_fields f = true ->
    r = clear_generic (mono (build_map (type_params_of f) targs) f).
Proof.
  intros Hc Hs f targs r Hi Hk Hsc.
  rewrite <- (strip_id_l f (scalars_within_mono _ _ Hs f Hsc)) at 2.
  apply instantiate_is_mono_l; [exact Hi|]. apply (kids_within_mono _ _ Hc). exact Hk.
Qed.
