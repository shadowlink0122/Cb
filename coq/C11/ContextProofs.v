(* C11 - the run-time type context of generic impl blocks (Context.v); what the theorems of Properties_C11.v about
   impl blocks rest on:
     - stack discipline (run_under_stack): under the push/pop protocol of the method-call path a run is the run
       under fixed contexts, every method body under the context of the instance it belongs to, whoever calls it
       (another instantiation of the same block included), at any nesting depth, after any history, in the order in
       which the code runs the statements; and the stack is found as it was after any outcome;
     - deferred statements: in the code the defers still pending when a method body is left run AFTER the pop of its
       context (under the caller's); that order coincides with the hand-specialised copy for every program whose
       defers are run by the closing top-level return (defers_early_same);
     - the instance registry is transparent (find_impl_sound, run_cache_ok): whatever was instantiated before, a
       struct type name gets the instance (block, type map) it would get from an empty registry;
     - the parameter loop of resolve_complex_type on a flat argument list (rc_params_join);
     - the programs that witness what is refuted: nested arguments, a local spelled over a parameter, late deferred
       statements (finding C11-impl-defer-after-context-pop). *)
From Coq Require Import String Ascii List Bool ZArith Lia.
Import ListNotations.
From Cb Require Import C11.Model C11.Cache C11.Names C11.Context.

Lemma resolve_in_context_cur : forall st s,
  resolve_type_in_context st s = resolve_cur (get_current_type_context st) s.
Proof. reflexivity. Qed.

(* what a run under fixed contexts looks like from under a stack that is found unchanged afterwards *)
Definition under (st : stack) (y : mres) : res :=
  {| r_out := q_out y; r_stack := st; r_cache := q_cache y; r_flag := q_flag y; r_pend := q_pend y |}.

(* Mech is the fixed-context semantics IN THE ORDER OF THE CODE (late = true), for every program, and the stack is
   back after any outcome.  In each call case the callee's run is rewritten first; that exposes the stack it
   returns, pop (push c st) = st, under which the pending defers and the rest of the caller's body run. *)
Lemma run_under_stack : forall fuel P st ic env n dfs b,
  run fuel P st ic env n dfs b = under st (run_mono true fuel P (get_current_type_context st) ic env n dfs b).
Proof.
  induction fuel as [|f IH]; intros P st ic env n dfs b; [reflexivity|].
  destruct b as [|a r]; [reflexivity|].
  (* Both interpreters are unfolded once, for all statements together, and their recursive calls become variables
     rn, rm, known only through the induction hypothesis.  An unfolding is dear to check: the kernel compares the
     whole body of the interpreter at every recursive call it meets, and a call case mentions the callee's result in
     every field of the answer and in the arguments of the continuation.  So nothing below unfolds again (the other
     inductions over run / run_mono in this file do the same), and the lets are kept until the case analysis is
     done: it is cheap on the small term. *)
  cbn beta iota delta [run run_mono]. generalize (run f P) (run_mono true f P) (IH P). clear IH. intros rn rm IH.
  destruct a as [ty|v ty|v m|v m|g|k|ty| |].
  - cbv zeta. rewrite IH. reflexivity.
  - apply IH.
  - destruct (lookup env v) as [rty|]; [|reflexivity].
    destruct (enter P ic rty m) as [[[ic1 [c|]] md]|]; [| |reflexivity].
    all: cbv zeta; rewrite IH; cbn [under r_out r_stack r_cache r_flag r_pend push_type_context pop_type_context tl].
    all: destruct (flag_err _); [|rewrite IH; reflexivity].
    all: unfold under, mstop; cbn [q_out q_cache q_flag q_pend]; rewrite app_nil_r; reflexivity.
  - destruct (lookup env v) as [rty|]; [|reflexivity].
    destruct (enter P ic rty m) as [[[ic1 [c|]] md]|]; [| |apply IH].
    all: cbv zeta; rewrite !IH; reflexivity.
  - destruct (enter_fn P g) as [md|]; [|reflexivity].
    cbv zeta. rewrite IH. cbn [under r_out r_stack r_cache r_flag r_pend].
    destruct (flag_err _); [|rewrite IH; reflexivity].
    unfold under, mstop. cbn [q_out q_cache q_flag q_pend]. rewrite app_nil_r. reflexivity.
  - destruct (n <=? k); [reflexivity | apply IH].
  - apply IH.
  - reflexivity.
  - reflexivity.
Qed.

(* In the hand-specialised copy a deferred statement observes its own body's context whenever it runs
   (run_mono false); in the code the defers still pending when a body is left run after the pop of its context
   (run_mono true = run, above).  The two agree for every program whose bodies register a defer only where nothing
   but plain statements follows: then every body with a pending defer ends in its closing top-level return, which
   runs the defers before the context is popped. *)
Definition simple_act (a : act) : bool :=
  match a with AObs _ | ADecl _ _ | ADefer _ => true | _ => false end.

Fixpoint defers_early (b : list act) : bool :=
  match b with
  | [] => true
  | ADefer _ :: r => forallb simple_act r
  | _ :: r => defers_early r
  end.

Definition method_ok (km : str * method) : bool := defers_early (m_body (snd km)).
Definition block_ok (blk : block) : bool := forallb method_ok (b_methods blk).
Definition prog_defers_early (P : program) : bool := forallb block_ok P.

Lemma mono_false_pend_nil : forall fuel P cur ic env n dfs b,
  q_pend (run_mono false fuel P cur ic env n dfs b) = [].
Proof.
  induction fuel as [|f IH]; intros P cur ic env n dfs b; [reflexivity|].
  destruct b as [|a r]; [reflexivity|].
  cbn beta iota delta [run_mono]. generalize (run_mono false f P) (IH P). clear IH. intros rm IH.
  destruct a as [ty|v ty|v m|v m|g|k|ty| |]; try apply IH; try reflexivity.
  - destruct (lookup env v) as [rty|]; [|reflexivity].
    destruct (enter P ic rty m) as [[[ic1 pushed] md]|]; [|reflexivity].
    cbv zeta. destruct (flag_err _); [reflexivity | apply IH].
  - destruct (lookup env v) as [rty|]; [|reflexivity].
    destruct (enter P ic rty m) as [[[ic1 pushed] md]|]; apply IH.
  - destruct (enter_fn P g) as [md|]; [|reflexivity].
    cbv zeta. destruct (flag_err _); [reflexivity | apply IH].
  - destruct (n <=? k); [reflexivity | apply IH].
Qed.

Lemma find_plain_in : forall P name b, find_plain P name = Some b -> In b P.
Proof.
  induction P as [|b0 r IH]; intros name b H; cbn [find_plain] in H; [discriminate|].
  destruct (str_eqb (b_base b0) name && (List.length (b_params b0) =? 0)).
  - injection H as ->. left. reflexivity.
  - right. eapply IH. exact H.
Qed.

(* a successful method lookup: the method is one of a block of the program; the registry and the pushed context
   are those of find_impl_for_struct for a receiver type with '<', and nothing changes for a plain struct *)
Lemma enter_inv : forall P ic rty m ic1 pushed md,
  enter P ic rty m = Some (ic1, pushed, md) ->
  (exists blk, In blk P /\ lookup_method (b_methods blk) m = Some md) /\
  ((exists i, find_impl_for_struct P ic rty = (ic1, Some i) /\ pushed = if i_generic i then Some (i_map i) else None) \/
   (ic1 = ic /\ pushed = None)).
Proof.
  intros P ic rty m ic1 pushed md. unfold enter. destruct (has_char c_lt rty).
  - destruct (find_impl_for_struct P ic rty) as [ic2 [i|]]; [|discriminate].
    destruct (nth_error P (i_block i)) as [blk|] eqn:E; [|discriminate].
    destruct (lookup_method (b_methods blk) m) as [md0|] eqn:L; [|discriminate].
    intros [= <- <- <-]. split; [exists blk | left; exists i]; split; try reflexivity; [|exact L].
    eapply nth_error_In. exact E.
  - destruct (find_plain P rty) as [blk|] eqn:E; [|discriminate].
    destruct (lookup_method (b_methods blk) m) as [md0|] eqn:L; [|discriminate].
    intros [= <- <- <-]. split; [exists blk | right]; split; try reflexivity; [|exact L].
    eapply find_plain_in. exact E.
Qed.

Lemma method_defers_early : forall P blk m md,
  prog_defers_early P = true -> In blk P -> lookup_method (b_methods blk) m = Some md ->
  defers_early (m_body md) = true.
Proof.
  intros P blk m md HP Hin. unfold prog_defers_early in HP. rewrite forallb_forall in HP.
  specialize (HP blk Hin). unfold block_ok in HP.
  induction (b_methods blk) as [|[k v] r IH]; [discriminate|]. cbn [lookup_method forallb] in *.
  apply andb_true_iff in HP. destruct HP as [Hv Hr].
  destruct (str_eqb m k); [intros [= <-]; exact Hv | exact (IH Hr)].
Qed.

Lemma enter_fn_inv : forall P g md,
  enter_fn P g = Some md -> exists blk, In blk P /\ lookup_method (b_methods blk) fn_method = Some md.
Proof.
  intros P g md. unfold enter_fn. destruct (find_plain P g) as [blk|] eqn:E; [|discriminate].
  intros L. exists blk. split; [eapply find_plain_in; exact E | exact L].
Qed.

Lemma enter_defers_early : forall P ic rty m ic1 pushed md,
  prog_defers_early P = true -> enter P ic rty m = Some (ic1, pushed, md) -> defers_early (m_body md) = true.
Proof.
  intros P ic rty m ic1 pushed md HP E. destruct (enter_inv _ _ _ _ _ _ _ E) as [[blk [Hin L]] _].
  exact (method_defers_early P blk m md HP Hin L).
Qed.

Lemma enter_fn_defers_early : forall P g md,
  prog_defers_early P = true -> enter_fn P g = Some md -> defers_early (m_body md) = true.
Proof.
  intros P g md HP E. destruct (enter_fn_inv _ _ _ E) as [blk [Hin L]].
  exact (method_defers_early P blk _ md HP Hin L).
Qed.

(* plain statements never leave a body early: whatever is pending is run by the closing return, in both orders *)
Lemma simple_body_same : forall fuel P cur ic env n dfs b,
  forallb simple_act b = true ->
  run_mono true fuel P cur ic env n dfs b = run_mono false fuel P cur ic env n dfs b.
Proof.
  induction fuel as [|f IH]; intros P cur ic env n dfs b Hb; [reflexivity|].
  destruct b as [|a r]; [reflexivity|].
  cbn [forallb] in Hb. apply andb_true_iff in Hb. destruct Hb as [Ha Hr].
  destruct a; try discriminate Ha; cbn [run_mono]; rewrite IH by exact Hr; reflexivity.
Qed.

(* the order of the code and the hand-specialised copy coincide on such programs: with nothing pending, leaving a
   body early is the same in both; once a defer is registered only plain statements follow *)
Lemma defers_early_same : forall fuel P cur ic env n b,
  prog_defers_early P = true -> defers_early b = true ->
  run_mono true fuel P cur ic env n [] b = run_mono false fuel P cur ic env n [] b.
Proof.
  induction fuel as [|f IH]; intros P cur ic env n b HP Hb; [reflexivity|].
  destruct b as [|a r]; [reflexivity|].
  cbn beta iota delta [run_mono]. generalize (run_mono true f P) (run_mono false f P) (simple_body_same f P) (IH P).
  clear IH. intros rt rf Hsimple IH.
  destruct a as [ty|v ty|v m|v m|g|k|ty| |]; cbn [defers_early] in Hb; try reflexivity.
  - cbv zeta. rewrite IH by assumption. reflexivity.
  - apply IH; assumption.
  - destruct (lookup env v) as [rty|]; [|reflexivity].
    destruct (enter P ic rty m) as [[[ic1 pushed] md]|] eqn:E; [|reflexivity].
    cbv zeta. rewrite !IH by eauto using enter_defers_early. reflexivity.
  - destruct (lookup env v) as [rty|]; [|reflexivity].
    destruct (enter P ic rty m) as [[[ic1 pushed] md]|] eqn:E; [|apply IH; assumption].
    cbv zeta. rewrite !IH by eauto using enter_defers_early. reflexivity.
  - destruct (enter_fn P g) as [md|] eqn:E; [|reflexivity].
    cbv zeta. rewrite !IH by eauto using enter_fn_defers_early. reflexivity.
  - destruct (n <=? k); [reflexivity | apply IH; assumption].
  - apply Hsimple. exact Hb.
Qed.

Definition cache_ok (P : program) (ic : icache) : Prop :=
  forall name i, lookup_inst ic name = Some i -> fresh_inst P name = Some i.

Lemma cache_ok_nil : forall P, cache_ok P [].
Proof. intros P name i H. discriminate. Qed.

Lemma lookup_inst_app : forall ic name k v,
  lookup_inst (ic ++ [(k, v)]) name =
  match lookup_inst ic name with Some i => Some i | None => if str_eqb name k then Some v else None end.
Proof.
  induction ic as [|[k0 v0] r IH]; intros name k v; simpl.
  - reflexivity.
  - destruct (str_eqb name k0); [reflexivity | apply IH].
Qed.

Lemma find_impl_sound : forall P ic name,
  cache_ok P ic ->
  cache_ok P (fst (find_impl_for_struct P ic name)) /\ snd (find_impl_for_struct P ic name) = fresh_inst P name.
Proof.
  intros P ic name Hok. unfold find_impl_for_struct.
  destruct (lookup_inst ic name) as [i|] eqn:E.
  - simpl. split; [exact Hok | symmetry; apply Hok; exact E].
  - destruct (fresh_inst P name) as [i|] eqn:F; simpl.
    + split; [|reflexivity]. destruct (i_generic i); [|exact Hok].
      intros nm j Hj. rewrite lookup_inst_app in Hj.
      destruct (lookup_inst ic nm) as [j0|] eqn:E2.
      * inversion Hj; subst. apply Hok. exact E2.
      * destruct (str_eqb nm name) eqn:E3; [|discriminate].
        apply str_eqb_eq in E3. subst nm. inversion Hj; subst. exact F.
    + split; [exact Hok | reflexivity].
Qed.

Lemma enter_cache_ok : forall P ic rty m ic1 pushed md,
  cache_ok P ic -> enter P ic rty m = Some (ic1, pushed, md) -> cache_ok P ic1.
Proof.
  intros P ic rty m ic1 pushed md Hok E.
  destruct (enter_inv _ _ _ _ _ _ _ E) as [_ [[i [F _]]|[-> _]]]; [|exact Hok].
  pose proof (find_impl_sound P ic rty Hok) as [Hc _]. rewrite F in Hc. exact Hc.
Qed.

(* every statement hands the registry on unchanged, except a method call, which keeps it sound (enter_cache_ok);
   in the order of the code and in the hand-specialised copy alike *)
Lemma mono_cache_ok : forall late fuel P cur ic env n dfs b,
  cache_ok P ic -> cache_ok P (q_cache (run_mono late fuel P cur ic env n dfs b)).
Proof.
  intros late. induction fuel as [|f IH]; intros P cur ic env n dfs b Hok; [exact Hok|].
  destruct b as [|a r]; [exact Hok|].
  assert (Hstop : forall fl, cache_ok P (q_cache (mstop late cur ic fl dfs))) by (intros fl; destruct late; exact Hok).
  cbn beta iota delta [run_mono]. generalize (run_mono late f P) (IH P). clear IH. intros rm IH.
  destruct a as [ty|v ty|v m|v m|g|k|ty| |]; try (apply IH; exact Hok); try apply Hstop.
  - destruct (lookup env v) as [rty|]; [|apply Hstop].
    destruct (enter P ic rty m) as [[[ic1 pushed] md]|] eqn:E; [|apply Hstop].
    apply enter_cache_ok in E; [|exact Hok].
    cbv zeta. destruct (flag_err _); [destruct late|]; cbn [mstop q_cache]; auto.
  - destruct (lookup env v) as [rty|]; [|apply Hstop].
    destruct (enter P ic rty m) as [[[ic1 pushed] md]|] eqn:E; [|apply IH; exact Hok].
    apply enter_cache_ok in E; [|exact Hok].
    cbv zeta. cbn [q_cache]. auto.
  - destruct (enter_fn P g) as [md|]; [|apply Hstop].
    cbv zeta. destruct (flag_err _); [destruct late|]; cbn [mstop q_cache]; auto.
  - destruct (n <=? k); [apply Hstop | apply IH; exact Hok].
Qed.

Lemma run_cache_ok : forall fuel P st ic env n dfs b,
  cache_ok P ic -> cache_ok P (r_cache (run fuel P st ic env n dfs b)).
Proof. intros. rewrite run_under_stack. apply mono_cache_ok. assumption. Qed.

(* the flat type expressions, the spellings resolve_complex_type is meant for: T, Base<A, B>, T*, T[3] *)
Inductive fty : Type :=
| FName (n : str)
| FApp (b : str) (args : list str)
| FPtr (n : str)
| FArr (n : str) (dims : str).

Definition show_f (t : fty) : str :=
  match t with
  | FName n => n
  | FApp b a => b ++ [c_lt] ++ join_with sep a ++ [c_gt]
  | FPtr n => n ++ [c_star]
  | FArr n d => n ++ c_lbr :: d
  end.

(* structural substitution (the hand-written copy) *)
Definition fsubst (c : tctx) (t : fty) : fty :=
  match t with
  | FName n => FName (resolve_type c n)
  | FApp b a => FApp b (map (resolve_type c) a)
  | FPtr n => FPtr (resolve_type c n)
  | FArr n d => FArr (resolve_type c n) d
  end.

Definition ident_char (a : ascii) : Prop :=
  a <> c_lt /\ a <> c_gt /\ a <> c_comma /\ a <> c_sp /\ a <> c_star /\ a <> c_lbr /\ a <> c_tab.
Definition ident (n : str) : Prop := n <> [] /\ Forall ident_char n.

Definition wf_f (t : fty) : Prop :=
  match t with
  | FName n => ident n
  | FApp b a => ident b /\ a <> [] /\ Forall ident a
  | FPtr n => ident n
  | FArr n d => ident n /\ ~ In c_lt d /\ ~ In c_star d
  end.

(* no type parameter is bound to the empty text *)
Definition values_nonempty (c : tctx) : Prop := forall k v, lookup c k = Some v -> v <> [].

Lemma ident_notin : forall n a, ident n -> ~ ident_char a -> ~ In a n.
Proof.
  intros n a [_ H] Ha Hin. rewrite Forall_forall in H. apply Ha. apply H. exact Hin.
Qed.

Lemma ident_no_lt : forall n, ident n -> ~ In c_lt n.
Proof. intros n H. apply (ident_notin n _ H). unfold ident_char. tauto. Qed.
Lemma ident_no_comma : forall n, ident n -> ~ In c_comma n.
Proof. intros n H. apply (ident_notin n _ H). unfold ident_char. tauto. Qed.
Lemma ident_no_star : forall n, ident n -> ~ In c_star n.
Proof. intros n H. apply (ident_notin n _ H). unfold ident_char. tauto. Qed.
Lemma ident_no_lbr : forall n, ident n -> ~ In c_lbr n.
Proof. intros n H. apply (ident_notin n _ H). unfold ident_char. tauto. Qed.

Lemma resolve_nonempty : forall c n, values_nonempty c -> n <> [] -> resolve_type c n <> [].
Proof.
  intros c n Hv Hn. unfold resolve_type, map_or_self. destruct (lookup c n) eqn:E; [eapply Hv; exact E | exact Hn].
Qed.

Lemma drop_sp_ident : forall n rest, ident n -> drop_sp (n ++ rest) = n ++ rest.
Proof.
  intros [|a n] rest [Hn Hf]; [congruence|]. inversion Hf as [|? ? Ha _]; subst. simpl.
  rewrite (ascii_neq_eqb a c_sp); [reflexivity | unfold ident_char in Ha; tauto].
Qed.

Lemma strip_sp_end_ident : forall n, ident n -> strip_sp_end n = n.
Proof.
  intros n [Hn Hf]. unfold strip_sp_end.
  destruct (rev n) as [|z w] eqn:E.
  - apply (f_equal (@rev ascii)) in E. rewrite rev_involutive in E. simpl in E. congruence.
  - assert (Hz : In z n) by (apply in_rev; rewrite E; left; reflexivity).
    rewrite Forall_forall in Hf. specialize (Hf z Hz). simpl.
    rewrite (ascii_neq_eqb z c_sp); [|unfold ident_char in Hf; tauto].
    rewrite <- E. apply rev_involutive.
Qed.

Lemma until_comma_app : forall n rest, ~ In c_comma n ->
  until_comma (n ++ c_comma :: rest) = (n, Some rest).
Proof.
  induction n as [|a n IH]; intros rest Hn; simpl.
  - change (Ascii.eqb c_comma c_comma) with true. reflexivity.
  - rewrite (ascii_neq_eqb a c_comma); [|intros E; apply Hn; left; exact E].
    rewrite IH; [reflexivity | intros H; apply Hn; right; exact H].
Qed.

Lemma until_comma_none : forall n, ~ In c_comma n -> until_comma n = (n, None).
Proof.
  induction n as [|a n IH]; intros Hn; simpl; [reflexivity|].
  rewrite (ascii_neq_eqb a c_comma); [|intros E; apply Hn; left; exact E].
  rewrite IH; [reflexivity | intros H; apply Hn; right; exact H].
Qed.

Lemma drop_sp_idem : forall s, drop_sp (drop_sp s) = drop_sp s.
Proof.
  induction s as [|a s IH]; simpl; [reflexivity|].
  destruct (Ascii.eqb a c_sp) eqn:E; [exact IH | simpl; rewrite E; reflexivity].
Qed.

Lemma rc_params_drop : forall fuel c s acc, rc_params fuel c (drop_sp s) acc = rc_params fuel c s acc.
Proof. intros [|f] c s acc; cbn [rc_params]; [reflexivity | rewrite drop_sp_idem; reflexivity]. Qed.

Definition joined (acc rest : str) : str := match acc with [] => rest | _ => acc ++ sep ++ rest end.

Lemma joined_assoc : forall acc a b, a <> [] -> joined (joined acc a) b = joined acc (a ++ sep ++ b).
Proof.
  intros [|a0 acc] [|a1 a] b Ha; try congruence; [reflexivity|].
  unfold joined. cbn [app]. rewrite <- !app_assoc. reflexivity.
Qed.

(* one round of the parameter loop on a parameter that is an identifier: o is what follows its comma, if any *)
Lemma rc_params_step : forall f c x t o acc, ident x -> until_comma (x ++ t) = (x, o) ->
  rc_params (S f) c (x ++ t) acc =
  match o with
  | None => joined acc (resolve_type c x)
  | Some s2 => rc_params f c s2 (joined acc (resolve_type c x))
  end.
Proof.
  intros f c x t o acc Hx U. cbn [rc_params]. rewrite (drop_sp_ident x t Hx).
  destruct x as [|x0 xs]; [destruct Hx; congruence|].
  cbn [app]. change (x0 :: xs ++ t) with ((x0 :: xs) ++ t). rewrite U, (strip_sp_end_ident _ Hx).
  destruct o; reflexivity.
Qed.

Lemma rc_params_join : forall c a, values_nonempty c -> Forall ident a -> a <> [] ->
  forall fuel acc, List.length (join_with sep a) < fuel ->
  rc_params fuel c (join_with sep a) acc = joined acc (join_with sep (map (resolve_type c) a)).
Proof.
  intros c a Hv. induction a as [|x r IH]; intros Hf Hne fuel acc Hlen; [congruence|].
  inversion Hf as [|? ? Hx Hr]; subst.
  destruct fuel as [|f]; [lia|].
  destruct r as [|y r'].
  - cbn [join_with map]. rewrite <- (app_nil_r x) at 1.
    apply (rc_params_step f c x [] None acc Hx). rewrite app_nil_r. apply until_comma_none, ident_no_comma, Hx.
  - change (join_with sep (x :: y :: r')) with (x ++ c_comma :: c_sp :: join_with sep (y :: r')) in *.
    rewrite (rc_params_step f c x _ _ acc Hx (until_comma_app x _ (ident_no_comma x Hx))).
    (* the blank after the comma is skipped in front of the next parameter *)
    rewrite <- rc_params_drop. change (drop_sp (c_sp :: ?s)) with (drop_sp s). rewrite rc_params_drop.
    rewrite IH; [|exact Hr|discriminate|].
    + apply joined_assoc, resolve_nonempty; [exact Hv | apply Hx].
    + rewrite app_length in Hlen. cbn [List.length] in Hlen. lia.
Qed.

Lemma find_char_app_none : forall ch n rest, ~ In ch n ->
  find_char ch (n ++ rest) = option_map (fun i => List.length n + i) (find_char ch rest).
Proof.
  induction n as [|a n IH]; intros rest Hn; simpl.
  - destruct (find_char ch rest); reflexivity.
  - rewrite (ascii_neq_eqb a ch); [|intros E; apply Hn; left; exact E].
    rewrite IH; [|intros H; apply Hn; right; exact H].
    destruct (find_char ch rest); reflexivity.
Qed.

Definition w_T : str := s2l "T".
Definition w_ctx_int : tctx := [(w_T, s2l "int")].

Definition w_bytes : method := {| m_params := []; m_body := [AObs w_T] |}.
Definition w_cell : block := {| b_base := s2l "Cell"; b_params := [w_T]; b_methods := [(s2l "bytes", w_bytes)] |}.

(* repaired finding C11-try-leaks-type-context (70336ad): a caller of Cell<int> that catches the error of a
   Cell<long> callee observes int before and after *)
Definition w_fail : method := {| m_params := []; m_body := [AObs w_T; AFail] |}.
Definition w_try : method :=
  {| m_params := [(s2l "o", s2l "Cell<long>")];
     m_body := [AObs w_T; ATry (s2l "o") (s2l "fail"); AObs w_T] |}.
Definition w_cell2 : block :=
  {| b_base := s2l "Cell"; b_params := [w_T];
     b_methods := [(s2l "bytes", w_bytes); (s2l "fail", w_fail); (s2l "tr", w_try)] |}.

(* known finding C11-impl-local-struct-of-T: a local declared `Box<T> l;` inside a method of Cell<T> keeps the struct
   type name "Box<T>"; a method of impl ... for Box<E> called on it runs with E bound to the TEXT "T" (which the pushed
   context cannot resolve further: sizeof falls back to 8) - the hand-specialised copy of Cell<short> observes short *)
Definition w_E : str := s2l "E".
Definition w_m0 : method := {| m_params := []; m_body := [AObs w_E] |}.
Definition w_box : block := {| b_base := s2l "Box"; b_params := [w_E]; b_methods := [(s2l "m0", w_m0)] |}.
Definition w_loc : method :=
  {| m_params := []; m_body := [ADecl (s2l "l") (s2l "Box<T>"); ACall (s2l "l") (s2l "m0")] |}.
Definition w_cell4 : block := {| b_base := s2l "Cell"; b_params := [w_T]; b_methods := [(s2l "loc", w_loc)] |}.

(* the hypothesis of stack discipline and flat resolution is satisfiable: a method of Cell<int> that calls a
   method of Cell<long> and then observes T again *)
Definition w_cross : method :=
  {| m_params := [(s2l "o", s2l "Cell<long>")];
     m_body := [AObs w_T; ACall (s2l "o") (s2l "bytes"); AObs w_T; ADecl (s2l "c") (s2l "Cell<T>");
                ACall (s2l "c") (s2l "bytes")] |}.
Definition w_cell3 : block :=
  {| b_base := s2l "Cell"; b_params := [w_T]; b_methods := [(s2l "bytes", w_bytes); (s2l "cross", w_cross)] |}.

(* known finding C11-impl-defer-after-context-pop: a deferred statement of a generic impl method that is still pending
   when the body is left (return inside a nested block, end of a void method, run-time error) runs after the method's
   type context was popped.  `late` of Cell<long>, called from a method of Cell<short>: the deferred sizeof(T) observes
   short, the hand-specialised copy observes long. *)
Definition w_late : method := {| m_params := []; m_body := [ADefer w_T; ARetIf 5] |}.
Definition w_outer : method :=
  {| m_params := [(s2l "o", s2l "Cell<long>")]; m_body := [ACall (s2l "o") (s2l "late"); AObs w_T] |}.
Definition w_void : method := {| m_params := []; m_body := [ADefer w_T; AObs w_T; AEnd] |}.
Definition w_top : method := {| m_params := []; m_body := [ADefer w_T; AObs w_T] |}.
Definition w_cell5 : block :=
  {| b_base := s2l "Cell"; b_params := [w_T];
     b_methods := [(s2l "late", w_late); (s2l "outer", w_outer); (s2l "void", w_void); (s2l "top", w_top)] |}.

(* the hypothesis of impl_methods_equal_hand_copy_partial is satisfiable by a program that defers: a defer followed by plain
   statements and the closing top-level return runs under the method's own context *)
Definition w_outer2 : method :=
  {| m_params := [(s2l "o", s2l "Cell<long>")]; m_body := [ACall (s2l "o") (s2l "top"); AObs w_T] |}.
Definition w_cell6 : block :=
  {| b_base := s2l "Cell"; b_params := [w_T]; b_methods := [(s2l "top", w_top); (s2l "outer", w_outer2)] |}.
