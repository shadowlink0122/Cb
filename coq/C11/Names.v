(* C11 - the textual type rewriting of substitute_generic_type_name refines structural substitution:
   for every well-formed type expression t (any nesting depth, any arity),
       substitute_generic_type_name m (show t) = show (tsubst m t)
   and no bound type parameter survives in tsubst m t.  The fuel of Model.subst_generic is shown
   sufficient (it is the length of the name). *)
From Coq Require Import Ascii List ZArith Lia.
Import ListNotations.
From Cb Require Import C11.Model.

(* The Spec side: type expressions, their spelling and structural substitution. *)
Inductive ty : Type :=
| TName (n : str)
| TApp (n : str) (args : list ty).

Section TyInd.
  Variable P : ty -> Prop.
  Hypothesis HN : forall n, P (TName n).
  Hypothesis HA : forall n args, Forall P args -> P (TApp n args).
  Fixpoint ty_ind' (t : ty) : P t :=
    match t with
    | TName n => HN n
    | TApp n args =>
        HA n args ((fix go (l : list ty) : Forall P l :=
                      match l with [] => Forall_nil _ | a :: r => Forall_cons a (ty_ind' a) (go r) end) args)
    end.
End TyInd.

Definition sep : str := [c_comma; c_sp].

(* how the parser spells a type expression: Pair<int, Box<long>> *)
Fixpoint show (t : ty) : str :=
  match t with
  | TName n => n
  | TApp n args => n ++ [c_lt] ++ join_with sep (map show args) ++ [c_gt]
  end.

(* structural substitution of type parameters (the hand-written copy) *)
Fixpoint tsubst (m : tmap) (t : ty) : ty :=
  match t with
  | TName n => TName (map_or_self m n)
  | TApp n args => TApp n (map (tsubst m) args)
  end.

Definition plain (c : ascii) : Prop := c <> c_lt /\ c <> c_gt /\ c <> c_comma.

(* an identifier-like name: non-empty, no '<' '>' ',' and no blank *)
Definition clean (n : str) : Prop := n <> [] /\ Forall (fun c => plain c /\ is_blank c = false) n.

Fixpoint wf (t : ty) : Prop :=
  match t with
  | TName n => clean n
  | TApp n args => clean n /\ args <> [] /\ (fix all (l : list ty) : Prop :=
                                              match l with [] => True | a :: r => wf a /\ all r end) args
  end.

Lemma wf_app_forall : forall n args, wf (TApp n args) -> clean n /\ args <> [] /\ Forall wf args.
Proof.
  intros n args [Hc [Hn Ha]]. split; [exact Hc|]. split; [exact Hn|]. clear Hn.
  induction args as [|a r IH]; [constructor|].
  destruct Ha as [Ha Hr]. constructor; [exact Ha | apply IH; exact Hr].
Qed.

Lemma ascii_neq_eqb : forall a b, a <> b -> Ascii.eqb a b = false.
Proof. intros a b H. apply Ascii.eqb_neq. exact H. Qed.

Lemma blank_chars : is_blank c_lt = false /\ is_blank c_gt = false /\ is_blank c_comma = false /\ is_blank c_sp = true.
Proof. repeat split; reflexivity. Qed.

Lemma plain_sp : plain c_sp.
Proof. unfold plain. repeat split; discriminate. Qed.

Lemma split_plain_run : forall w rest d cur acc,
  Forall plain w ->
  split_params (w ++ rest) d cur acc = split_params rest d (cur ++ w) acc.
Proof.
  induction w as [|c w IH]; intros rest d cur acc Hw; simpl.
  - rewrite app_nil_r. reflexivity.
  - inversion Hw as [|? ? [H1 [H2 H3]] Hw']; subst.
    rewrite (ascii_neq_eqb _ _ H1), (ascii_neq_eqb _ _ H2), (ascii_neq_eqb _ _ H3). simpl.
    rewrite IH by exact Hw'. rewrite <- app_assoc. reflexivity.
Qed.

Lemma clean_plain : forall n, clean n -> Forall plain n.
Proof. intros n [_ H]. eapply Forall_impl; [|exact H]. simpl. tauto. Qed.

Lemma split_step_plain : forall c rest d cur acc, plain c ->
  split_params (c :: rest) d cur acc = split_params rest d (cur ++ [c]) acc.
Proof. intros. apply (split_plain_run [c] rest d cur acc). constructor; [assumption|constructor]. Qed.

Lemma split_step_comma_deep : forall rest d cur acc, (d <> 0)%Z ->
  split_params (c_comma :: rest) d cur acc = split_params rest d (cur ++ [c_comma]) acc.
Proof.
  intros. cbn [split_params]. change (Ascii.eqb c_comma c_lt) with false. change (Ascii.eqb c_comma c_gt) with false.
  change (Ascii.eqb c_comma c_comma) with true. cbv iota.
  assert (E : (d =? 0)%Z = false) by (apply Z.eqb_neq; assumption). rewrite E. reflexivity.
Qed.

Lemma split_step_comma_top : forall rest cur acc,
  split_params (c_comma :: rest) 0%Z cur acc = split_params rest 0%Z [] (push_trimmed acc cur).
Proof. intros. reflexivity. Qed.

Lemma split_step_lt : forall rest d cur acc,
  split_params (c_lt :: rest) d cur acc = split_params rest (d + 1)%Z (cur ++ [c_lt]) acc.
Proof. intros. reflexivity. Qed.

Lemma split_step_gt : forall rest d cur acc,
  split_params (c_gt :: rest) d cur acc = split_params rest (d - 1)%Z (cur ++ [c_gt]) acc.
Proof. intros. reflexivity. Qed.

Lemma join_cons2 : forall a b r,
  join_with sep (map show (a :: b :: r)) = show a ++ c_comma :: c_sp :: join_with sep (map show (b :: r)).
Proof. intros. reflexivity. Qed.

(* scanning the spelling of a well-formed type at any depth >= 0 never splits and returns to the
   same depth; inside brackets (depth >= 1) the same holds for a whole ", "-joined list *)
Lemma split_join_inert : forall (l : list ty),
  Forall (fun t => forall rest d cur acc, (0 <= d)%Z ->
            split_params (show t ++ rest) d cur acc = split_params rest d (cur ++ show t) acc) l ->
  forall rest d cur acc, (1 <= d)%Z ->
    split_params (join_with sep (map show l) ++ rest) d cur acc =
    split_params rest d (cur ++ join_with sep (map show l)) acc.
Proof.
  induction l as [|a r IH]; intros Hl rest d cur acc Hd.
  - simpl. rewrite app_nil_r. reflexivity.
  - inversion Hl as [|? ? Ha Hr]; subst. destruct r as [|b r].
    + simpl. apply Ha. lia.
    + rewrite join_cons2. rewrite <- app_assoc. rewrite Ha by lia.
      rewrite <- !app_comm_cons.
      rewrite split_step_comma_deep by lia.
      rewrite (split_step_plain c_sp) by exact plain_sp.
      rewrite (IH Hr) by exact Hd.
      f_equal. rewrite <- !app_assoc. reflexivity.
Qed.

Lemma split_show_inert : forall t, wf t ->
  forall rest d cur acc, (0 <= d)%Z ->
    split_params (show t ++ rest) d cur acc = split_params rest d (cur ++ show t) acc.
Proof.
  induction t as [n | n args IH] using ty_ind'; intros Hwf rest d cur acc Hd.
  - simpl. apply split_plain_run. apply clean_plain. exact Hwf.
  - apply wf_app_forall in Hwf. destruct Hwf as [Hc [Hne Hargs]].
    assert (Hall : Forall (fun t => forall rest d cur acc, (0 <= d)%Z ->
              split_params (show t ++ rest) d cur acc = split_params rest d (cur ++ show t) acc) args).
    { rewrite Forall_forall in *. intros a Ha. apply IH; auto. }
    change (show (TApp n args)) with (n ++ c_lt :: (join_with sep (map show args) ++ [c_gt])).
    rewrite <- app_assoc. rewrite split_plain_run by (apply clean_plain; exact Hc).
    rewrite <- app_comm_cons. rewrite split_step_lt.
    rewrite <- app_assoc. rewrite (split_join_inert args Hall) by lia.
    rewrite <- app_comm_cons. simpl app at 1. rewrite split_step_gt.
    replace (d + 1 - 1)%Z with d by lia.
    f_equal. rewrite <- !app_assoc. reflexivity.
Qed.

Definition starts_nonblank (w : str) : Prop := exists a w', w = a :: w' /\ is_blank a = false.
Definition ends_nonblank (w : str) : Prop := exists w' z, w = w' ++ [z] /\ is_blank z = false.

Lemma drop_blanks_prefix : forall bl w,
  Forall (fun c => is_blank c = true) bl -> starts_nonblank w -> drop_blanks (bl ++ w) = w.
Proof.
  induction bl as [|b bl IH]; intros w Hb [a [w' [Hw Ha]]]; simpl.
  - subst w. simpl. rewrite Ha. reflexivity.
  - inversion Hb as [|? ? Hb1 Hb2]; subst. rewrite Hb1. apply IH; auto. exists a, w'. auto.
Qed.

Lemma trim_blanks_prefix : forall bl w,
  Forall (fun c => is_blank c = true) bl -> starts_nonblank w -> ends_nonblank w ->
  trim (bl ++ w) = Some w.
Proof.
  intros bl w Hb Hs He. unfold trim. rewrite drop_blanks_prefix by assumption.
  destruct w as [|a w']; [destruct Hs as [? [? [[=] _]]]|].
  destruct He as [w'' [z [Hw2 Hz]]]. rewrite Hw2.
  rewrite rev_app_distr. simpl rev at 2. simpl app at 1. cbn [drop_blanks]. rewrite Hz.
  simpl rev. rewrite rev_involutive. reflexivity.
Qed.

Lemma clean_starts : forall n rest, clean n -> starts_nonblank (n ++ rest).
Proof.
  intros [|a n] rest [Hne H]; [congruence|]. inversion H as [|? ? [_ Ha] _]; subst.
  exists a, (n ++ rest). auto.
Qed.

Lemma clean_ends : forall n, clean n -> ends_nonblank n.
Proof.
  intros n [Hne H]. destruct (exists_last Hne) as [w' [z Hw]]. exists w', z. split; [exact Hw|].
  rewrite Forall_forall in H. apply H. rewrite Hw. apply in_or_app. right. left. reflexivity.
Qed.

Lemma show_edges : forall t, wf t -> starts_nonblank (show t) /\ ends_nonblank (show t).
Proof.
  intros [n | n args] Hwf.
  - simpl. split; [rewrite <- (app_nil_r n); apply clean_starts | apply clean_ends]; exact Hwf.
  - apply wf_app_forall in Hwf. destruct Hwf as [Hc _]. simpl. split.
    + apply clean_starts. exact Hc.
    + exists (n ++ [c_lt] ++ join_with sep (map show args)), c_gt. split.
      * rewrite <- !app_assoc. reflexivity.
      * reflexivity.
Qed.

Lemma split_top_level : forall l, Forall wf l -> l <> [] ->
  forall cur acc, Forall (fun c => is_blank c = true) cur ->
    split_params (join_with sep (map show l)) 0%Z cur acc = acc ++ map show l.
Proof.
  induction l as [|a r IH]; intros Hl Hne cur acc Hcur; [congruence|].
  inversion Hl as [|? ? Ha Hr]; subst.
  destruct (show_edges a Ha) as [Hs He].
  assert (Hnz : cur ++ show a <> []).
  { destruct Hs as [x [w' [Hw _]]]. rewrite Hw. destruct cur; discriminate. }
  destruct r as [|b r].
  - simpl. rewrite <- (app_nil_r (show a)) at 1.
    rewrite split_show_inert by (auto; lia). simpl.
    destruct (cur ++ show a) eqn:E; [congruence|]. rewrite <- E.
    unfold push_trimmed. rewrite trim_blanks_prefix by assumption. reflexivity.
  - rewrite join_cons2. rewrite split_show_inert by (auto; lia).
    rewrite split_step_comma_top. rewrite (split_step_plain c_sp) by exact plain_sp.
    unfold push_trimmed. rewrite trim_blanks_prefix by assumption.
    rewrite IH; auto; try discriminate.
    + rewrite <- app_assoc. reflexivity.
    + simpl. constructor; [reflexivity | constructor].
Qed.

Lemma find_char_app : forall c n rest, ~ In c n -> find_char c (n ++ c :: rest) = Some (List.length n).
Proof.
  intros c. induction n as [|a n IH]; intros rest H; simpl.
  - rewrite Ascii.eqb_refl. reflexivity.
  - assert (Ha : Ascii.eqb a c = false). { apply Ascii.eqb_neq. intros E. apply H. left. exact E. }
    rewrite Ha. rewrite IH; [reflexivity|]. intros Hin. apply H. right. exact Hin.
Qed.

Lemma find_char_none : forall c n, ~ In c n -> find_char c n = None.
Proof.
  intros c. induction n as [|a n IH]; intros H; simpl; [reflexivity|].
  assert (Ha : Ascii.eqb a c = false). { apply Ascii.eqb_neq. intros E. apply H. left. exact E. }
  rewrite Ha, IH; [reflexivity|]. intros Hin. apply H. right. exact Hin.
Qed.

Lemma rfind_char_last : forall c w, rfind_char c (w ++ [c]) = Some (List.length w).
Proof.
  intros c w. unfold rfind_char. rewrite rev_app_distr. simpl. rewrite Ascii.eqb_refl.
  rewrite app_length. simpl. f_equal. lia.
Qed.

Lemma clean_no_lt : forall n, clean n -> ~ In c_lt n.
Proof.
  intros n [_ H] Hin. rewrite Forall_forall in H. destruct (H _ Hin) as [[H1 _] _]. congruence.
Qed.

Lemma firstn_app_exact : forall (x y : str), firstn (List.length x) (x ++ y) = x.
Proof. intros. rewrite firstn_app, Nat.sub_diag, firstn_all. apply app_nil_r. Qed.

Lemma skipn_app_exact : forall (x y : str), skipn (List.length x) (x ++ y) = y.
Proof. intros. rewrite skipn_app, Nat.sub_diag, skipn_all. reflexivity. Qed.

(* What the code cuts out of b<J>: '<' by find, '>' by rfind, base = substr(0, lt),
   parameters = substr(lt + 1, gt - lt - 1), suffix = substr(gt + 1).  Shared by substitute_generic_type_name,
   TypeContext::resolve_complex_type and find_impl_for_struct. *)
Lemma angle_dissect : forall b J, ~ In c_lt b ->
  let s := b ++ c_lt :: J ++ [c_gt] in
  let lt := List.length b in
  let gt := List.length b + S (List.length J) in
  find_char c_lt s = Some lt /\ rfind_char c_gt s = Some gt /\ firstn lt s = b /\
  (if gt <? lt then skipn (lt + 1) s else firstn (gt - lt - 1) (skipn (lt + 1) s)) = J /\
  skipn (gt + 1) s = [].
Proof.
  intros b J Hb. cbv zeta.
  assert (Es : b ++ c_lt :: J ++ [c_gt] = (b ++ [c_lt]) ++ J ++ [c_gt]) by (rewrite <- app_assoc; reflexivity).
  assert (L : List.length b + 1 = List.length (b ++ [c_lt])) by (rewrite app_length; reflexivity).
  repeat split.
  - apply find_char_app. exact Hb.
  - change (b ++ c_lt :: J ++ [c_gt]) with (b ++ (c_lt :: J) ++ [c_gt]).
    rewrite app_assoc, rfind_char_last, app_length. reflexivity.
  - apply firstn_app_exact.
  - replace (_ <? _) with false by (symmetry; apply Nat.ltb_ge; lia).
    rewrite Es, L, skipn_app_exact. replace (_ - _ - 1) with (List.length J) by lia. apply firstn_app_exact.
  - apply skipn_all2. rewrite Es, !app_length. cbn [List.length]. lia.
Qed.

Lemma show_len_in_join : forall l a, In a l -> List.length (show a) <= List.length (join_with sep (map show l)).
Proof.
  induction l as [|b r IH]; intros a Hin; [contradiction|].
  destruct r as [|c r].
  - destruct Hin as [->|[]]. simpl. lia.
  - change (join_with sep (map show (b :: c :: r))) with (show b ++ sep ++ join_with sep (map show (c :: r))).
    rewrite !app_length. destruct Hin as [->|Hin]; [lia|]. specialize (IH a Hin). lia.
Qed.

Lemma subst_generic_refines : forall m t, wf t ->
  forall fuel, List.length (show t) <= fuel -> subst_generic fuel m (show t) = show (tsubst m t).
Proof.
  intros m. induction t as [n | n args IH] using ty_ind'; intros Hwf fuel Hf.
  - simpl. destruct fuel; simpl; rewrite (find_char_none c_lt n (clean_no_lt n Hwf)); reflexivity.
  - apply wf_app_forall in Hwf. destruct Hwf as [Hc [Hne Hargs]].
    change (show (TApp n args)) with (n ++ c_lt :: join_with sep (map show args) ++ [c_gt]) in *.
    rewrite app_length in Hf. cbn [List.length] in Hf. rewrite app_length in Hf.
    destruct fuel as [|f]; [lia|].
    destruct (angle_dissect n (join_with sep (map show args)) (clean_no_lt n Hc)) as (E1 & E2 & E3 & E4 & _).
    cbn [subst_generic]. rewrite E1, E2. cbv beta iota zeta. rewrite E3, E4.
    rewrite (split_top_level args Hargs Hne [] []) by constructor.
    cbn [tsubst show app]. rewrite !map_map. do 4 f_equal.
    apply map_ext_in. intros a Ha. rewrite Forall_forall in IH, Hargs. apply IH; [exact Ha | apply Hargs, Ha |].
    pose proof (show_len_in_join args a Ha). lia.
Qed.

(* a type parameter occurs in t when one of its leaves is that name *)
Fixpoint mentions (ps : list str) (t : ty) : Prop :=
  match t with
  | TName n => In n ps
  | TApp _ args => (fix any (l : list ty) : Prop := match l with [] => False | a :: r => mentions ps a \/ any r end) args
  end.

Lemma mentions_app : forall ps n args, mentions ps (TApp n args) <-> Exists (mentions ps) args.
Proof.
  intros ps n args. simpl. induction args as [|a r IH]; split; intros H.
  - contradiction.
  - inversion H.
  - destruct H as [H|H]; [left; exact H | right; apply IH; exact H].
  - inversion H; subst; [left; assumption | right; apply IH; assumption].
Qed.

(* the map binds every parameter, and no bound value is itself a parameter name *)
Definition binds_all (m : tmap) (ps : list str) : Prop := forall p, In p ps -> lookup m p <> None.
Definition range_closed (m : tmap) (ps : list str) : Prop := forall p v, lookup m p = Some v -> ~ In v ps.

Lemma tsubst_total_l : forall m ps t, binds_all m ps -> range_closed m ps -> ~ mentions ps (tsubst m t).
Proof.
  intros m ps t Hb Hr. induction t as [n | n args IH] using ty_ind'.
  - simpl. unfold map_or_self. destruct (lookup m n) as [v|] eqn:E.
    + apply (Hr n v E).
    + intros Hin. apply (Hb n Hin E).
  - simpl tsubst. rewrite mentions_app. intros Hex. apply Exists_exists in Hex.
    destruct Hex as [x [Hx Hm]]. apply in_map_iff in Hx. destruct Hx as [a [Ha Hin]]. subst x.
    rewrite Forall_forall in IH. exact (IH a Hin Hm).
Qed.

(* subst_name3 sends a bare name with '_' to substitute_normalized_generic_type; elsewhere it is substitute_generic_type_name *)
Definition no_underscore_leaf (t : ty) : Prop :=
  match t with TName n => ~ In c_us n | TApp _ _ => True end.

Lemma has_char_false : forall c s, ~ In c s -> has_char c s = false.
Proof. intros. unfold has_char. rewrite find_char_none; auto. Qed.
