(* C03 - the property theorems, each derived from the combinator laws and equations of C03/RefOrder.v,
   the single traced operand of C03/Traced.v, the switch lemmas of C03/MechLemmas.v or by running a
   witness of C03/Witness.v.
   Ref  = the shared fuelled reference interpreter [Lang.Sem.eval/exec], [Lang.Print.run].
   Mech = [C03.EvalOrder.ieval/iexec/irun]: Ref with five deviations behind switches; [dev_pinned] = today's
   implementation (two left on: typed re-evaluation of subscript lists, println retry; three repaired).
   Every statement about Ref is for every function table, fuel, operand expression and state. *)
From Coq Require Import List ZArith Bool Arith.
From Cb Require Import Lang.Syntax Lang.Sem Lang.Respect Lang.Theorems Lang.Print.
From Cb Require Import C03.Model C03.EvalOrder C03.RefOrder C03.Traced C03.MechLemmas C03.Witness.
Import ListNotations.
Local Open Scope Z_scope.

(* a && b with a false: the result is 0 and the final state is EXACTLY the state after a - b (printing,
   failing, ill-formed, anything) contributes no output and cannot fail the evaluation *)
Theorem and_skips_rhs : forall funcs k a b s s1,
  eval funcs k a s = (Val 0, s1) -> eval funcs (S k) (EAnd a b) s = (Val 0, s1).
Proof. intros funcs k a b s s1. rewrite eval_and_eq. apply sc_and_skips. Qed.
Print Assumptions and_skips_rhs.

(* a true: b is evaluated next, from the state a left, and its truth value is the result *)
Theorem and_runs_rhs : forall funcs k a b s x s1,
  eval funcs k a s = (Val x, s1) -> x <> 0 ->
  eval funcs (S k) (EAnd a b) s = (y <- eval funcs k b ;; ret (truth y)) s1.
Proof. intros funcs k a b s x s1. rewrite eval_and_eq. apply sc_and_runs. Qed.
Print Assumptions and_runs_rhs.

Theorem or_skips_rhs : forall funcs k a b s x s1,
  eval funcs k a s = (Val x, s1) -> x <> 0 -> eval funcs (S k) (EOr a b) s = (Val 1, s1).
Proof. intros funcs k a b s x s1. rewrite eval_or_eq. apply sc_or_skips. Qed.
Print Assumptions or_skips_rhs.

Theorem or_runs_rhs : forall funcs k a b s s1,
  eval funcs k a s = (Val 0, s1) ->
  eval funcs (S k) (EOr a b) s = (y <- eval funcs k b ;; ret (truth y)) s1.
Proof. intros funcs k a b s s1. rewrite eval_or_eq. apply sc_or_runs. Qed.
Print Assumptions or_runs_rhs.

(* c ? a : b is the evaluation of c followed by the evaluation of the selected branch alone *)
Theorem cond_evaluates_one_branch : forall funcs k c a b s x s1,
  eval funcs k c s = (Val x, s1) ->
  eval funcs (S k) (ECond c a b) s = if x =? 0 then eval funcs k b s1 else eval funcs k a s1.
Proof.
  intros funcs k c a b s x s1 H. rewrite eval_S_cond, (bind_val _ _ _ _ _ H). destruct (x =? 0); reflexivity.
Qed.
Print Assumptions cond_evaluates_one_branch.

(* binary operators: the left operand, then the right operand from the state the left one produced,
   then the operator; a failing operand ends the evaluation where it failed *)
Theorem binop_left_then_right : forall funcs k o a b s,
  eval funcs (S k) (EBin o a b) = (x <- eval funcs k a ;; y <- eval funcs k b ;; lift (arith o x y)) /\
  (forall x s1 y s2, eval funcs k a s = (Val x, s1) -> eval funcs k b s1 = (Val y, s2) ->
                     eval funcs (S k) (EBin o a b) s = (arith o x y, s2)) /\
  (forall x s1 e s2, eval funcs k a s = (Val x, s1) -> eval funcs k b s1 = (Fail e, s2) ->
                     eval funcs (S k) (EBin o a b) s = (Fail e, s2)).
Proof.
  intros funcs k o a b s. split; [apply eval_S_bin|]. split; [apply binop_both|].
  intros x s1 e s2 Ha Hb. rewrite eval_S_bin, (bind_val _ _ _ _ _ Ha). apply (bind_fail _ _ _ _ _ Hb).
Qed.
Print Assumptions binop_left_then_right.

(* the first operand of any operator fails: that is the outcome, in the state where it failed *)
Theorem first_operand_failure_stops : forall funcs k a s e s1, eval funcs k a s = (Fail e, s1) ->
  (forall o b, eval funcs (S k) (EBin o a b) s = (Fail e, s1)) /\
  (forall b, eval funcs (S k) (EAnd a b) s = (Fail e, s1)) /\
  (forall b, eval funcs (S k) (EOr a b) s = (Fail e, s1)) /\
  (forall x y, eval funcs (S k) (ECond a x y) s = (Fail e, s1)) /\
  (forall o, eval funcs (S k) (EUn o a) s = (Fail e, s1)).
Proof. intros funcs k a s e s1 H. repeat apply conj; intros; exact (bind_fail _ _ _ _ _ H). Qed.
Print Assumptions first_operand_failure_stops.

(* the transcript of a binary operation is the transcript of its left operand followed by the
   transcript of its right operand (output lists are newest-first); uses output_monotone *)
Theorem binop_transcript_concat : forall funcs k o a b s x s1 y s2,
  eval funcs k a s = (Val x, s1) -> eval funcs k b s1 = (Val y, s2) ->
  exists la lb, sout s1 = la ++ sout s /\ sout s2 = lb ++ la ++ sout s /\
                sout (snd (eval funcs (S k) (EBin o a b) s)) = lb ++ la ++ sout s.
Proof.
  intros funcs k o a b s x s1 y s2 Ha Hb.
  destruct (proj1 (output_monotone_l funcs k) a s) as [la Hla].
  destruct (proj1 (output_monotone_l funcs k) b s1) as [lb Hlb].
  rewrite Ha in Hla. rewrite Hb in Hlb. cbn [snd] in *.
  exists la, lb. rewrite (binop_both _ _ o _ _ _ _ _ _ _ Ha Hb). cbn [snd].
  rewrite Hlb, Hla. repeat split; reflexivity.
Qed.
Print Assumptions binop_transcript_concat.

(* operand lists (index lists, initialiser lists): a concatenation is evaluated as its first part and
   then its second part from the state the first part produced; a failing element hides all later ones *)
Theorem operand_list_in_order : forall (ev : expr -> M Z) es1 es2 s,
  eval_list ev (es1 ++ es2) s = (vs1 <- eval_list ev es1 ;; vs2 <- eval_list ev es2 ;; ret (vs1 ++ vs2)) s.
Proof.
  intros ev es1 es2. induction es1 as [|e r IH]; intros s; cbn [app eval_list].
  - unfold bind, ret. destruct (eval_list ev es2 s) as [c s']. destruct c; reflexivity.
  - unfold bind, ret. destruct (ev e s) as [c s1]. destruct c; try reflexivity.
    rewrite IH. unfold bind, ret.
    destruct (eval_list ev r s1) as [c2 s2]. destruct c2; try reflexivity.
    destruct (eval_list ev es2 s2) as [c3 s3]. destruct c3; reflexivity.
Qed.
Print Assumptions operand_list_in_order.

Theorem operand_list_stops_at_failure : forall (ev : expr -> M Z) es1 e es2 s vs s1 er s2,
  eval_list ev es1 s = (Val vs, s1) -> ev e s1 = (Fail er, s2) ->
  eval_list ev (es1 ++ e :: es2) s = (Fail er, s2).
Proof.
  intros ev es1 e es2 s vs s1 er s2 H1 H2. rewrite operand_list_in_order, (bind_val _ _ _ _ _ H1).
  apply bind_fail. rewrite eval_list_cons. apply (bind_fail _ _ _ _ _ H2).
Qed.
Print Assumptions operand_list_stops_at_failure.

(* call arguments: any number of traced arguments t(k_i, v_i) passed to long parameters are each
   evaluated exactly once, left to right - the values arrive in order and the output is extended by
   exactly k_1 .. k_n in that order; an argument that fails hides all later ones *)
Theorem args_left_to_right_once : forall funcs, has_operand_funcs funcs -> forall n kvs ps s,
  ok_kvs kvs -> Forall (fun p => pty p = tlong) ps ->
  eval_args (eval funcs (S (S (S n)))) ps (tcalls kvs) s =
  (Val (map snd kvs), with_out s (traced (map fst kvs) (sout s))).
Proof.
  intros funcs Hf n kvs. induction kvs as [|[k v] r IH]; intros ps s H Hp.
  - cbn. rewrite with_out_same. reflexivity.
  - inversion H as [|x l [Hk Hv] Hr]; subst. cbn [fst snd] in Hk, Hv. cbn [tcalls map fst snd eval_args]. fold (tcalls r).
    rewrite (bind_val _ _ _ _ _ (tcall_eval funcs Hf n k v s Hk Hv)).
    destruct ps as [|p pr].
    + rewrite (bind_val _ _ _ _ _ (IH [] _ Hr Hp)). rewrite with_out_out, with_out_twice, traced_cons. reflexivity.
    + inversion Hp as [|p' l' Hp1 Hp2]; subst. rewrite Hp1, (coerce_tlong _ Hv). unfold lift at 1, bind at 1.
      rewrite (bind_val _ _ _ _ _ (IH pr _ Hr Hp2)). rewrite with_out_out, with_out_twice, traced_cons. reflexivity.
Qed.
Print Assumptions args_left_to_right_once.

Theorem args_stop_at_failure : forall (ev : expr -> M Z) ps es1 e es2 s vs s1 er s2,
  eval_args ev ps es1 s = (Val vs, s1) -> ev e s1 = (Fail er, s2) ->
  eval_args ev ps (es1 ++ e :: es2) s = (Fail er, s2).
Proof.
  intros ev ps es1. revert ps.
  induction es1 as [|x r IH]; intros ps e es2 s vs s1 er s2 H1 H2; cbn [app eval_args] in *.
  - injection H1 as _ <-. apply (bind_fail _ _ _ _ _ H2).
  - apply bind_inv_val in H1 as (a & sx & Hx & H1). rewrite (bind_val _ _ _ _ _ Hx).
    destruct ps as [|p pr].
    + apply bind_inv_val in H1 as (vr & s3 & Hr & [= _ <-]). apply bind_fail, (IH [] _ _ _ _ _ _ _ Hr H2).
    + apply bind_inv_val in H1 as (a' & s' & Hc & H1). rewrite (bind_val _ _ _ _ _ Hc).
      apply bind_inv_val in H1 as (vr & s3 & Hr & [= _ <-]). apply bind_fail, (IH pr _ _ _ _ _ _ _ Hr H2).
Qed.
Print Assumptions args_stop_at_failure.

(* a call evaluates all its arguments (as above) and only then enters the callee *)
Theorem call_evaluates_args_then_body : forall funcs, has_operand_funcs funcs -> forall n f fd kvs s,
  find_func f funcs = Some fd ->
  (Nat.ltb (List.length (tcalls kvs)) (required (fparams fd))) || (Nat.ltb (List.length (fparams fd)) (List.length (tcalls kvs))) = false ->
  ok_kvs kvs -> Forall (fun p => pty p = tlong) (fparams fd) ->
  eval funcs (S (S (S (S n)))) (ECall f (tcalls kvs)) s =
  (m_push_frame f ;;;
   finally (map_ctl (call_result (fret fd))
              (bind_params (eval funcs (S (S (S n)))) (fparams fd) (map snd kvs) ;;;
               exec_list (exec funcs (S (S (S n)))) (fbody fd))) pop_frame_st)
  (with_out s (traced (map fst kvs) (sout s))).
Proof.
  intros funcs Hfuncs n f fd kvs s Hf Ha H Hp. rewrite (eval_call_eq funcs _ _ _ fd Hf Ha).
  rewrite (bind_val _ _ _ _ _ (args_left_to_right_once funcs Hfuncs n kvs _ s H Hp)). reflexivity.
Qed.
Print Assumptions call_evaluates_args_then_body.

(* index expressions, any number of dimensions: each once, left to right, then the element is read *)
Theorem indices_left_to_right_once : forall funcs, has_operand_funcs funcs -> forall n a kvs s, ok_kvs kvs ->
  eval funcs (S (S (S (S n)))) (EIdx a (tcalls kvs)) s =
  m_read a (map snd kvs) (with_out s (traced (map fst kvs) (sout s))).
Proof.
  intros funcs Hf n a kvs s H. rewrite eval_S_idx, <- eval_args_nil.
  rewrite (bind_val _ _ _ _ _ (args_left_to_right_once funcs Hf n kvs [] s H (Forall_nil _))). reflexivity.
Qed.
Print Assumptions indices_left_to_right_once.

(* traced operands of the operators: the transcript is the event order *)
Theorem traced_binop_order : forall funcs, has_operand_funcs funcs -> forall n o k1 v1 k2 v2 s,
  in64 k1 = true -> in64 v1 = true -> in64 k2 = true -> in64 v2 = true ->
  eval funcs (S (S (S (S n)))) (EBin o (tcall k1 v1) (tcall k2 v2)) s =
  (arith o v1 v2, with_out s (trace1 k2 (trace1 k1 (sout s)))).
Proof.
  intros funcs Hf n o k1 v1 k2 v2 s H1 H2 H3 H4.
  exact (binop_both funcs _ o _ _ s v1 _ v2 _ (tcall_eval funcs Hf n k1 v1 s H1 H2) (tcall_eval funcs Hf n k2 v2 _ H3 H4)).
Qed.
Print Assumptions traced_binop_order.

Theorem traced_and_or_order : forall funcs, has_operand_funcs funcs -> forall n k1 v1 k2 v2 s,
  in64 k1 = true -> in64 v1 = true -> in64 k2 = true -> in64 v2 = true ->
  (forall b, eval funcs (S (S (S (S n)))) (EAnd (tcall k1 0) b) s = (Val 0, with_out s (trace1 k1 (sout s)))) /\
  (v1 <> 0 -> eval funcs (S (S (S (S n)))) (EAnd (tcall k1 v1) (tcall k2 v2)) s =
              (Val (truth v2), with_out s (trace1 k2 (trace1 k1 (sout s))))) /\
  (v1 <> 0 -> forall b, eval funcs (S (S (S (S n)))) (EOr (tcall k1 v1) b) s = (Val 1, with_out s (trace1 k1 (sout s)))) /\
  eval funcs (S (S (S (S n)))) (EOr (tcall k1 0) (tcall k2 v2)) s =
  (Val (truth v2), with_out s (trace1 k2 (trace1 k1 (sout s)))).
Proof.
  intros funcs Hf n k1 v1 k2 v2 s H1 H2 H3 H4.
  pose proof (tcall_eval funcs Hf n k1 0 s H1 eq_refl) as E0. pose proof (tcall_eval funcs Hf n k1 v1 s H1 H2) as E1.
  repeat apply conj; intros.
  - apply and_skips_rhs, E0.
  - rewrite (and_runs_rhs _ _ _ _ _ _ _ E1), (bind_val _ _ _ _ _ (tcall_eval funcs Hf n k2 v2 _ H3 H4)); [reflexivity|assumption].
  - apply (or_skips_rhs _ _ _ _ _ _ _ E1); assumption.
  - rewrite (or_runs_rhs _ _ _ _ _ _ E0), (bind_val _ _ _ _ _ (tcall_eval funcs Hf n k2 v2 _ H3 H4)). reflexivity.
Qed.
Print Assumptions traced_and_or_order.

Theorem traced_cond_order : forall funcs, has_operand_funcs funcs -> forall n k c a b s,
  in64 k = true -> in64 c = true ->
  eval funcs (S (S (S (S n)))) (ECond (tcall k c) a b) s =
  if c =? 0 then eval funcs (S (S (S n))) b (with_out s (trace1 k (sout s)))
  else eval funcs (S (S (S n))) a (with_out s (trace1 k (sout s))).
Proof. intros funcs Hf n k c a b s Hk Hc. apply cond_evaluates_one_branch, tcall_eval; assumption. Qed.
Print Assumptions traced_cond_order.

(* a failing left operand prints its label, fails, and nothing of the other operands happens *)
Theorem failing_left_operand_stops : forall funcs, has_operand_funcs funcs -> forall n k s, in64 k = true ->
  (forall o b, eval funcs (S (S (S (S (S n))))) (EBin o (bcall k) b) s = (Fail EDiv0, with_out s (trace1 k (sout s)))) /\
  (forall b, eval funcs (S (S (S (S (S n))))) (EAnd (bcall k) b) s = (Fail EDiv0, with_out s (trace1 k (sout s)))) /\
  (forall b, eval funcs (S (S (S (S (S n))))) (EOr (bcall k) b) s = (Fail EDiv0, with_out s (trace1 k (sout s)))) /\
  (forall x y, eval funcs (S (S (S (S (S n))))) (ECond (bcall k) x y) s = (Fail EDiv0, with_out s (trace1 k (sout s)))).
Proof.
  intros funcs Hf n k s Hk.
  destruct (first_operand_failure_stops funcs _ _ _ _ _ (bcall_eval funcs Hf n k s Hk)) as (A & B & C & D & _).
  repeat apply conj; assumption.
Qed.
Print Assumptions failing_left_operand_stops.

Lemma nonzero_test funcs k d dv s : m_read d [] s = (Val dv, s) ->
  eval funcs (S (S k)) (EBin Ne (EVar d) (ENum 0)) s = (Val (b2z (negb (dv =? 0))), s).
Proof. intros Hd. exact (binop_both funcs (S k) Ne (EVar d) (ENum 0) s dv s 0 s Hd eq_refl). Qed.

(* d = 0 -> `d != 0 && X` is 0 for any guarded operand X, nothing printed, nothing changed; in particular
   for `d != 0 && n / d > 1` *)
Theorem guard_protects_any_operand : forall funcs k d x s,
  m_read d [] s = (Val 0, s) -> eval funcs (S (S (S k))) (EAnd (EBin Ne (EVar d) (ENum 0)) x) s = (Val 0, s).
Proof. intros funcs k d x s Hd. apply and_skips_rhs. exact (nonzero_test funcs k d 0 s Hd). Qed.
Print Assumptions guard_protects_any_operand.

Theorem guard_protects : forall funcs k d n s,
  m_read d [] s = (Val 0, s) -> eval funcs (S (S (S k))) (guard_div d n) s = (Val 0, s).
Proof. intros funcs k d n. apply guard_protects_any_operand. Qed.
Print Assumptions guard_protects.

(* the guard is not vacuous: without it the same operand fails, and with d <> 0 it computes the quotient test *)
Theorem guarded_operand_alone_fails : forall funcs k d n nv s,
  m_read d [] s = (Val 0, s) -> m_read n [] s = (Val nv, s) ->
  eval funcs (S (S (S k))) (EBin Gt (EBin Div (EVar n) (EVar d)) (ENum 1)) s = (Fail EDiv0, s).
Proof.
  intros funcs k d n nv s Hd Hn. apply first_operand_failure_stops.
  exact (binop_both funcs (S k) Div (EVar n) (EVar d) s nv s 0 s Hn Hd).
Qed.
Print Assumptions guarded_operand_alone_fails.

Theorem guard_open_computes : forall funcs k d n dv nv s,
  m_read d [] s = (Val dv, s) -> m_read n [] s = (Val nv, s) -> dv <> 0 -> in64 (Z.quot nv dv) = true ->
  eval funcs (S (S (S (S k)))) (guard_div d n) s = (Val (b2z (1 <? Z.quot nv dv)), s).
Proof.
  intros funcs k d n dv nv s Hd Hn Hnz Hq. apply Z.eqb_neq in Hnz. unfold guard_div.
  rewrite (and_runs_rhs funcs _ _ _ s _ s (nonzero_test funcs (S k) d dv s Hd)) by (rewrite Hnz; discriminate).
  assert (Hdiv : eval funcs (S (S k)) (EBin Div (EVar n) (EVar d)) s = (Val (Z.quot nv dv), s)).
  { rewrite (binop_both funcs (S k) Div (EVar n) (EVar d) s nv s dv s Hn Hd). unfold arith, chk. rewrite Hnz, Hq. reflexivity. }
  rewrite (bind_val _ _ _ _ _ (binop_both funcs _ Gt _ (ENum 1) s _ s 1 s Hdiv eq_refl)).
  unfold truth, ret. destruct (1 <? Z.quot nv dv); reflexivity.
Qed.
Print Assumptions guard_open_computes.

(* i >= n -> `i < n && a[i] > 0` is 0 and a is not touched (it need not even exist) *)
Theorem guard_protects_index : forall funcs k i n a iv nv s,
  m_read i [] s = (Val iv, s) -> m_read n [] s = (Val nv, s) -> nv <= iv ->
  eval funcs (S (S (S k))) (guard_idx i n a) s = (Val 0, s).
Proof.
  intros funcs k i n a iv nv s Hi Hn Hle. apply and_skips_rhs.
  rewrite (binop_both funcs (S k) Lt (EVar i) (EVar n) s iv s nv s Hi Hn). unfold arith.
  rewrite (proj2 (Z.ltb_ge iv nv) Hle). reflexivity.
Qed.
Print Assumptions guard_protects_index.

(* Mech with every deviation switched off IS Ref, for every program, flag, fuel and state: the five
   switches are the only differences between the model of the implementation and the reference *)
Theorem mech_no_deviation_is_ref : forall funcs n,
  (forall ty e s, ieval dev_none funcs n ty e s = eval funcs n e s) /\
  (forall st s, iexec dev_none funcs n st s = exec funcs n st s).
Proof. exact mech_no_deviation_is_ref_l. Qed.
Print Assumptions mech_no_deviation_is_ref.

Theorem mech_no_deviation_runs_as_ref : forall fuel p, irun dev_none fuel p = run fuel p.
Proof.
  intros fuel p. unfold irun, run. destruct (init_state p) as [s0|]; [|reflexivity].
  rewrite (exec_list_ext _ _ (proj2 (mech_no_deviation_is_ref (pfuncs p) fuel)) (pmain p) s0). reflexivity.
Qed.
Print Assumptions mech_no_deviation_runs_as_ref.

(* evaluating both operands of && / || (/repo before a51b767) has the outcome of short-circuit evaluation
   whenever, in the state where the left operand has decided, the right operand yields a value and leaves
   the state alone: the avoidance predicate of the main input stream *)
Theorem both_operands_invisible_when_rhs_quiet : forall ea eb s,
  ((forall s1, ea s = (Val 0, s1) -> exists v, eb s1 = (Val v, s1)) -> ns_and ea eb s = sc_and ea eb s) /\
  ((forall x s1, ea s = (Val x, s1) -> x <> 0 -> exists v, eb s1 = (Val v, s1)) -> ns_or ea eb s = sc_or ea eb s).
Proof. intros. split; [apply ns_and_invisible|apply ns_or_invisible]. Qed.
Print Assumptions both_operands_invisible_when_rhs_quiet.

(* with d_noshort off (/repo since a51b767), && and || of Mech are Ref's short-circuit combinators over
   Mech's operand evaluation, so the skipping laws hold of Mech for every operand, typed flag, fuel and state *)
Theorem mech_short_circuit : forall D funcs k ty a b, d_noshort D = false ->
  ieval D funcs (S k) ty (EAnd a b) = sc_and (ieval D funcs k ty a) (ieval D funcs k ty b) /\
  ieval D funcs (S k) ty (EOr a b) = sc_or (ieval D funcs k ty a) (ieval D funcs k ty b).
Proof. intros. split; [apply mech_and_eq|apply mech_or_eq]; assumption. Qed.
Print Assumptions mech_short_circuit.

Theorem mech_and_skips_rhs : forall D funcs k ty a b s s1, d_noshort D = false ->
  ieval D funcs k ty a s = (Val 0, s1) -> ieval D funcs (S k) ty (EAnd a b) s = (Val 0, s1).
Proof. intros D funcs k ty a b s s1 H. rewrite (mech_and_eq _ _ _ _ _ _ H). apply sc_and_skips. Qed.
Print Assumptions mech_and_skips_rhs.

Theorem mech_or_skips_rhs : forall D funcs k ty a b s x s1, d_noshort D = false ->
  ieval D funcs k ty a s = (Val x, s1) -> x <> 0 -> ieval D funcs (S k) ty (EOr a b) s = (Val 1, s1).
Proof. intros D funcs k ty a b s x s1 H. rewrite (mech_or_eq _ _ _ _ _ _ H). apply sc_or_skips. Qed.
Print Assumptions mech_or_skips_rhs.

(* so the guard protects in Mech too: d = 0 -> `d != 0 && X` is 0, for any X *)
Theorem mech_guard_protects : forall D funcs k ty d x s, d_noshort D = false ->
  m_read d [] s = (Val 0, s) ->
  ieval D funcs (S (S (S k))) ty (EAnd (EBin Ne (EVar d) (ENum 0)) x) s = (Val 0, s).
Proof.
  intros D funcs k ty d x s H Hd. apply mech_and_skips_rhs; [exact H|].
  cbn [ieval]. rewrite (bind_val _ _ _ _ _ Hd). reflexivity.
Qed.
Print Assumptions mech_guard_protects.

(* with d_rtl and d_elemcall off (/repo since 2967bbb, df79998) an element store of Mech is: the value
   (once), the subscripts left to right (each once), the write *)
Theorem mech_elem_store_value_then_indices_in_order : forall D funcs k a idx e s,
  d_rtl D = false -> d_elemcall D = false ->
  iexec D funcs (S k) (SAssign (LIdx a idx) None e) s =
  (v <- ieval D funcs k true e ;; is_ <- eval_list (ieval D funcs k false) idx ;; m_write a is_ v) s.
Proof.
  intros D funcs k a idx e s Hr He. unfold iexec; fold (ieval D funcs).
  rewrite (mech_no_pre_eval _ _ _ _ He), (mech_lval_target _ _ _ Hr). cbn [lval_target]. unfold bind, ret.
  destruct (ieval D funcs k true e s) as [[] s1]; try reflexivity.
  destruct (eval_list (ieval D funcs k false) idx s1) as [[] s2]; reflexivity.
Qed.
Print Assumptions mech_elem_store_value_then_indices_in_order.

Theorem mech_index_lists_left_to_right : forall D ev es, d_rtl D = false ->
  index_list D ev es = eval_list (ev false) es.
Proof. exact mech_index_list_ltr. Qed.
Print Assumptions mech_index_lists_left_to_right.

(* the model of today's implementation has those three switches off, and the witnesses of the three
   repaired defects (DESIGN section 7 #5, #41, the index-order one) run as the reference semantics says *)
Theorem mech_pinned_has_the_repairs :
  d_noshort dev_pinned = false /\ d_rtl dev_pinned = false /\ d_elemcall dev_pinned = false /\
  irun dev_pinned 50 w_sc = run 50 w_sc /\ run 50 w_sc = (lines [1; 200], Finished) /\
  irun dev_pinned 50 w_guard = run 50 w_guard /\ run 50 w_guard = (lines [0], Finished) /\
  irun dev_pinned 50 w_idx = run 50 w_idx /\ run 50 w_idx = (lines [7; 1; 0; 7], Finished) /\
  irun dev_pinned 50 w_elem = run 50 w_elem /\ run 50 w_elem = (lines [5; 3], Finished).
Proof. repeat apply conj; vm_compute; reflexivity. Qed.
Print Assumptions mech_pinned_has_the_repairs.

(* today's implementation still violates the property in two ways.
   long x = m[t(1)][t(2)]: the index list is evaluated twice in a typed context *)
Theorem mech_indices_once_refuted : exists fuel p,
  run fuel p = (lines [1; 2; 0], Finished) /\ irun dev_pinned fuel p = (lines [1; 2; 1; 2; 0], Finished).
Proof. exists 50%nat, w_twice. split; vm_compute; reflexivity. Qed.
Print Assumptions mech_indices_once_refuted.

(* println(t(1) + bad(2)): the failing argument is evaluated twice *)
Theorem mech_println_argument_once_refuted : exists fuel p,
  run fuel p = (lines [1; 2], Failed EDiv0) /\ irun dev_pinned fuel p = (lines [1; 2; 1; 2], Failed EDiv0).
Proof. exists 50%nat, w_retry. split; vm_compute; reflexivity. Qed.
Print Assumptions mech_println_argument_once_refuted.

(* the hypotheses are satisfiable *)
Example operand_funcs_exist : has_operand_funcs [t_fun; bad_fun].
Proof. split; reflexivity. Qed.

Example traced_args_instance :
  eval_args (eval [t_fun; bad_fun] 10) [ {| pty := tlong; pname := 20%nat; pdef := None |}; {| pty := tlong; pname := 21%nat; pdef := None |} ]
            (tcalls [(101, 5); (102, 6)]) (state_with []) =
  (Val [5; 6], with_out (state_with []) [ONl; OInt 102; ONl; OInt 101]).
Proof. vm_compute. reflexivity. Qed.

Example guard_instance :
  let p := prog [] [SDecl false false tlong 12%nat (Some (ENum 0)); SDecl false false tlong 13%nat (Some (ENum 10));
                    SPrint true [guard_div 12%nat 13%nat]; SPrint true [EBin Gt (EBin Div (EVar 13%nat) (EVar 12%nat)) (ENum 1)]] in
  run 50 p = ([OInt 0; ONl], Failed EDiv0).
Proof. vm_compute. reflexivity. Qed.
