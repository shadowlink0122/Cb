(* C03 - lemmas about Mech (EvalOrder.v): each switch, when off, leaves Ref's construct in its place, so
   with every deviation switched off Mech is Ref (the switches are the only differences); a condition
   under which evaluating both operands of && / || is invisible. *)
From Coq Require Import List ZArith Bool.
From Cb Require Import Lang.Syntax Lang.Sem Lang.Respect C03.Model C03.EvalOrder.
Import ListNotations.
Local Open Scope Z_scope.

Definition meq {A} (m1 m2 : M A) : Prop := forall s, m1 s = m2 s.
Infix "==" := meq (at level 70).

Lemma meq_refl {A} (m : M A) : m == m. Proof. intros s. reflexivity. Qed.

(* every combinator of Lang.Sem respects ==; the hint database [meq] closes such goals by congruence *)
Lemma bind_ext {A B} (m1 m2 : M A) (f1 f2 : A -> M B) :
  m1 == m2 -> (forall a, f1 a == f2 a) -> bind m1 f1 == bind m2 f2.
Proof. intros Hm Hf s. unfold bind. rewrite Hm. destruct (m2 s) as [c s']. destruct c; try reflexivity. apply Hf. Qed.
Lemma if_ext {A} (b : bool) (m1 m2 n1 n2 : M A) :
  m1 == m2 -> n1 == n2 -> (if b then m1 else n1) == (if b then m2 else n2).
Proof. destruct b; auto. Qed.
Lemma finally_ext {A} (m1 m2 : M A) fin : m1 == m2 -> finally m1 fin == finally m2 fin.
Proof. intros H s. unfold finally. rewrite H. reflexivity. Qed.
Lemma map_ctl_ext {A B} (g : ctl A -> ctl B) m1 m2 : m1 == m2 -> map_ctl g m1 == map_ctl g m2.
Proof. intros H s. unfold map_ctl. rewrite H. reflexivity. Qed.
Lemma loop_step_ext b1 b2 n1 n2 : b1 == b2 -> n1 == n2 -> loop_step b1 n1 == loop_step b2 n2.
Proof. intros Hb Hn s. unfold loop_step. rewrite Hb. destruct (b2 s) as [c s']. destruct c; try reflexivity; apply Hn. Qed.
Create HintDb meq discriminated.
#[local] Hint Resolve meq_refl bind_ext if_ext finally_ext map_ctl_ext loop_step_ext : meq.

Lemma sc_and_ext a1 a2 b1 b2 : a1 == a2 -> b1 == b2 -> sc_and a1 b1 == sc_and a2 b2.
Proof. unfold sc_and. auto with meq. Qed.
Lemma sc_or_ext a1 a2 b1 b2 : a1 == a2 -> b1 == b2 -> sc_or a1 b1 == sc_or a2 b2.
Proof. unfold sc_or. auto with meq. Qed.

(* the list functions of Lang.Sem respect every relation between computations that holds on the primitives
   and is preserved by [bind] (Lang.Respect, section Related), and == is one: reflexive, [bind_ext] *)
Section Ext.
Variables (ev1 ev2 : expr -> M Z) (ex1 ex2 : stmt -> M unit).
Hypothesis Hev : forall e, ev1 e == ev2 e.
Hypothesis Hex : forall s, ex1 s == ex2 s.
Let same A (m : M A) (_ : forall s, snd (m s) = s) : m == m := meq_refl m.

Lemma eval_list_ext es : eval_list ev1 es == eval_list ev2 es.
Proof. exact (rel_eval_list (@meq) same (@bind_ext) ev1 ev2 Hev es). Qed.
Lemma eval_args_ext ps es : eval_args ev1 ps es == eval_args ev2 ps es.
Proof. exact (rel_eval_args (@meq) same (@bind_ext) ev1 ev2 Hev ps es). Qed.
Lemma exec_list_ext ss : exec_list ex1 ss == exec_list ex2 ss.
Proof. exact (rel_exec_list (@meq) same (@bind_ext) ex1 ex2 Hex ss). Qed.
Lemma in_block_ext ss : in_block ex1 ss == in_block ex2 ss.
Proof. unfold in_block. auto using exec_list_ext with meq. Qed.
Lemma print_args_ext first es : print_args ev1 first es == print_args ev2 first es.
Proof. exact (rel_print_args (@meq) same (fun o => meq_refl _) (@bind_ext) ev1 ev2 Hev first es). Qed.
Lemma bind_params_ext ps vs : bind_params ev1 ps vs == bind_params ev2 ps vs.
Proof. exact (rel_bind_params (@meq) same (fun sta cst t x d vs => meq_refl _) (@bind_ext) ev1 ev2 Hev ps vs). Qed.
Lemma lval_target_ext lv : lval_target ev1 lv == lval_target ev2 lv.
Proof. exact (rel_lval_target (@meq) same (@bind_ext) ev1 ev2 Hev lv). Qed.
End Ext.
#[local] Hint Resolve sc_and_ext sc_or_ext eval_list_ext eval_args_ext exec_list_ext in_block_ext print_args_ext
  bind_params_ext lval_target_ext : meq.

Section Off.
Variable D : dev.
Variable funcs : list func.

(* d_noshort (off since a51b767): Mech's && || are Ref's combinators over Mech's operand evaluation *)
Lemma mech_and_eq k ty a b : d_noshort D = false ->
  ieval D funcs (S k) ty (EAnd a b) = sc_and (ieval D funcs k ty a) (ieval D funcs k ty b).
Proof. intros H. cbn [ieval]. rewrite H. reflexivity. Qed.
Lemma mech_or_eq k ty a b : d_noshort D = false ->
  ieval D funcs (S k) ty (EOr a b) = sc_or (ieval D funcs k ty a) (ieval D funcs k ty b).
Proof. intros H. cbn [ieval]. rewrite H. reflexivity. Qed.

(* d_rtl (off since 2967bbb): subscript lists are evaluated by Ref's left-to-right list evaluator *)
Lemma mech_index_list_ltr ev es : d_rtl D = false -> index_list D ev es = eval_list (ev false) es.
Proof. intros H. unfold index_list. rewrite H. reflexivity. Qed.
Lemma mech_lval_target ev lv : d_rtl D = false -> ilval_target D ev lv = lval_target (ev false) lv.
Proof. intros H. destruct lv; cbn [ilval_target lval_target]; [|rewrite (mech_index_list_ltr _ _ H)]; reflexivity. Qed.

(* d_twice: an element read evaluates its subscript list once, typed context or not *)
Lemma mech_read_once ev ty a idx : d_twice D = false ->
  read_elem D ev ty a idx = (is_ <- index_list D ev idx ;; m_read a is_).
Proof. intros H. unfold read_elem. rewrite H, andb_false_r. reflexivity. Qed.

(* d_elemcall (off since df79998): nothing is evaluated ahead of the value of an assignment *)
Lemma mech_no_pre_eval ev lv e : d_elemcall D = false -> pre_eval D ev lv e = ret tt.
Proof. intros H. unfold pre_eval. rewrite H. destruct lv; [reflexivity|]. destruct e; reflexivity. Qed.

(* d_retry: println evaluates an argument once *)
Lemma mech_print_once ev e : d_retry D = false -> print_arg D ev e = ev true e.
Proof. intros H. unfold print_arg. rewrite H. reflexivity. Qed.
End Off.

Lemma dev_pinned_repaired : d_noshort dev_pinned = false /\ d_rtl dev_pinned = false /\ d_elemcall dev_pinned = false.
Proof. repeat split. Qed.

(* Induction on the fuel.  A construct without a switch has the same shape in both evaluators and is settled
   by congruence: the hints of [meq] are syntax-directed, so [auto] only needs a depth that reaches the deepest
   nest of combinators (12, the call).  The others first lose the switches of [dev_none] by the lemmas of
   section Off, or need a case distinction the hints do not make.  [simpl] takes one step of [ieval], [eval]
   and [exec] but leaves [iexec] folded, hence the unfold / fold. *)
Theorem mech_no_deviation_is_ref_l funcs : forall n,
  (forall ty e, ieval dev_none funcs n ty e == eval funcs n e) /\
  (forall st, iexec dev_none funcs n st == exec funcs n st).
Proof.
  induction n as [|k [IHe IHx]]; [split; intros; apply meq_refl|].
  split.
  - intros ty e. destruct e; simpl; try solve [auto 12 with meq].
    + apply sc_and_ext; apply IHe.
    + apply sc_or_ext; apply IHe.
    + destruct (find_func f funcs) as [fd|]; auto 12 with meq.
    + rewrite mech_read_once, mech_index_list_ltr by reflexivity. auto 12 with meq.
  - intros st. destruct st; simpl; unfold iexec; fold (ieval dev_none funcs) (iexec dev_none funcs);
      try solve [auto 12 with meq].
    + destruct init; auto 12 with meq.
    + rewrite mech_lval_target by reflexivity. destruct op; [auto 12 with meq|].
      rewrite mech_no_pre_eval by reflexivity. intros s. unfold bind at 1, ret at 1. revert s.
      apply bind_ext; auto 12 with meq.
    + rewrite mech_lval_target by reflexivity. auto 12 with meq.
    + destruct e; auto 12 with meq.
    + apply bind_ext; [|auto 12 with meq]. apply print_args_ext. intros e.
      rewrite mech_print_once by reflexivity. apply IHe.
Qed.

(* evaluating both operands is invisible when, in the state where the left operand has decided, the right
   operand yields a value and leaves the state alone *)
Lemma ns_and_invisible ea eb s :
  (forall s1, ea s = (Val 0, s1) -> exists v, eb s1 = (Val v, s1)) -> ns_and ea eb s = sc_and ea eb s.
Proof.
  intros H. unfold ns_and, sc_and, bind. destruct (ea s) as [c s1] eqn:E. destruct c; try reflexivity.
  destruct (a =? 0) eqn:Ez.
  - apply Z.eqb_eq in Ez. subst a. destruct (H s1 eq_refl) as [v Hv]. rewrite Hv. reflexivity.
  - destruct (eb s1) as [c2 s2]. destruct c2; reflexivity.
Qed.

Lemma ns_or_invisible ea eb s :
  (forall x s1, ea s = (Val x, s1) -> x <> 0 -> exists v, eb s1 = (Val v, s1)) -> ns_or ea eb s = sc_or ea eb s.
Proof.
  intros H. unfold ns_or, sc_or, bind. destruct (ea s) as [c s1] eqn:E. destruct c; try reflexivity.
  destruct (a =? 0) eqn:Ez.
  - destruct (eb s1) as [c2 s2]. destruct c2; try reflexivity.
  - assert (Hnz : a <> 0) by (apply Z.eqb_neq; exact Ez).
    destruct (H a s1 eq_refl Hnz) as [v Hv]. rewrite Hv. reflexivity.
Qed.

Corollary ns_and_quiet ea eb : quiet eb -> forall s, ns_and ea eb s = sc_and ea eb s.
Proof. intros Hq s. apply ns_and_invisible. intros s1 _. apply Hq. Qed.
Corollary ns_or_quiet ea eb : quiet eb -> forall s, ns_or ea eb s = sc_or ea eb s.
Proof. intros Hq s. apply ns_or_invisible. intros x s1 _ _. apply Hq. Qed.

(* a literal is quiet under both evaluators *)
Lemma lit_quiet D funcs k ty z : quiet (ieval D funcs (S k) ty (ENum z)).
Proof. intros s. exists z. reflexivity. Qed.
