(* C03 - traced operands: a call t(k, v) prints its label k and returns v, a call bad(k) prints k and
   fails.  With such operands the transcript is the event order, so "evaluated once, left to right"
   becomes an equation on the output.  Here: what ONE such operand does, for every function table that
   contains the two operand functions, every fuel (above the constant the operand functions need) and
   every state. *)
From Coq Require Import List ZArith.
From Cb Require Import Lang.Syntax Lang.Sem Lang.Respect Lang.Theorems C03.Model C03.RefOrder.
Import ListNotations.
Local Open Scope Z_scope.

Lemma coerce_tlong z : in64 z = true -> coerce tlong z = Val z.
Proof. unfold coerce, in_range, range, tlong, in64. cbn. intros ->. reflexivity. Qed.

Lemma with_out_out s o : sout (with_out s o) = o.
Proof. reflexivity. Qed.
Lemma with_out_twice s o1 o2 : with_out (with_out s o1) o2 = with_out s o2.
Proof. reflexivity. Qed.
Lemma with_out_same s : with_out s (sout s) = s.
Proof. destruct s; reflexivity. Qed.
Lemma traced_app ks1 ks2 o : traced (ks1 ++ ks2) o = traced ks2 (traced ks1 o).
Proof. unfold traced. apply fold_left_app. Qed.
Lemma traced_cons k ks o : traced (k :: ks) o = traced ks (trace1 k o).
Proof. reflexivity. Qed.

Section Traced.
Variable funcs : list func.
Hypothesis Hfuncs : has_operand_funcs funcs.
Notation eval := (eval funcs).

(* one traced operand: value v, output extended by exactly "k\n", nothing else changed *)
Lemma tcall_eval n k v s : in64 k = true -> in64 v = true ->
  eval (S (S (S n))) (tcall k v) s = (Val v, with_out s (trace1 k (sout s))).
Proof.
  intros Hk Hv. destruct Hfuncs as [Ht _]. unfold tcall.
  (* k and v pass the range check of `long` as arguments and again when bound to the parameters, v a third time as
     the result: each [coerce_tlong] below removes one of these checks once evaluation has reached it *)
  rewrite (eval_call_eq funcs (S (S n)) f_t [ENum k; ENum v] t_fun Ht eq_refl).
  destruct s as [g fr st o].
  cbn [t_fun fparams fret fbody eval_args bind_params exec_list pty pname pdef].
  rewrite !eval_S_num, exec_S_print, exec_S_return. cbn [print_args]. rewrite !eval_S_var.
  unfold bind, ret, lift. cbn [fst snd].
  rewrite !(coerce_tlong _ Hk), !(coerce_tlong _ Hv).
  unfold m_push_frame, finally, map_ctl, m_declare. cbn [sglob sframes sstat sout coerce_all].
  rewrite !(coerce_tlong _ Hk). cbn [sframes sglob sstat sout fscopes ffn].
  cbn [coerce_all]. rewrite !(coerce_tlong _ Hv). cbn [sframes sglob sstat sout fscopes ffn].
  cbn -[coerce]. rewrite !(coerce_tlong _ Hv). reflexivity.
Qed.

(* one failing operand: prints its label, fails with a division by zero *)
Lemma bcall_eval n k s : in64 k = true ->
  eval (S (S (S (S n)))) (bcall k) s = (Fail EDiv0, with_out s (trace1 k (sout s))).
Proof.
  intros Hk. destruct Hfuncs as [_ Hb]. unfold bcall.
  rewrite (eval_call_eq funcs (S (S (S n))) f_bad [ENum k] bad_fun Hb eq_refl).
  destruct s as [g fr st o].
  cbn [bad_fun fparams fret fbody eval_args bind_params exec_list pty pname pdef].
  rewrite !eval_S_num, exec_S_print, exec_S_return, exec_decl. cbn [print_args]. rewrite !eval_S_var, !eval_S_num.
  rewrite (eval_S_bin funcs (S n)). rewrite !eval_S_var.
  unfold bind, ret, lift. cbn [fst snd].
  rewrite !(coerce_tlong _ Hk).
  unfold m_push_frame, finally, map_ctl, m_declare. cbn [sglob sframes sstat sout coerce_all].
  rewrite !(coerce_tlong _ Hk). cbn [sframes sglob sstat sout fscopes ffn].
  cbn. reflexivity.
Qed.

Definition tcalls (kvs : list (Z * Z)) : list expr := map (fun kv => tcall (fst kv) (snd kv)) kvs.
Definition ok_kvs (kvs : list (Z * Z)) : Prop := Forall (fun kv => in64 (fst kv) = true /\ in64 (snd kv) = true) kvs.

Lemma coerce_all_ok kvs : ok_kvs kvs -> Forall (fun v => in64 v = true) (map snd kvs).
Proof. induction 1 as [|x l [_ Hv] _ IH]; constructor; assumption. Qed.
End Traced.

Lemma m_read_state x i s : snd (m_read x i s) = s.
Proof. exact (Respect.m_read_state x i s). Qed.
