(* C03 - six witness programs for the five deviation switches of Mech (EvalOrder.v), and by computation what they
   print with every switch on (/repo before a51b767 / 2967bbb / df79998) and with one switch alone.  Each witness
   is replayed on /repo's `main` by harness/props/c03.py (known_findings/C03.json). *)
From Coq Require Import List ZArith.
From Cb Require Import Lang.Syntax Lang.Sem Lang.Print C03.Model C03.EvalOrder.
Import ListNotations.
Local Open Scope Z_scope.

Definition prog (gs : list gdecl) (main : list stmt) : program :=
  {| pglobals := gs; pfuncs := [t_fun; bad_fun]; pmain := main |}.
Definition g_m : gdecl := {| gcst := false; gty := tlong; gname := 9%nat; gdims := [2%nat; 2%nat]; ginit := [] |}.
Definition g_a : gdecl := {| gcst := false; gty := tlong; gname := 8%nat; gdims := [3%nat]; ginit := [] |}.

(* if (t(1,0) != 0 && t(2,1) > 0) println(100); else println(200); *)
Definition w_sc := prog []
  [SIf (EAnd (EBin Ne (tcall 1 0) (ENum 0)) (EBin Gt (tcall 2 1) (ENum 0))) [SPrint true [ENum 100]] [SPrint true [ENum 200]]].
(* long d = 0; long n = 10; if (d != 0 && n / d > 1) println(1); else println(0); *)
Definition w_guard := prog []
  [SDecl false false tlong 12%nat (Some (ENum 0)); SDecl false false tlong 13%nat (Some (ENum 10));
   SIf (guard_div 12%nat 13%nat) [SPrint true [ENum 1]] [SPrint true [ENum 0]]].
(* m[t(1,1)][t(0,0)] = t(7,7); println(m[1][0]); *)
Definition w_idx := prog [g_m]
  [SAssign (LIdx 9%nat [tcall 1 1; tcall 0 0]) None (tcall 7 7); SPrint true [EIdx 9%nat [ENum 1; ENum 0]]].
(* a[0] = t(5,3); println(a[0]); *)
Definition w_elem := prog [g_a] [SAssign (LIdx 8%nat [ENum 0]) None (tcall 5 3); SPrint true [EIdx 8%nat [ENum 0]]].
(* long x = m[t(1,1)][t(2,0)]; println(x); *)
Definition w_twice := prog [g_m]
  [SDecl false false tlong 7%nat (Some (EIdx 9%nat [tcall 1 1; tcall 2 0])); SPrint true [EVar 7%nat]].
(* println(t(1,1) + bad(2)); *)
Definition w_retry := prog [] [SPrint true [EBin Add (tcall 1 1) (bcall 2)]].

Definition lines (zs : list Z) : list oitem := flat_map (fun z => [OInt z; ONl]) zs.

(* the code before a51b767 / 2967bbb / df79998; no obligation, kept to recognise a regression *)
Lemma before_fixes_runs :
  irun dev_before_fixes 50 w_sc = (lines [1; 2; 200], Finished) /\
  irun dev_before_fixes 50 w_guard = ([], Failed EDiv0) /\
  irun dev_before_fixes 50 w_idx = (lines [7; 7; 0; 1; 7], Finished) /\
  irun dev_before_fixes 50 w_elem = (lines [5; 5; 3], Finished) /\
  irun dev_before_fixes 50 w_twice = (lines [2; 1; 2; 1; 0], Finished).
Proof. repeat apply conj; vm_compute; reflexivity. Qed.

Lemma before_fixes_and_law_fails :
  let s := state_with [] in
  ieval dev_before_fixes [] 1 false (ENum 0) s = (Val 0, s) /\
  ieval dev_before_fixes [] 3 false (EAnd (ENum 0) (EBin Div (ENum 1) (ENum 0))) s = (Fail EDiv0, s).
Proof. split; vm_compute; reflexivity. Qed.

(* each switch alone changes the length of the transcript or the kind of outcome on its own witnesses and on no
   other; d_rtl changes neither, it permutes the transcript ([rtl_alone_reorders]) *)
Definition only_noshort := {| d_noshort := true; d_rtl := false; d_twice := false; d_elemcall := false; d_retry := false |}.
Definition only_rtl := {| d_noshort := false; d_rtl := true; d_twice := false; d_elemcall := false; d_retry := false |}.
Definition only_twice := {| d_noshort := false; d_rtl := false; d_twice := true; d_elemcall := false; d_retry := false |}.
Definition only_elemcall := {| d_noshort := false; d_rtl := false; d_twice := false; d_elemcall := true; d_retry := false |}.
Definition only_retry := {| d_noshort := false; d_rtl := false; d_twice := false; d_elemcall := false; d_retry := true |}.

Definition differs (D : dev) (p : program) : bool :=
  let '(o1, c1) := irun D 50 p in let '(o2, c2) := run 50 p in
  negb (Nat.eqb (List.length o1) (List.length o2)) || match c1, c2 with Finished, Finished => false | Failed _, Failed _ => false | _, _ => true end.

Lemma switches_are_independent :
  map (fun D => map (differs D) [w_sc; w_guard; w_idx; w_elem; w_twice; w_retry]) [only_noshort; only_rtl; only_twice; only_elemcall; only_retry] =
  [ [true; true; false; false; false; false];
    [false; false; false; false; false; false];     (* order alone does not change the LENGTH of a transcript *)
    [false; false; false; false; true; false];
    [false; false; true; true; false; false];
    [false; false; false; false; false; true] ].
Proof. vm_compute. reflexivity. Qed.

Lemma rtl_alone_reorders : irun only_rtl 50 w_idx = (lines [7; 0; 1; 7], Finished) /\ irun only_rtl 50 w_twice = (lines [2; 1; 0], Finished).
Proof. split; vm_compute; reflexivity. Qed.
