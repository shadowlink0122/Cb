(* C03 - what is needed to follow the shared reference interpreter (Lang.Sem) operand by operand: the laws
   of the two short-circuit combinators (they hold for any operand computations, so Ref and Mech share them), the
   clauses of [eval] / [exec] in the form used here (over [sc_and] / [sc_or], a call already resolved; the others
   are Lang.Theorems'), operand lists. *)
From Coq Require Import List ZArith Bool.
From Cb Require Import Lang.Syntax Lang.Sem Lang.Respect Lang.Theorems C03.Model.
Import ListNotations.
Local Open Scope Z_scope.

(* the left operand decides: the result is fixed and the final state is exactly the state after the
   left operand, whatever the right operand is (printing, failing, diverging, ill-formed) *)
Lemma sc_and_skips ea eb s s1 : ea s = (Val 0, s1) -> sc_and ea eb s = (Val 0, s1).
Proof. intros H. unfold sc_and. rewrite (bind_val _ _ _ _ _ H). reflexivity. Qed.
Lemma sc_or_skips ea eb s x s1 : ea s = (Val x, s1) -> x <> 0 -> sc_or ea eb s = (Val 1, s1).
Proof. intros H Hx. unfold sc_or. rewrite (bind_val _ _ _ _ _ H). apply Z.eqb_neq in Hx. rewrite Hx. reflexivity. Qed.
(* it does not decide: the right operand runs from the state the left one produced *)
Lemma sc_and_runs ea eb s x s1 : ea s = (Val x, s1) -> x <> 0 -> sc_and ea eb s = (y <- eb ;; ret (truth y)) s1.
Proof. intros H Hx. unfold sc_and. rewrite (bind_val _ _ _ _ _ H). apply Z.eqb_neq in Hx. rewrite Hx. reflexivity. Qed.
Lemma sc_or_runs ea eb s s1 : ea s = (Val 0, s1) -> sc_or ea eb s = (y <- eb ;; ret (truth y)) s1.
Proof. intros H. unfold sc_or. rewrite (bind_val _ _ _ _ _ H). reflexivity. Qed.

Section Ref.
Variable funcs : list func.
Notation eval := (eval funcs).
Notation exec := (exec funcs).

Lemma eval_and_eq k a b : eval (S k) (EAnd a b) = sc_and (eval k a) (eval k b).
Proof. reflexivity. Qed.
Lemma eval_or_eq k a b : eval (S k) (EOr a b) = sc_or (eval k a) (eval k b).
Proof. reflexivity. Qed.
Lemma eval_call_eq k f args fd :
  find_func f funcs = Some fd ->
  (Nat.ltb (List.length args) (required (fparams fd))) || (Nat.ltb (List.length (fparams fd)) (List.length args)) = false ->
  eval (S k) (ECall f args) =
  (vs <- eval_args (eval k) (fparams fd) args ;;
   m_push_frame f ;;;
   finally (map_ctl (call_result (fret fd))
              (bind_params (eval k) (fparams fd) vs ;;; exec_list (exec k) (fbody fd))) pop_frame_st).
Proof. intros Hf Ha. rewrite eval_S_call, Hf, Ha. reflexivity. Qed.
Lemma exec_decl k t x e : exec (S k) (SDecl false false t x (Some e)) = (v <- eval k e ;; m_declare false false t x [] [v]).
Proof. reflexivity. Qed.

(* binary operators: left, then right from the state the left one produced, then the operator *)
Lemma binop_both k o a b s x s1 y s2 :
  eval k a s = (Val x, s1) -> eval k b s1 = (Val y, s2) -> eval (S k) (EBin o a b) s = (arith o x y, s2).
Proof. intros Ha Hb. rewrite eval_S_bin, (bind_val _ _ _ _ _ Ha), (bind_val _ _ _ _ _ Hb). reflexivity. Qed.
End Ref.

Lemma eval_list_cons (ev : expr -> M Z) e r : eval_list ev (e :: r) = (v <- ev e ;; vs <- eval_list ev r ;; ret (v :: vs)).
Proof. reflexivity. Qed.
Lemma eval_args_cons (ev : expr -> M Z) p pr e r :
  eval_args ev (p :: pr) (e :: r) = (v <- ev e ;; v' <- lift (coerce (pty p) v) ;; vs <- eval_args ev pr r ;; ret (v' :: vs)).
Proof. reflexivity. Qed.
(* without parameters the argument loop is the plain list evaluator *)
Lemma eval_args_nil (ev : expr -> M Z) es : eval_args ev [] es = eval_list ev es.
Proof. induction es as [|e r IH]; cbn [eval_args eval_list]; [|rewrite IH]; reflexivity. Qed.
